(* C11 -- property theorems only.  Model: Stepper.v (stepping loop, `finally` cleanup) over
   Lang.exec_stmt with the user functions as a universally quantified oracle F (None = raises).
   Pre, built, admissible, lv_ok, run_rel are defined in proofs/StepperProofs.v, WL in proofs/LangProofs.v. *)
From Coq Require Import List String ZArith.
From Dagrt Require Import GenLang Lang LangProofs Builder Sched SchedProofs Stepper StepperProofs.

(* the step in which a user function raises (or any other exception escapes): the statements
   before the failing one ran, nothing after it did; afterwards no per-step name is visible, and a
   persistent variable that none of the executed statements (the failing one included) writes holds
   its value from before the step -- in particular every variable whose writers all depend on the
   failed statement.  (The model keeps the store from before the failing statement; the effects of
   loop iterations it completed before raising are not modelled, hence the failing statement is
   counted among the writers.) *)
Theorem C11_state_after_exception : forall F del_guarded keep l1 st l2 s s1 evs1 (user : bool),
  exec_seq F del_guarded l1 s nil = (s1, evs1, BDone) ->
  snd (exec_stmt F del_guarded s1 st) = (if user then OUserExn else OCrash) ->
  let final := cleanup keep (fst (fst (exec_seq F del_guarded (l1 ++ st :: l2) s nil))) in
  Pre keep final /\
  (forall x, keep x = true -> (forall a, In a (l1 ++ st :: nil) -> ~ WL a x) -> final x = s x) /\
  snd (exec_seq F del_guarded (l1 ++ st :: l2) s nil) = BExn user.
Proof. exact exn_state. Qed.
Print Assumptions C11_state_after_exception.

(* any variable, however the body ends: unchanged unless an executed statement writes it
   ("its value from before the step or a value the written program assigns to it in that step") *)
Theorem C11_old_or_assigned : forall F del_guarded l s evs s1 evs1 e x,
  exec_seq F del_guarded l s evs = (s1, evs1, e) ->
  (forall st, In st l -> ~ WL st x) -> s1 x = s x.
Proof. exact exec_seq_unch. Qed.
Print Assumptions C11_old_or_assigned.

(* stepping on from the state an exception left behind is stepping a fresh stepper started in that
   state and phase: the loop depends on nothing but the persistent store and next_phase, whatever
   admissible order (stale plan or not) each stepper uses *)
Theorem C11_resume : forall F del_guarded keep obs ord1 ord2 d,
  (forall p, In p d -> built (is_state_of state_exact state_prefixes) exec_state_token (ph_stmts p)
                       /\ lv_ok keep (ph_stmts p)) ->
  (forall p i, In p d -> admissible (ph_stmts p) (ord1 (ph_name p) i (ph_stmts p))) ->
  (forall p i, In p d -> admissible (ph_stmts p) (ord2 (ph_name p) i (ph_stmts p))) ->
  forall fuel s s' next t_end max_steps,
  Pre keep s -> (forall x, s x = s' x) ->
  run_rel (run F del_guarded keep obs ord1 fuel d s next t_end max_steps 0 0)
          (run F del_guarded keep obs ord2 fuel d s' next t_end max_steps 0 0).
Proof.
  exact (fun F g keep obs ord1 ord2 d Hd H1 H2 fuel s s' next te mx =>
    run_admissible_independent F g _ exec_state_token keep obs ord1 ord2 d Hd H1 H2 fuel s s' next te mx 0 0).
Qed.
Print Assumptions C11_resume.
