(* C13 -- property theorems only.  Each is closed by `exact` of a lemma from proofs/NamesProofs.v and followed
   by Print Assumptions.  The model (model/Names.v) is parameterised by the shape switch
   GenC13.fortran_casefold; the last theorem needs it to be `true` (dagrt/codegen/fortran.py uses the
   case-insensitive unique-name generator of fixes/C13_fortran_casefold.patch). *)
From Coq Require Import List String Bool.
From Dagrt Require Import GenC13 Names NamesProofs.
Import ListNotations.
Open Scope string_scope.

(* Full statement of the property for the code as it is now (constants and switch from GenC13.v):
   for every history of manager calls, every later lookup repeats the first answer; bindings of different
   (name space, key) pairs are different under the target's comparison; every identifier is legal in the
   target and not one the generator keeps for itself; persistent names are instance/state storage.
   The parts that do not hold are refuted below (C13_*_refuted) and proved with their explicit exclusions
   (C13_*_partial). *)
Definition C13_full_statement : Prop :=
  (* stability *)
  (forall s k v s1 ops outs s2, py_step s (PGetItem k) = Ok (Some v, s1) -> py_run s1 ops = Ok (outs, s2) ->
     (is_state_variable k = false -> ~ In PClear ops) -> py_step s2 (PGetItem k) = Ok (Some v, s2)) /\
  (forall s op o s1 ops outs s2, (forall p, op <> FUnique p) ->
     f_step fortran_casefold s op = Ok (o, s1) -> f_run fortran_casefold s1 ops = Ok (outs, s2) ->
     f_step fortran_casefold s2 op = Ok (o, s2)) /\
  (* Python *)
  (forall s sp1 k1 v1 sp2 k2 v2, py_reach s -> py_lookup s sp1 k1 = Some v1 -> py_lookup s sp2 k2 = Some v2 ->
     (sp1 <> sp2 \/ k1 <> k2) -> v1 <> v2) /\
  (forall s sp k v, py_reach s -> py_lookup s sp k = Some v ->
     match sp with
     | Local => py_identifier v = true
     | Global => exists a, v = py_self ++ a /\ py_identifier a = true
     | Function => exists a, v = py_function_prefix ++ a /\ py_identifier a = true
     end) /\
  (* Fortran *)
  (forall s sp1 k1 v1 sp2 k2 v2, f_reach fortran_casefold s ->
     f_lookup s sp1 k1 = Some v1 -> f_lookup s sp2 k2 = Some v2 -> (sp1 <> sp2 \/ k1 <> k2) ->
     lower v1 <> lower v2) /\
  (forall s sp k v, f_reach_wf fortran_casefold s -> f_lookup s sp k = Some v ->
     f_identifier v = true /\ (assoc k f_global_start = None -> f_reserved v = false)).

(* the candidate search ends within |existing|+1 tries: never OutOfFuel (Python: never loops for ever) *)
Theorem C13_gen_terminates : forall cf g based_on, exists v g', gen_call cf g based_on = Ok (v, g').
Proof. exact gen_call_total. Qed.
Print Assumptions C13_gen_terminates.

(* a generated name is new under the generator's comparison and is remembered *)
Theorem C13_gen_fresh : forall cf g based_on v g',
  gen_call cf g based_on = Ok (v, g') ->
  out_shape (g_fp g) based_on v /\ conflicting cf (g_existing g) v = false /\
  g_existing g' = v :: g_existing g /\ g_fp g' = g_fp g.
Proof. exact gen_call_spec. Qed.
Print Assumptions C13_gen_fresh.

(* the managers' constructors succeed, and no sequence of calls fails *)
Theorem C13_managers_total :
  py_init = Ok py0 /\ (forall cf, f_init cf = Ok f0) /\
  (forall ops s, exists outs s', py_run s ops = Ok (outs, s')) /\
  (forall cf ops s, exists outs s', f_run cf s ops = Ok (outs, s')).
Proof. exact (conj py_init_ok (conj f_init_ok (conj py_run_total f_run_total))). Qed.
Print Assumptions C13_managers_total.

Theorem C13_stable_py : forall s sp k v s1 ops outs s2,
  py_step s (py_op_of sp k) = Ok (Some v, s1) -> py_run s1 ops = Ok (outs, s2) ->
  (sp = Local -> ~ In PClear ops) ->
  py_step s2 (py_op_of sp k) = Ok (Some v, s2).
Proof. exact py_stable. Qed.
Print Assumptions C13_stable_py.

Theorem C13_stable_py_getitem : forall s k v s1 ops outs s2,
  py_step s (PGetItem k) = Ok (Some v, s1) -> py_run s1 ops = Ok (outs, s2) ->
  (is_state_variable k = false -> ~ In PClear ops) ->
  py_step s2 (PGetItem k) = Ok (Some v, s2).
Proof. exact py_stable_getitem. Qed.
Print Assumptions C13_stable_py_getitem.

Theorem C13_stable_f : forall s op o s1 ops outs s2,
  (forall p, op <> FUnique p) ->
  f_step fortran_casefold s op = Ok (o, s1) -> f_run fortran_casefold s1 ops = Ok (outs, s2) ->
  f_step fortran_casefold s2 op = Ok (o, s2).
Proof. exact (f_stable fortran_casefold). Qed.
Print Assumptions C13_stable_f.

Theorem C13_injective_py : forall s sp1 k1 v1 sp2 k2 v2,
  py_reach s -> py_lookup s sp1 k1 = Some v1 -> py_lookup s sp2 k2 = Some v2 ->
  (sp1 <> sp2 \/ k1 <> k2) -> v1 <> v2.
Proof. exact (fun s sp1 k1 v1 sp2 k2 v2 R => py_injective s sp1 k1 v1 sp2 k2 v2 (py_reach_inv s R)). Qed.
Print Assumptions C13_injective_py.

(* Fortran, as strings (holds with either generator): missing = the comparison that ignores case *)
Theorem C13_injective_f_partial : forall s sp1 k1 v1 sp2 k2 v2,
  f_reach fortran_casefold s -> f_lookup s sp1 k1 = Some v1 -> f_lookup s sp2 k2 = Some v2 ->
  (sp1 <> sp2 \/ k1 <> k2) -> v1 <> v2.
Proof.
  exact (fun s sp1 k1 v1 sp2 k2 v2 R =>
           f_injective_case_sensitive fortran_casefold s sp1 k1 v1 sp2 k2 v2 (f_reach_inv _ s R)).
Qed.
Print Assumptions C13_injective_f_partial.

(* the plain pytools generator (the unchanged tree): names that differ only in case collide *)
Theorem C13_injective_f_refuted_plain :
  exists k1 k2 v1 v2, k1 <> k2 /\ f_outputs false [FGetItem k1; FGetItem k2] = Some [v1; v2] /\ lower v1 = lower v2.
Proof. exact f_injective_lower_refuted_plain. Qed.
Print Assumptions C13_injective_f_refuted_plain.

(* temporaries from make_unique_fortran_name are new and stay different from later ones *)
Theorem C13_unique_fresh_f : forall s p o s',
  f_reach fortran_casefold s -> f_step fortran_casefold s (FUnique p) = Ok (o, s') ->
  ~ In (nrm fortran_casefold o) (map (nrm fortran_casefold) (g_existing (f_gen s))) /\
  (forall sp k v, f_lookup s sp k = Some v -> nrm fortran_casefold v <> nrm fortran_casefold o) /\
  g_existing (f_gen s') = o :: g_existing (f_gen s).
Proof. exact (fun s p o s' R => f_unique_fresh fortran_casefold s p o s' (f_reach_inv _ s R)). Qed.
Print Assumptions C13_unique_fresh_f.

Theorem C13_storage_py : forall s k v s',
  py_reach s -> py_step s (PGetItem k) = Ok (Some v, s') ->
  (is_state_variable k = true -> prefix py_self v = true /\ prefix py_local_prefix v = false) /\
  (is_state_variable k = false -> prefix py_local_prefix v = true /\ prefix py_self v = false).
Proof. exact (fun s k v s' R => py_storage s k v s' (py_reach_inv s R)). Qed.
Print Assumptions C13_storage_py.

Theorem C13_storage_f : forall s k v s',
  f_reach fortran_casefold s -> f_step fortran_casefold s (FGetItem k) = Ok (v, s') ->
  (is_state_variable k = true -> prefix f_state_qualifier v = true) /\
  (is_state_variable k = false -> sall is_word v = true /\ prefix f_state_qualifier v = false).
Proof. exact (fun s k v s' R => f_storage fortran_casefold s k v s' (f_reach_inv _ s R)). Qed.
Print Assumptions C13_storage_f.

(* Python: missing = function identifiers without the <func> tag *)
Theorem C13_legal_py_partial : forall s sp k v,
  py_reach s -> py_lookup s sp k = Some v ->
  match sp with
  | Local => py_identifier v = true
  | Global => exists a, v = py_self ++ a /\ py_identifier a = true
  | Function => prefix py_func_tag k = true -> exists a, v = py_function_prefix ++ a /\ py_identifier a = true
  end.
Proof. exact (fun s sp k v R => py_legal s sp k v (py_reach_inv s R)). Qed.
Print Assumptions C13_legal_py_partial.

Theorem C13_legal_py_refuted :
  exists k v a, py_outputs [PFunction k] = Some [Some v] /\ v = py_function_prefix ++ a /\ py_identifier a = false.
Proof. exact py_legal_function_refuted. Qed.
Print Assumptions C13_legal_py_refuted.

(* Fortran: missing = the 63-character bound, and a letter in front of function names *)
Theorem C13_legal_f_partial : forall s sp k v,
  f_reach_wf fortran_casefold s -> f_lookup s sp k = Some v ->
  match sp with
  | Local | Global => f_name_chars v = true
  | Function => sall is_word v = true
  end.
Proof. exact (fun s sp k v R => f_legal_chars s sp k v (proj2 (f_reach_wf_inv _ s R))). Qed.
Print Assumptions C13_legal_f_partial.

Theorem C13_legal_f_unique : forall s p o s',
  f_reach fortran_casefold s -> f_step fortran_casefold s (FUnique p) = Ok (o, s') ->
  f_name_chars o = true /\ f_reserved o = false.
Proof. exact (fun s p o s' R => f_unique_legal fortran_casefold s p o s' (f_reach_inv _ s R)). Qed.
Print Assumptions C13_legal_f_unique.

Theorem C13_legal_f_refuted_length :
  exists k v, f_outputs fortran_casefold [FGetItem k] = Some [v] /\ f_name_chars v = true /\ f_identifier v = false.
Proof. exact (f_legal_length_refuted fortran_casefold). Qed.
Print Assumptions C13_legal_f_refuted_length.

Theorem C13_legal_f_refuted_function :
  exists k v, f_outputs fortran_casefold [FFunction k] = Some [v] /\ f_name_chars v = false.
Proof. exact (f_legal_function_refuted fortran_casefold). Qed.
Print Assumptions C13_legal_f_refuted_function.

Theorem C13_reserved_py : forall s sp k v,
  py_reach s -> py_lookup s sp k = Some v ->
  match sp with
  | Local => existsb (String.eqb v) py_reserved_words = false
  | Global => assoc k py_global_start = None ->
              exists a, v = py_self ++ a /\ existsb (String.eqb a) py_reserved_words = false
  | Function => exists a, v = py_function_prefix ++ a /\ first_is is_us a = false
  end.
Proof. exact (fun s sp k v R => py_reserved s sp k v (py_reach_inv s R)). Qed.
Print Assumptions C13_reserved_py.

(* Fortran: missing = user variables whose own name starts with "dagrt_" *)
Theorem C13_reserved_f_partial : forall s sp k v,
  f_reach_wf fortran_casefold s -> f_lookup s sp k = Some v ->
  match sp with
  | Local => prefix f_internal_prefix k = false -> f_reserved v = false
  | Global => assoc k f_global_start = None -> f_reserved v = false
  | Function => True
  end.
Proof. exact (fun s sp k v R => f_reserved_ok s sp k v (proj2 (f_reach_wf_inv _ s R))). Qed.
Print Assumptions C13_reserved_f_partial.

Theorem C13_reserved_f_refuted :
  exists k v, f_outputs fortran_casefold [FGetItem k] = Some [v] /\ f_reserved v = true /\ In v f_own_tokens.
Proof. exact (f_reserved_refuted fortran_casefold). Qed.
Print Assumptions C13_reserved_f_refuted.

(* LAST: type-checks only when GenC13.fortran_casefold = true *)
Theorem C13_injective_f : forall s sp1 k1 v1 sp2 k2 v2,
  f_reach fortran_casefold s -> f_lookup s sp1 k1 = Some v1 -> f_lookup s sp2 k2 = Some v2 ->
  (sp1 <> sp2 \/ k1 <> k2) -> lower v1 <> lower v2.
Proof.
  exact (fun s sp1 k1 v1 sp2 k2 v2 (R : f_reach true s) =>
           f_injective_nrm true s sp1 k1 v1 sp2 k2 v2 (f_reach_inv true s R)).
Qed.
Print Assumptions C13_injective_f.
