(* C01 -- property theorems only.  Model: Stepper.run (the stepping loop both backends
   implement) over phase bodies produced by the builder model, with statement semantics
   Lang.exec_stmt.  Shape switches from gen/GenLang.v.
   built, admissible, lv_ok, Pre, to_rstate, run_rel, pick are defined in proofs/StepperProofs.v (respects,
   which admissible rests on, in proofs/BuilderProofs.v); req in model/Sched.v. *)
From Coq Require Import List String ZArith.
From Dagrt Require Import GenLang Lang Builder Sched SchedProofs Stepper StepperProofs.

Definition is_state_var : var -> bool := is_state_of state_exact state_prefixes.
Notation built_phase := (built is_state_var exec_state_token).

(* one phase body: every admissible order (a permutation in which each statement follows the
   statements it depends on -- C04 proves this of the interpreter's plan, C05 of the tree the
   generator walks) gives the same events, the same variable values and the same way of ending
   as carrying out the builder calls one after another *)
Theorem C01_body : forall F del_guarded keep l l' s,
  built_phase l -> lv_ok keep l -> admissible l l' -> Pre keep s ->
  req (to_rstate (exec_seq F del_guarded l' s nil)) (to_rstate (exec_seq F del_guarded l s nil)).
Proof. exact (fun F g keep => body_order_independent F g is_state_var exec_state_token keep). Qed.
Print Assumptions C01_body.

(* whole runs, bounded by a step count or an end time: two steppers that execute the bodies of the
   phases in any admissible orders (possibly different at every step) produce the same sequence of
   events (yields; step completed / failed with t, dt, current and next phase and the persistent
   state after the step), the same next phase and the same way of ending; and the same persistent
   state unless an exception escapes (C11 covers that state) *)
Theorem C01_run : forall F del_guarded keep obs ord1 ord2 d,
  (forall p, In p d -> built_phase (ph_stmts p) /\ lv_ok keep (ph_stmts p)) ->
  (forall p i, In p d -> admissible (ph_stmts p) (ord1 (ph_name p) i (ph_stmts p))) ->
  (forall p i, In p d -> admissible (ph_stmts p) (ord2 (ph_name p) i (ph_stmts p))) ->
  forall fuel s next t_end max_steps,
  Pre keep s ->
  run_rel (run F del_guarded keep obs ord1 fuel d s next t_end max_steps 0 0)
          (run F del_guarded keep obs ord2 fuel d s next t_end max_steps 0 0).
Proof.
  exact (fun F g keep obs ord1 ord2 d Hd H1 H2 fuel s next te mx Hp =>
    run_admissible_independent F g is_state_var exec_state_token keep obs ord1 ord2 d Hd H1 H2
      fuel s s next te mx 0 0 Hp (fun _ => eq_refl)).
Qed.
Print Assumptions C01_run.

(* program order itself is admissible: "both equal the result of carrying out the builder calls
   one after another" is the instance ord2 = fun _ _ l => l of C01_run *)
Theorem C01_program_order_admissible : forall l, built_phase l -> admissible l l.
Proof. exact (admissible_refl is_state_var exec_state_token). Qed.
Print Assumptions C01_program_order_admissible.

(* The orders the two backends really use are admissible -- by the models of the execution controller
   (C04) and of the lowering (C05), applied to a builder-made phase body: *)
From Dagrt Require Bridge Controller DagAst Simplify GenC05.

(* the interpreter: for every iteration order of the dependency sets and of the root set, every
   guard valuation / target and whatever state the controller was left in, the statements visited in a
   step are a prefix of an admissible order -- the whole order when the step is not cut short *)
Theorem C01_interpreter_order_admissible : forall l ro target st0,
  built_phase l ->
  Controller.same_members ro (Controller.roots (Bridge.cph l)) ->
  let o := Controller.run_single_step st0 (Bridge.cph l) ro target in
  exists rest,
    admissible l (pick l (Controller.visited (Controller.o_log o) ++ rest)) /\
    (Controller.never_stops (Bridge.cph l) target -> rest = nil).
Proof.
  exact (fun l ro target st0 Hb =>
           Bridge.controller_order_admissible l (Bridge.built_wf_body is_state_var exec_state_token l Hb)
                                              ro target st0).
Qed.
Print Assumptions C01_interpreter_order_admissible.

(* the generators: the leaves of the tree create_ast_from_phase hands to them (whatever the guards,
   loop nests and Nop-ness of the statements) are in an admissible order *)
Theorem C01_generator_order_admissible : forall l gd lp np,
  built_phase l ->
  exists order,
    DagAst.topo_order (Bridge.dph l gd lp np) = DagAst.LOk order /\
    (exists t, DagAst.lower false true GenC05.lower_skip_false_guard (Bridge.dph l gd lp np) = DagAst.LOk t) /\
    admissible l (pick l order).
Proof.
  exact (fun l gd lp np Hb =>
           Bridge.lowering_order_admissible l (Bridge.built_wf_body is_state_var exec_state_token l Hb)
                                            gd lp np GenC05.lower_skip_false_guard).
Qed.
Print Assumptions C01_generator_order_admissible.

(* ------------------------------------------------------------------ call argument binding.
   The interpreter runs a call as the Python call  callee( *positional, **keywords )  -- Python's own binding,
   specified by CallBind.py_bind -- while generated code resolves a call of a built-in when it is generated, with
   dagrt.utils.resolve_args (CallBind.resolve_args mirrors it statement by statement; harness/tr/bind.py pins
   the text), against the arg_names / default_dict of the function registry entry. *)
From Coq Require Permutation.
From Dagrt Require CallBind CallBindProofs GenBind.

(* (a) resolve_args implements Python's binding rule: for ALL parameter lists without repetition, defaults,
   positional values and keyword arguments without repetition, it returns a list iff binding succeeds, and
   then it is the list of the values in parameter order *)
Theorem C01_bind_resolve_is_python : forall (V : Type) (defaults : list (string * V)) arg_names positional keywords,
  NoDup arg_names -> NoDup (map fst keywords) ->
  forall l, CallBind.resolve_args arg_names defaults positional keywords = CallBind.Ok l <->
            CallBind.py_bind arg_names defaults positional keywords = CallBind.Ok l.
Proof. exact (@CallBindProofs.resolve_args_is_py_bind). Qed.
Print Assumptions C01_bind_resolve_is_python.

(* (b) both raise (a TypeError, whatever its message) in exactly the same situations, namely when the call
   is not well formed: more positional values than parameters, a keyword that is not a parameter or names a
   parameter already given positionally, or a parameter with neither value nor default *)
Theorem C01_bind_fail_alike : forall (V : Type) (defaults : list (string * V)) arg_names positional keywords,
  NoDup arg_names -> NoDup (map fst keywords) ->
  ((exists e, CallBind.resolve_args arg_names defaults positional keywords = CallBind.Err e) <->
   ~ CallBind.call_ok arg_names defaults positional keywords) /\
  ((exists e, CallBind.py_bind arg_names defaults positional keywords = CallBind.Err e) <->
   ~ CallBind.call_ok arg_names defaults positional keywords).
Proof. exact (@CallBindProofs.bind_fail_iff). Qed.
Print Assumptions C01_bind_fail_alike.

(* (c) the legal call forms: giving every parameter exactly once, the first k positionally and the others by
   keyword in any order, hands the values over in parameter order -- by both rules, for every split k *)
Theorem C01_bind_legal_call_forms :
  forall (V : Type) (defaults : list (string * V)) arg_names (vs : list V) k keywords,
  NoDup arg_names -> List.length vs = List.length arg_names -> k <= List.length arg_names ->
  Permutation.Permutation keywords (combine (skipn k arg_names) (skipn k vs)) ->
  CallBind.resolve_args arg_names defaults (firstn k vs) keywords = CallBind.Ok vs /\
  CallBind.py_bind arg_names defaults (firstn k vs) keywords = CallBind.Ok vs.
Proof. exact (@CallBindProofs.resolve_args_legal_split). Qed.
Print Assumptions C01_bind_legal_call_forms.

(* what the callee receives: the generated call  callee( *resolve_args(...) )  binds the callee's parameters to
   the same values as the interpreter's call  callee( *positional, **keywords ), provided the registry entry
   declares the callee's parameter names and defaults; and one fails iff the other does *)
Theorem C01_bind_backends_alike : forall (V : Type) (defaults : list (string * V)) arg_names positional keywords,
  NoDup arg_names -> NoDup (map fst keywords) ->
  match CallBind.resolve_args arg_names defaults positional keywords with
  | CallBind.Ok l => CallBind.py_bind arg_names defaults positional keywords = CallBind.Ok l /\
                     CallBind.py_bind arg_names defaults l nil = CallBind.Ok l
  | CallBind.Err _ => exists e, CallBind.py_bind arg_names defaults positional keywords = CallBind.Err e
  end.
Proof. exact (@CallBindProofs.backends_bind_alike). Qed.
Print Assumptions C01_bind_backends_alike.

(* that proviso, for the built-ins of the working tree (GenBind.builtin_table: one row per entry of the list in
   function_registry._make_bfr, a finite table regenerated on every run -- 13 rows today, and never fewer than
   the 13 documented built-ins): the declared arg_names are duplicate-free and equal, in order, the parameter
   names of the function the interpreter calls (builtins_python.builtins[identifier]), the defaults agree, and
   a pattern "self._builtin_X({args})" calls the copy of that same function *)
Theorem C01_bind_builtin_names :
  (forall id, In id CallBind.documented_builtins ->
     exists r, In r GenBind.builtin_table /\ CallBind.b_id r = id) /\
  forall r, In r GenBind.builtin_table ->
    NoDup (CallBind.b_arg_names r) /\
    CallBind.b_arg_names r = CallBind.b_impl_params r /\
    CallBind.b_defaults r = CallBind.b_impl_defaults r /\
    (forall impl, CallBind.b_pattern r = CallBind.PSelfBuiltin impl -> impl = CallBind.b_interp_impl r).
Proof. exact CallBindProofs.builtin_names_agree. Qed.
Print Assumptions C01_bind_builtin_names.

(* hence, for every built-in of that table and EVERY call of it: resolving against the registry entry and
   binding by Python's rule against the interpreter's callee give the same argument list, or both raise *)
Theorem C01_bind_builtins : forall (V : Type) (ev : string -> V) r,
  In r GenBind.builtin_table ->
  forall positional keywords, NoDup (map fst keywords) ->
    CallBind.forget (CallBind.resolve_args (CallBind.b_arg_names r)
                       (CallBind.eval_defaults ev (CallBind.b_defaults r)) positional keywords) =
    CallBind.forget (CallBind.py_bind (CallBind.b_impl_params r)
                       (CallBind.eval_defaults ev (CallBind.b_impl_defaults r)) positional keywords).
Proof. exact CallBindProofs.builtins_bind_alike. Qed.
Print Assumptions C01_bind_builtins.
