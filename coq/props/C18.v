(* C18 -- property theorems only.  Each is closed by `exact` of a lemma from
   proofs/ and followed by Print Assumptions.  `collapse finder_unary_combines` is the
   model of dagrt.expression.collapse_constants for the source shape found in the working
   tree (coq/gen/GenC18.v); the lemmas of proofs/ are about `collapse true` and apply because
   finder_unary_combines evaluates to true, so this file stops compiling if the
   unclassified-pass-through-node defect (fixes/C18_unary_combine.patch) is present. *)
From Coq Require Import List ZArith String.
From Dagrt Require Import GenC18 Collapse CollapseProofs.

(* Full statement: for every well-formed expression (no Sum/Product without children), every
   set of free variables and every supplier of names, collapse_constants returns normally; no
   hoisted term mentions a free variable; and if the supplied names are pairwise distinct and
   do not occur in the expression, every new variable is assigned exactly once and the
   rewritten expression, with the hoisted terms substituted back or bound in order, has the
   value of the original under every valuation and every interpretation of quotient, power,
   logical not and the function symbols (calls with keyword arguments included). *)
Definition C18_full_statement : Prop :=
  forall (fresh : nat -> string) (free : list string) (e : expr),
    wfb e = true ->
    exists e' asg n,
      collapse finder_unary_combines fresh free e = Ok (e', asg, n) /\
      Forall (fun xc => forall v, In v free -> ~ In v (names (snd xc))) asg /\
      (NoDup (map fresh (seq 0 n)) ->
       (forall i, i < n -> ~ In (fresh i) (names e)) ->
       NoDup (map fst asg) /\ map fst asg = map fresh (seq 0 n) /\
       forall qop pop nop F Fk rho,
         eval qop pop nop F Fk rho (subst asg e') = eval qop pop nop F Fk rho e /\
         eval qop pop nop F Fk (bind_all qop pop nop F Fk rho asg) e' = eval qop pop nop F Fk rho e).

Theorem C18_full : C18_full_statement.
Proof. exact full_fixed. Qed.
Print Assumptions C18_full.

Theorem C18_value : forall fresh free e e' asg n,
  collapse finder_unary_combines fresh free e = Ok (e', asg, n) ->
  NoDup (map fresh (seq 0 n)) ->
  (forall i, i < n -> ~ In (fresh i) (names e)) ->
  forall qop pop nop F Fk rho,
    eval qop pop nop F Fk (bind_all qop pop nop F Fk rho asg) e' = eval qop pop nop F Fk rho e /\
    eval qop pop nop F Fk rho (subst asg e') = eval qop pop nop F Fk rho e.
Proof. exact collapse_value. Qed.
Print Assumptions C18_value.

Theorem C18_constant : forall fresh free e e' asg n,
  collapse finder_unary_combines fresh free e = Ok (e', asg, n) ->
  Forall (fun xc => (forall v, In v free -> ~ In v (names (snd xc))) /\
                    is_atomic (snd xc) = false /\ incl (names (snd xc)) (names e)) asg.
Proof. exact collapse_constant. Qed.
Print Assumptions C18_constant.

Theorem C18_once : forall fresh free e e' asg n,
  collapse finder_unary_combines fresh free e = Ok (e', asg, n) ->
  NoDup (map fresh (seq 0 n)) ->
  NoDup (map fst asg) /\ map fst asg = map fresh (seq 0 n) /\ List.length asg = n.
Proof. exact collapse_once. Qed.
Print Assumptions C18_once.

Theorem C18_total : forall fresh free e,
  wfb e = true -> exists e' asg n, collapse finder_unary_combines fresh free e = Ok (e', asg, n).
Proof. exact collapse_total. Qed.
Print Assumptions C18_total.

Theorem C18_empty_sum_typeerror : forall fresh free e,
  wfb e = false -> collapse finder_unary_combines fresh free e = TypeError.
Proof. exact collapse_error. Qed.
Print Assumptions C18_empty_sum_typeerror.
