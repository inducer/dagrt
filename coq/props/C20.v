(* C20 -- property theorems only.  Each is closed by `exact` of a lemma from
   proofs/WrapProofs.v or proofs/WrapEmitProofs.v and followed by Print Assumptions.

   k ranges over the tokenizers (shlex.split(posix=False) and the repaired
   split_outside_quotes), m over continuation markers, ind over indentation
   strings; python_lex, fortran_lex, the markers and indentation strings of
   the two generators come from gen/GenC20.v (regenerated from /repo). *)
From Coq Require Import List String Ascii ZArith Bool.
Import ListNotations.
From Dagrt Require Import GenC20 Wrap WrapProofs WrapEmit WrapEmitProofs.
Open Scope list_scope.
Open Scope Z_scope.

(* The part of the property that is not token-level: what the target language reads
   (string literals whole, other characters in order, whitespace outside literals
   ignored) is the same before and after wrapping -- for every line, level and width. *)
Definition C20_full_statement : Prop :=
  target_ok python_lex python_marker (Str default_indentation) true false /\
  target_ok fortran_lex fortran_marker (Str fortran_indentation) false true.

(* re-reading the wrapped lines (markers removed, joined) gives the input's tokens *)
Theorem C20_tokens : forall k m line level width ind lines,
  ws_indent ind = true ->
  wrap_line_base (lex_of k) (pad_with m) line level width ind = WrapOk lines ->
  lex_of k (joined lines) = lex_of k line.
Proof. exact wrap_line_tokens. Qed.
Print Assumptions C20_tokens.

Theorem C20_tokens_per_line : forall k m line level width ind lines,
  forallb is_ws ind = true ->
  wrap_line_base (lex_of k) (pad_with m) line level width ind = WrapOk lines ->
  lex_all (lex_of k) (unmark lines) = lex_of k line.
Proof. exact wrap_line_tokens_lines. Qed.
Print Assumptions C20_tokens_per_line.

Theorem C20_only_ValueError : forall lexf pad line level width ind,
  wrap_line_base lexf pad line level width ind = WrapValueError <-> lexf line = LexValueError.
Proof. exact wrap_line_error. Qed.
Print Assumptions C20_only_ValueError.

(* every token is whole in exactly one line: line i is prefix_i ++ SPACE.join(group_i)
   (+ padding and marker), the groups partition the tokens in order *)
Theorem C20_atomic : forall lexf m line level width ind ts lines,
  lexf line = LexOk ts ->
  wrap_line_base lexf (pad_with m) line level width ind = WrapOk lines ->
  let lay := layout_of ind level width ts in
  lines = render m (slen (times level ind)) width lay /\
  List.concat (map snd lay) = ts /\
  (ts <> [] -> Forall (fun pg => snd pg <> []) lay) /\
  exists g rest, lay = ([], g) :: rest /\ Forall (fun pg => fst pg = ind) rest.
Proof. exact wrap_line_atomic. Qed.
Print Assumptions C20_atomic.

(* a shlex token that starts with a quote is a complete quoted string *)
Theorem C20_quoted_token_whole : forall line ts t q r,
  shlex_split line = LexOk ts -> In t ts -> t = q :: r -> is_quote q = true ->
  exists body, t = q :: body ++ [q] /\ ~ In q body.
Proof. exact shlex_quoted_whole. Qed.
Print Assumptions C20_quoted_token_whole.

Theorem C20_width : forall lexf m line level width ind ts lines,
  lexf line = LexOk ts ->
  wrap_line_base lexf (pad_with m) line level width ind = WrapOk lines ->
  Forall2 (fun pg l => (2 <= List.length (snd pg))%nat -> slen (times level ind) + slen l <= width)
          (layout_of ind level width ts) lines.
Proof. exact wrap_line_width. Qed.
Print Assumptions C20_width.

Theorem C20_continuation : forall lexf m line level width ind lines,
  wrap_line_base lexf (pad_with m) line level width ind = WrapOk lines ->
  let pw := width - slen (times level ind) in
  Forall (fun l => exists t, l = t ++ spaces (pw - 1 - slen t) ++ [m] /\
                             (slen t <= pw - 1 -> slen l = pw))
         (removelast lines) /\
  Forall (fun l => exists rest, l = ind ++ rest) (tl lines).
Proof. exact wrap_line_continuation. Qed.
Print Assumptions C20_continuation.

Theorem C20_relex : forall k line ts,
  lex_of k line = LexOk ts -> lex_of k (join_sp ts) = LexOk ts.
Proof. exact lex_relex. Qed.
Print Assumptions C20_relex.

(* layout only, under the explicit hypothesis that the tokenizer in use reads the line
   like the quote-aware one (for shlex: every string literal starts a token, no escaped
   or doubled quote) *)
Theorem C20_layout_partial : forall k m esc dbl line level width ind lines,
  ws_indent ind = true ->
  quoted_split esc line = lex_of k line ->
  wrap_line_base (lex_of k) (pad_with m) line level width ind = WrapOk lines ->
  tscan esc dbl (joined lines) = tscan esc dbl line.
Proof. exact layout_partial. Qed.
Print Assumptions C20_layout_partial.

(* the two generators as they are now: layout_claim is the negation of the statement
   while the generator uses shlex, and the statement itself once it uses the repaired
   tokenizer *)
Theorem C20_layout_python :
  layout_claim python_lex python_marker (Str default_indentation) true false.
Proof. exact (layout_claim_holds python_lex python_marker (Str default_indentation) true false eq_refl). Qed.
Print Assumptions C20_layout_python.

Theorem C20_layout_fortran :
  layout_claim fortran_lex fortran_marker (Str fortran_indentation) false true.
Proof. exact (layout_claim_holds fortran_lex fortran_marker (Str fortran_indentation) false true eq_refl). Qed.
Print Assumptions C20_layout_fortran.

Theorem C20_layout_refuted_shlex : forall m ind esc dbl, ~ target_ok LexShlex m ind esc dbl.
Proof. exact layout_refuted_shlex. Qed.
Print Assumptions C20_layout_refuted_shlex.

Theorem C20_doubled_quote_refuted : forall m ind,
  exists lines, wrap_line_base shlex_split (pad_with m) wit_doubled 0 80 ind = WrapOk lines /\
                joined lines = Str "x = 'it' 's'" /\
                tscan false true (joined lines) <> tscan false true wit_doubled.
Proof. exact layout_refuted_doubled. Qed.
Print Assumptions C20_doubled_quote_refuted.

Theorem C20_layout_repaired : forall m esc dbl ind,
  ws_indent ind = true -> target_ok (LexQuoted esc) m ind esc dbl.
Proof. exact layout_repaired. Qed.
Print Assumptions C20_layout_repaired.

(* ---- emission sites: the per-line use of wrap_line by the two generators (model/WrapEmit.v).
   fits_width k width u l: if the tokenizer finds two or more tokens on u (the physical line with
   its continuation marker removed) then the physical line l is at most width characters long. ---- *)

(* Fortran get_code: comment lines (first non-blank character is the comment character) are
   passed through unchanged ... *)
Theorem C20_emit_fortran_comment : forall k m cmt n width line,
  n <> O -> comment_line cmt line = true ->
  fortran_emit_line k m cmt n width line = EmitOk [line].
Proof. exact fortran_emit_comment. Qed.
Print Assumptions C20_emit_fortran_comment.

(* ... and no other line is: every physical line it is emitted as fits the width when it holds
   more than one token (the length counts the leading blanks put back by get_code) *)
Theorem C20_emit_fortran_width : forall k m cmt n width line outs,
  fortran_emit_line k m cmt n width line = EmitOk outs -> comment_line cmt line = false ->
  Forall2 (fits_width k width) (unmark outs) outs.
Proof. exact fortran_emit_width. Qed.
Print Assumptions C20_emit_fortran_width.

Theorem C20_emit_fortran_tokens : forall k m cmt n width line outs,
  fortran_emit_line k m cmt n width line = EmitOk outs -> comment_line cmt line = false ->
  lex_of k (joined outs) = lex_of k line.
Proof. exact fortran_emit_tokens. Qed.
Print Assumptions C20_emit_fortran_tokens.

Theorem C20_emit_fortran_only_ValueError : forall k m cmt n width line,
  n <> O ->
  (fortran_emit_line k m cmt n width line = EmitValueError <->
   comment_line cmt line = false /\ lex_of k line = LexValueError) /\
  fortran_emit_line k m cmt n width line <> EmitZeroDivisionError /\
  fortran_emit_line k m cmt n width line <> EmitNewline.
Proof. exact fortran_emit_error. Qed.
Print Assumptions C20_emit_fortran_only_ValueError.

(* finding trailing-comment: a statement followed by a trailing comment (no comment line) is wrapped
   as one statement; a physical line that has to be continued then holds the comment, so its
   marker is comment text (free form) -- for every tokenizer, with the generator's constants *)
Theorem C20_emit_fortran_trailing_comment_refuted : forall k,
  comment_line "!" wit_trailing = false /\
  exists outs, fortran_emit_line k "&" "!" 1 80 wit_trailing = EmitOk outs /\
               (2 <= List.length outs)%nat /\ continuation_lost "!" outs = true.
Proof. exact fortran_trailing_comment_refuted. Qed.
Print Assumptions C20_emit_fortran_trailing_comment_refuted.

(* the module text returned by the Fortran generator as it is now (tokenizer, marker, comment
   character, indent_spaces and width from gen/GenC20.v): the physical lines are the
   concatenation of one group per source line; a comment line is its own group, every other
   line's group re-reads to the line's tokens and its lines fit the width *)
Theorem C20_emit_fortran_module : forall code text,
  fortran_get_code fortran_lex fortran_marker fortran_comment fortran_indent_spaces default_width code
    = EmitOk text ->
  exists groups, text = List.concat groups /\
                 Forall2 (fortran_line_ok fortran_lex fortran_comment default_width) code groups.
Proof. exact (fortran_get_code_ok fortran_lex fortran_marker fortran_comment fortran_indent_spaces default_width). Qed.
Print Assumptions C20_emit_fortran_module.

(* Python _emit + emitters as they are now: the emitter's indent_amount equals the length of
   wrap_line's indentation string (eq_refl on the generated constants), so the blanks both emitters
   put in front of a wrapped line are exactly the indentation_len wrap_line_base allowed for *)
Theorem C20_emit_python : forall clevel elevel line outs ts,
  python_emit python_lex python_marker emitter_indent_amount (Str default_indentation) default_width
              clevel elevel line = EmitOk outs ->
  lex_of python_lex line = LexOk ts -> no_blank_token ts ->
  Forall2 (fits_width python_lex default_width) (unmark outs) outs /\
  lex_of python_lex (joined outs) = LexOk ts.
Proof.
  exact (python_emit_ok python_lex python_marker emitter_indent_amount (Str default_indentation)
                        default_width eq_refl eq_refl).
Qed.
Print Assumptions C20_emit_python.

Theorem C20_emit_python_only_ValueError : forall k m amount ind width clevel elevel line,
  (python_emit k m amount ind width clevel elevel line = EmitValueError <-> lex_of k line = LexValueError) /\
  python_emit k m amount ind width clevel elevel line <> EmitZeroDivisionError.
Proof. exact python_emit_error. Qed.
Print Assumptions C20_emit_python_only_ValueError.

(* why C20_emit_python carries no_blank_token: a token made of characters that str.strip()
   removes but the tokenizer does not split at (here a vertical tab) is emitted as the empty line *)
Theorem C20_emit_python_blank_token_witness : forall k m amount ind width clevel elevel,
  lex_of k wit_vt = LexOk [wit_vt] /\
  python_emit k m amount ind width clevel elevel wit_vt = EmitOk [[]].
Proof. exact python_emit_blank_token_lost. Qed.
Print Assumptions C20_emit_python_blank_token_witness.
