(* C03 -- property theorems only.  Model: coq/model/FortranTarget.v; the shape switches come from
   coq/gen/GenC03.v (fortran.py, expressions.py, transform.py) and coq/gen/GenLang.v.
   The theorems type-check only for the repaired shapes (c03_ne_fortran, c03_cond_honoured,
   c03_ubound_m1, c03_switch_exits, c03_next_first = true) and for BOTH positions of
   c03_ite_flag_first and c03_guard_outside (guard of a looped assignment lowered inside / outside
   its loops, fixes/C01_guard_outside_loops.patch -- see C03_guard_shapes); for every other shape
   proofs/FortranTargetProofs.v has a refutation with a concrete witness (C03_shapes_matter).
   PARTIAL: what is related is the structured program handed to the Fortran emitter (lowered in
   program order, before simplify_ast and the four rewriting passes -- C05/C06/C07) and the
   interpreter running the statements in program order (C02/C04); the emitted text, gfortran and
   floating point are outside the proof and are covered by the differential run only. *)
From Coq Require Import List String Bool.
Import ListNotations.
From Dagrt Require Import GenLang GenC03 Lang Builder Sched FortranTarget FortranTargetProofs.
From Dagrt Require Import FortranPrinter FortranPrinterProofs.

Definition is_state_var : var -> bool := is_state_of state_exact state_prefixes.
Definition persistent_var : var -> bool := is_state_of interp_keep_exact interp_keep_prefixes.
Notation build_model := (build_prog lang_lhs_sub_reads lang_loop_bound_reads is_state_var exec_state_token).
Notation fortran_calls F g tids :=
  (fcalls F g c03_cond_honoured c03_ite_flag_first c03_ubound_m1 c03_switch_exits c03_next_first c03_guard_outside
          tids is_state_var).

(* For every method description built with CodeBuilder (one builder per phase) inside the supported
   subset, every behaviour of the user functions, every initial state holding persistent variables
   only, and every number n of calls: the module compiles (as far as the model knows a reason why
   it would not), and unless an operation without defined Fortran behaviour was executed or the
   interpreter raised a Python exception, after the n-th call of run every field of
   dagrt_state_type -- persistent variables, the <ret_time_id>/<ret_time>/<ret_state> slots as
   the yields of all steps so far leave them -- and the next phase are what the interpreter holds
   after its n-th step; a Raise stops both with the same condition after the same call. *)
Definition C03_full_statement : Prop :=
  (forall P, compiles c03_ne_fortran P = true) /\
  (forall F g tids bl P,
     build_model bl = Some P -> supported is_state_var P = true ->
     forall n s first, init_ok persistent_var s ->
       orel is_state_var persistent_var
            (fortran_calls F g tids P n s first) (isteps F g tids persistent_var P n s empty first)).

(* from any pair of related states (not only the initial one), for any program *)
Theorem C03_pipeline_from_any_state_partial : forall F g tids P,
  supported is_state_var P = true ->
  forall n s_t s_i r nx, CRel is_state_var persistent_var s_t s_i r ->
    orel is_state_var persistent_var
         (fortran_calls F g tids P n s_t nx) (isteps F g tids persistent_var P n s_i r nx).
Proof. exact (fun F g tids => pipeline F g c03_ite_flag_first c03_guard_outside tids is_state_var persistent_var st_split). Qed.
Print Assumptions C03_pipeline_from_any_state_partial.

(* the initial state is related to itself; that P was built plays no part *)
Theorem C03_pipeline_partial : forall F g tids bl P,
  build_model bl = Some P -> supported is_state_var P = true ->
  forall n s first, init_ok persistent_var s ->
    orel is_state_var persistent_var
         (fortran_calls F g tids P n s first) (isteps F g tids persistent_var P n s empty first).
Proof.
  exact (fun F g tids bl P =>
           pipeline_holds c03_ite_flag_first c03_guard_outside F g tids is_state_var persistent_var
                          lang_lhs_sub_reads lang_loop_bound_reads exec_state_token bl P st_split).
Qed.
Print Assumptions C03_pipeline_partial.

Theorem C03_compiles_partial : forall P, compiles c03_ne_fortran P = true.
Proof. exact compiles_holds. Qed.
Print Assumptions C03_compiles_partial.

Theorem C03_full_partial : C03_full_statement.
Proof. exact (conj C03_compiles_partial C03_pipeline_partial). Qed.
Print Assumptions C03_full_partial.

(* use of C02: `isteps` runs a phase in program order; for the phases of a supported builder program
   every order that respects the recorded dependencies (the order the interpreter's controller
   picks, C04) gives the same events, variables and stop reason, from any state a step can start in *)
Theorem C03_step_any_schedule : forall F g bl P ph s sched,
  build_model bl = Some P -> supported is_state_var P = true -> In ph P ->
  (forall y, persistent_var y = false -> s y = None) ->
  Permutation.Permutation (seq 0 (List.length (fp_stmts ph))) sched ->
  BuilderProofs.respects (fp_stmts ph) sched ->
  req (run_ids F g (fp_stmts ph) sched (RRun s nil)) (run_list F g (fp_stmts ph) (RRun s nil)).
Proof.
  exact (fun F g bl P ph s sched =>
           step_any_schedule F g is_state_var persistent_var exec_state_token bl P ph s sched st_split).
Qed.
Print Assumptions C03_step_any_schedule.

(* the two lowerings of a guarded looped assignment.  The pipeline theorems above hold for both,
   because they say nothing when the target is undefined.  They differ exactly there: with the guard
   INSIDE the loops the emitted code evaluates the loop bounds although the guard is false -- on
   wit_guard (the bound is a local assigned under the same guard) the target model is undefined in
   the first call, the interpreter is not; with the guard OUTSIDE the target is defined on it and
   agrees with the interpreter after every call. *)
Theorem C03_guard_shapes :
  supported st_of wit_guard_P = true /\
  fcalls F03 true true true true true true false [] st_of wit_guard_P 1 (mk_store wit_guard_init) "pa"
    = FOUndef /\
  forall n, (n <= 4)%nat ->
    let t := fcalls F03 true true true true true true true [] st_of wit_guard_P n (mk_store wit_guard_init) "pa" in
    let i := isteps F03 true [] ps_of wit_guard_P n (mk_store wit_guard_init) empty "pa" in
    defined_pair t i && agree_on ["<p>x"; "<p>z"] t i = true.
Proof. exact guard_inside_undefined. Qed.
Print Assumptions C03_guard_shapes.

(* the three slots written by emit_inst_YieldState are the model's *)
Theorem C03_ret_slots : c03_ret_prefixes = ret_prefixes.
Proof. exact eq_refl. Qed.
Print Assumptions C03_ret_slots.

(* every shape switch is load-bearing: with any one of them in its other position the statement is
   false, by a concrete program (also stored in corpus/C03/) *)
Theorem C03_shapes_matter :
  (forall ff um sw nf go, ~ pipeline_statement false ff um sw nf go) /\
  (forall ff sw nf go, ~ pipeline_statement true ff false sw nf go) /\
  (forall ff nf go, ~ pipeline_statement true ff true false nf go) /\
  (forall ff go, ~ pipeline_statement true ff true true false go) /\
  ~ compiles_statement false.
Proof. exact (conj cond_refuted (conj ubound_refuted (conj switch_refuted (conj next_refuted ne_refuted)))). Qed.
Print Assumptions C03_shapes_matter.

(* the logical operators as FortranExpressionMapper prints them (precedences read off map_logical_or /
   map_logical_and / map_logical_not and pymbolic's table, coq/gen/GenC03.v): for every tree of
   and / or / not over atoms (operand lists of at least two, no negation directly under a negation)
   and every valuation of the atoms, reading the printed token string with Fortran's grammar of
   logical expressions gives the value of the tree.  Type-checks only while the six numbers satisfy
   prec_ok (an .or. under .and. or .not., and an .and. under .not., get parentheses). *)
Theorem C03_logical_printing : forall v e, wf e = true ->
  fortran_value v (bprint c03_prec_or_child c03_prec_or_own c03_prec_and_child c03_prec_and_own
                          c03_prec_not_child c03_prec_not_own 0 e) = Some (beval v e).
Proof.
  exact (printer_holds c03_prec_or_child c03_prec_or_own c03_prec_and_child c03_prec_and_own
                       c03_prec_not_child c03_prec_not_own eq_refl).
Qed.
Print Assumptions C03_logical_printing.

(* a printer that hands the operands of .and. the precedence of .or. (so that `a and (b or c)` is
   printed `a .and. b .or. c`) falsifies the statement: witness a = false, c = true *)
Theorem C03_logical_precedence_matters : forall oc oo ao nc no, ~ printer_statement oc oo oo ao nc no.
Proof. exact printer_refuted. Qed.
Print Assumptions C03_logical_precedence_matters.

(* helper subroutines of called functions: the generator keys them by (function identifier, kinds of
   the arguments) -- read off emit_inst_AssignFunctionCall / finish_emit, fail-closed -- and the
   model evaluates a call with the helper instantiated for the call's own argument kinds; a helper
   made for other kinds (another user type / extent) has no behaviour on these arguments *)
Theorem C03_helper_per_kinds :
  c03_helper_key = ["inst.function_id"; "arg_kinds"] /\
  (forall F f pos kw, helper F (helper_key f pos) pos kw = F f pos kw) /\
  (forall F f ks pos kw, ks <> map kind_of_val pos -> helper F (f, ks) pos kw = None).
Proof. exact (conj eq_refl (conj helper_own_key helper_foreign_key)). Qed.
Print Assumptions C03_helper_per_kinds.

(* powers: `base**exponent` with the base printed at a precedence above the power's own (so that a base
   which is itself a power gets parentheses) reads back, with Fortran's right-associative `**`, as the
   tree that was printed -- for every tree, every precedence of the exponent, every following text that
   does not start with `**` *)
Theorem C03_power_printing : forall bp xp own, Nat.ltb own bp = true -> power_statement bp xp own.
Proof. exact power_holds. Qed.
Print Assumptions C03_power_printing.

(* a printer that hands the base the power's own precedence (pymbolic's StringifyMapper.map_power, which
   FortranExpressionMapper inherits unless it has a map_power of its own) falsifies the statement:
   (a0**a1)**a2 is printed a0**a1**a2; with 2, 2, 3 the tree is worth 64 and the text 256 *)
Theorem C03_power_parentheses_matter : forall bp xp own, Nat.ltb own bp = false ->
  ~ power_statement bp xp own /\
  pval wit_pow_values wit_pow_base = 64 /\
  option_map (fun p => pval wit_pow_values (fst p))
             (pread (S (psize wit_pow_base)) (pprint bp xp own 0 wit_pow_base)) = Some 256.
Proof. exact (fun bp xp own H => conj (power_refuted bp xp own H) (wit_pow_base_values bp xp own H)). Qed.
Print Assumptions C03_power_parentheses_matter.

(* the tree under test (three precedences and the switch read off expressions.py / pymbolic): the
   statement when a base that is a power is parenthesised (fixes/C03_fortran_power_parentheses.patch),
   its negation otherwise (open finding power_base_not_parenthesised).  Type-checks for both shapes, and
   only while the switch agrees with the three numbers. *)
Theorem C03_power_printing_this_tree :
  if c03_power_paren then power_statement c03_prec_pow_base c03_prec_pow_exp c03_prec_pow_own
  else ~ power_statement c03_prec_pow_base c03_prec_pow_exp c03_prec_pow_own.
Proof. exact (power_either c03_prec_pow_base c03_prec_pow_exp c03_prec_pow_own). Qed.
Print Assumptions C03_power_printing_this_tree.

(* Hand-written guards (C03's open finding merged_guard_reevaluated, design/C03.md item 13): merging adjacent
   conditionals with one guard agrees with the interpreter's reading (each guard evaluated when its statement is
   reached) when every statement that is followed by another one of its group keeps a true guard true -- the side
   condition fixes/C03_merged_guard.patch establishes -- and differs without it.  Abstract model
   (proofs/GuardMerge.v), generic in the state; tied to the code by the witness only: the two values of
   wit_interpreter / wit_generated are compared with the real interpreter and the real compiled stepper on
   corpus/C03/raw_guard_rewritten.json by harness/c03.py on every run. *)
From Dagrt Require GuardMerge.

Theorem C03_merged_guard_sound_if_stable : forall (state : Type) (gs : list (GuardMerge.group state)),
  Forall (GuardMerge.stable state) gs ->
  forall s, GuardMerge.run_each state (flat_map (GuardMerge.expand state) gs) s = GuardMerge.run_merged state gs s.
Proof. exact GuardMerge.merge_sound. Qed.
Print Assumptions C03_merged_guard_sound_if_stable.

(* the same with the side condition in the syntactic form the repaired test checks: stores map variables to values,
   the guard of a group depends only on the variables vs it mentions, every statement of the group changes only the
   variables ws it assigns, and vs, ws are disjoint *)
Theorem C03_merged_guard_sound_syntactic : forall (var val : Type) (gs : list (GuardMerge.group (GuardMerge.store var val))),
  Forall (fun g => exists vs, GuardMerge.depends_only_on var val (GuardMerge.gc _ g) vs /\
                   forall f, In f (GuardMerge.body _ g) ->
                     exists ws, GuardMerge.writes_only var val f ws /\ forall x, In x vs -> ~ In x ws) gs ->
  forall s, GuardMerge.run_each _ (flat_map (GuardMerge.expand _) gs) s = GuardMerge.run_merged _ gs s.
Proof. exact GuardMerge.merge_sound_syntactic. Qed.
Print Assumptions C03_merged_guard_sound_syntactic.

Theorem C03_merged_guard_refuted :
  exists (gs : list (GuardMerge.group GuardMerge.wst)) (s : GuardMerge.wst),
    GuardMerge.run_each _ (flat_map (GuardMerge.expand _) gs) s <> GuardMerge.run_merged _ gs s.
Proof. exact GuardMerge.merge_refuted. Qed.
Print Assumptions C03_merged_guard_refuted.

(* The shape of the merge test in ASTSimplifyMapper.map_Block, read from the tree by harness/tr/c06.py: it checks
   only on the repaired tree (fix 5e02bf5: the first conditional assigns no variable of the condition, which makes
   every merged group `stable` in the sense of C03_merged_guard_sound_if_stable when a statement's effect on the
   guard is through the variables it assigns).  On the unrepaired shape this does not type-check and the check
   reports the corpus witness of C03_merged_guard_refuted as the failing input. *)
From Dagrt Require GenC06.
Theorem C03_merge_tests_guard_stability : GenC06.simplify_merge_guard_stable = true.
Proof. exact eq_refl. Qed.
Print Assumptions C03_merge_tests_guard_stability.
