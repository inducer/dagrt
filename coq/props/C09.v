(* C09 -- property theorems only.  Each is closed by `exact` of a lemma from proofs/KindsMainProofs.v
   and followed by Print Assumptions.  cfg0 / keep0 (coq/model/KindsCfg.v) carry the shape switches and
   name tables read off the working tree (coq/gen/GenC09.v):
     pow_fix         = c09_power_returns_kind   (KindInferenceMapper.map_power returns a kind)
     new_marks       = c09_new_entry_marks      (SymbolKindTable.set marks the table changed for a new entry)
     isnan_any       = c09_isnan_any            (builtin_isnan reduces with .any())
     conflict_raises = c09_conflict_raises      (SymbolKindTable.set re-raises a failing unify)
     finder_restarts = c09_finder_restarts      (SymbolKindFinder starts another pass before giving up when kinds changed)
     need_arrays     = c09_matrix_need_arrays   (matmul/transpose/linear_solve/svd infer a kind only from Array arguments)
   The last two do not appear as premises: every theorem below holds for both of their values.
   The theorems that cite `eq_refl` for a switch check only against the repaired shape; for the other shape
   proofs/KindsMainProofs.v has the refutations every_assigned_refuted (witness wit_pow),
   soundness_refuted_stale (witness wit_stale) and builtins_refuted_isnan. *)
From Coq Require Import List String.
Import ListNotations.
Open Scope string_scope.
From Dagrt Require Import GenC09 Kinds KindsCfg KindsClassProofs KindsProofs KindsMainProofs.

(* Full statement of the property for the code as it is now. *)
Definition C09_full_statement : Prop :=
  (* whenever inference succeeds, every assigned variable has a kind *)
  (forall reg fo fi D forced T,
     wf_program D = true -> infer cfg0 reg fo fi D forced = Ok T ->
     forall ph stmts s x, In (ph, stmts) D -> In s stmts -> assigns s x ->
     exists k, lookup T ph x = Some (Some k)) /\
  (* ... and in every execution every stored value is of the kind the table gives its variable *)
  full_soundness cfg0 keep0 /\
  (* the result kinds declared for the built-ins match the classes of what they return *)
  (forall f s a cs ks r,
     rlookup builtin_reg f = Some s -> Forall2 arg_rel cs a -> result_kinds true s a = Some ks ->
     In r (cresult cfg0 s cs) -> hks r ks).

Theorem C09_every_assigned_has_kind : forall reg fo fi D forced T,
  wf_program D = true -> infer cfg0 reg fo fi D forced = Ok T ->
  forall ph stmts s x, In (ph, stmts) D -> In s stmts -> assigns s x ->
  exists k, lookup T ph x = Some (Some k).
Proof.
  exact (fun reg fo fi D forced T => every_assigned cfg0 reg fo fi D forced T eq_refl).
Qed.
Print Assumptions C09_every_assigned_has_kind.

(* Soundness over the class semantics.  Hypothesis beyond "inference succeeds": the program passes the
   side conditions `sides` (operands of comparisons / min / max / subscripts are scalars, exponents are
   integer literals, no int/int quotient, no flag literal, call arguments pass the functions' own
   check=True test, no scalar is assigned to a variable that also holds an array or user-type value). *)
Theorem C09_soundness_partial : forall reg fo fi D forced T,
  infer cfg0 reg fo fi D forced = Ok T -> sides cfg0 reg D T = true ->
  forall ph0 st0 ph st,
    store_ok T ph0 st0 -> creach cfg0 reg D keep0 ph0 st0 ph st -> store_ok T ph st.
Proof.
  exact (fun reg fo fi D forced T =>
           soundness_raises cfg0 reg fo fi D forced T keep0 eq_refl eq_refl (conj eq_refl eq_refl)
                            (keep_of_state cfg0 c09_keep_exact c09_keep_prefixes eq_refl eq_refl)).
Qed.
Print Assumptions C09_soundness_partial.

(* holds for every shape of the code: the final table passes the decidable re-check `strict` *)
Theorem C09_soundness_checked_partial : forall reg fo fi D forced T,
  infer cfg0 reg fo fi D forced = Ok T -> strict cfg0 reg D T = true ->
  forall ph0 st0 ph st,
    store_ok T ph0 st0 -> creach cfg0 reg D keep0 ph0 st0 ph st -> store_ok T ph st.
Proof.
  exact (fun reg fo fi D forced T =>
           soundness_of_strict cfg0 reg fo fi D forced T keep0 (conj eq_refl eq_refl)
                               (keep_of_state cfg0 c09_keep_exact c09_keep_prefixes eq_refl eq_refl)).
Qed.
Print Assumptions C09_soundness_checked_partial.

(* the soundness part without side conditions is false for every shape (witness KindsMainProofs.wit_mixed:
   a <- array(n); x <- a; x <- <t> -- the Array kind absorbs the Scalar, no message is printed) *)
Theorem C09_soundness_refuted : ~ full_soundness cfg0 keep0.
Proof.
  exact (full_soundness_false c09_power_returns_kind c09_new_entry_marks c09_isnan_any c09_conflict_raises
                              c09_finder_restarts c09_matrix_need_arrays).
Qed.
Print Assumptions C09_soundness_refuted.

Theorem C09_builtins : forall f s a cs ks r,
  rlookup builtin_reg f = Some s -> Forall2 arg_rel cs a -> result_kinds true s a = Some ks ->
  In r (cresult cfg0 s cs) -> hks r ks.
Proof. exact (fun f s a cs ks r => builtins_sound cfg0 f s a cs ks r eq_refl). Qed.
Print Assumptions C09_builtins.
