(* C07 -- property theorems only (statements about model/Transform.v and model/TransformSem.v
   with the shape switches read off /repo in gen/GenC07.v and gen/GenLang.v).

   pass_ok F dg st0 t t' st' (proofs/TransformProofs.v) says, for the run of one pass that turned
   tree t into t' and generator state st0 into st':
     exists N I,  ext st0 st' N I                          (N / I = the names / ids generated: new, distinct)
       /\ (forall x, In x N -> ~ In x (tvars t))            (no generated name occurs anywhere in t)
       /\ (forall x, In x I -> ~ In x (tids t))             (no generated id is an id of t)
       /\ (NoDup (tids t) -> NoDup (tids t'))               (ids stay unique)
       /\ forall a, srel N (run F dg t a) (run F dg t' a)   (from every store a: if t runs without a Python
                                                             exception, t' ends the same way, with the same
                                                             events, equal values of every variable outside N,
                                                             and a permutation of the same calls)
   The side conditions (sd_leaf, fai_leaf, fci_leaf, ite_leaf : tstmt -> bool, model/TransformSide.v)
   are decidable. *)
From Coq Require Import List String Permutation.
From Dagrt Require Import GenLang GenC07 Lang Sched Transform TransformSem TransformSide TransformBasics TransformHoist
     TransformSpec TransformMappers TransformLeaf TransformStmt TransformSd TransformTree TransformProj
     TransformProofs TransformSyn TransformSynPasses TransformFuel.

(* Full statement for the call isolator: every structured phase (leaves without loops, call-free
   guards, function symbols that are not written variables), no restriction on where calls occur.
   False of the code as it is (and of every combination of the three repairs): C07_refuted. *)
Definition C07_full_statement : Prop :=
  full_statement_for
    (isolate_function_calls lang_lhs_sub_reads lang_loop_bound_reads c07_seed_node_vars c07_fci_passes_cond)
    (seeded lang_lhs_sub_reads lang_loop_bound_reads c07_seed_node_vars).

(* y <- (f(x) if c > 0 else x), c = 0: f is called by the output and not by the input *)
Theorem C07_refuted : ~ C07_full_statement.
Proof. exact (hoist_refuted _ _ _ _). Qed.
Print Assumptions C07_refuted.

(* the traced semantics computes the values of the core model (Lang.eval) *)
Theorem C07_traced_values : forall F s e, snd (evalt F s e) = snd (eval F s e).
Proof. exact evalt_snd. Qed.
Print Assumptions C07_traced_values.

(* eliminate_self_dependencies: semantics, call log, fresh names and ids -- every structured phase *)
Theorem C07_self_dependencies : forall F dg lbr ords t t' st',
  eliminate_self_dependencies lang_lhs_sub_reads lbr c07_seed_node_vars c07_sd_sorted ords t = TOk (t', st') ->
  forallb sd_leaf (tstmts t) = true ->
  pass_ok F dg (seeded lang_lhs_sub_reads lbr c07_seed_node_vars t) t t' st'.
Proof. exact (fun F dg lbr => sd_thm F dg lang_lhs_sub_reads c07_seed_node_vars eq_refl eq_refl lbr c07_sd_sorted). Qed.
Print Assumptions C07_self_dependencies.

(* isolate_function_arguments; excluded: calls with non-variable arguments in a conditionally evaluated
   position, keyword arguments not in sorted order *)
Theorem C07_isolate_arguments_partial : forall F dg lbr t t' st',
  isolate_function_arguments lang_lhs_sub_reads lbr c07_seed_node_vars t = TOk (t', st') ->
  forallb fai_leaf (tstmts t) = true ->
  pass_ok F dg (seeded lang_lhs_sub_reads lbr c07_seed_node_vars t) t t' st'.
Proof. exact (fun F dg => fai_thm F dg lang_lhs_sub_reads c07_seed_node_vars eq_refl eq_refl). Qed.
Print Assumptions C07_isolate_arguments_partial.

(* isolate_function_calls (either shape of isolate_call, whenever it does not raise); excluded: calls in
   a conditionally evaluated position *)
Theorem C07_isolate_calls_partial : forall F dg lbr fixed t t' st',
  isolate_function_calls lang_lhs_sub_reads lbr c07_seed_node_vars fixed t = TOk (t', st') ->
  forallb fci_leaf (tstmts t) = true ->
  pass_ok F dg (seeded lang_lhs_sub_reads lbr c07_seed_node_vars t) t t' st'.
Proof. exact (fun F dg => fci_thm F dg lang_lhs_sub_reads c07_seed_node_vars eq_refl eq_refl). Qed.
Print Assumptions C07_isolate_calls_partial.

(* expand_IfThenElse; excluded: conditional expressions below a later operand of and/or *)
Theorem C07_expand_conditionals_partial : forall F dg lbr t t' st',
  expand_IfThenElse lang_lhs_sub_reads lbr c07_seed_node_vars c07_ite_flag_first t = TOk (t', st') ->
  forallb ite_leaf (tstmts t) = true ->
  pass_ok F dg (seeded lang_lhs_sub_reads lbr c07_seed_node_vars t) t t' st'.
Proof.
  exact (fun F dg => ite_thm F dg lang_lhs_sub_reads c07_seed_node_vars c07_ite_flag_first eq_refl eq_refl eq_refl).
Qed.
Print Assumptions C07_expand_conditionals_partial.

(* the four passes in the order of fortran.py's process_ast; the side conditions on the three
   intermediate trees are decidable and evaluated by the check on every case *)
Theorem C07_pipeline_partial : forall F dg lbr fixed ords t t4,
  run_passes lang_lhs_sub_reads lbr c07_seed_node_vars c07_sd_sorted fixed c07_ite_flag_first ords fortran_pass_order t = TOk t4 ->
  exists t1 t2 t3 g1 g2 g3 g4,
    eliminate_self_dependencies lang_lhs_sub_reads lbr c07_seed_node_vars c07_sd_sorted ords t = TOk (t1, g1) /\
    isolate_function_arguments lang_lhs_sub_reads lbr c07_seed_node_vars t1 = TOk (t2, g2) /\
    isolate_function_calls lang_lhs_sub_reads lbr c07_seed_node_vars fixed t2 = TOk (t3, g3) /\
    expand_IfThenElse lang_lhs_sub_reads lbr c07_seed_node_vars c07_ite_flag_first t3 = TOk (t4, g4) /\
    (forallb sd_leaf (tstmts t) = true -> forallb fai_leaf (tstmts t1) = true ->
     forallb fci_leaf (tstmts t2) = true -> forallb ite_leaf (tstmts t3) = true ->
     exists N1 N2 N3 N4,
       (forall x, In x N1 -> ~ In x (tvars t)) /\ (forall x, In x N2 -> ~ In x (tvars t1)) /\
       (forall x, In x N3 -> ~ In x (tvars t2)) /\ (forall x, In x N4 -> ~ In x (tvars t3)) /\
       (NoDup (tids t) -> NoDup (tids t4)) /\
       (forall a, srel (N1 ++ N2 ++ N3 ++ N4) (run F dg t a) (run F dg t4 a))).
Proof.
  exact (fun F dg lbr => pipeline_thm F dg lang_lhs_sub_reads c07_seed_node_vars c07_ite_flag_first fortran_pass_order
                                      eq_refl eq_refl eq_refl eq_refl lbr c07_sd_sorted).
Qed.
Print Assumptions C07_pipeline_partial.

(* the repaired isolate_call handles the nested call on which the other shape raises TypeError *)
Theorem C07_nested_call_total : exists r,
  isolate_function_calls lang_lhs_sub_reads lang_loop_bound_reads c07_seed_node_vars c07_fci_passes_cond
                         wit_nested = TOk r.
Proof. exact (arity_repaired _ _ _). Qed.
Print Assumptions C07_nested_call_total.

(* guards: in the output of every pass each input statement s is replaced by statements of which
   the last is s with rewritten expressions (same id, guard, assignees) and the others carry the
   guard of s, possibly extended by further conjuncts (gext); an extended guard that holds implies
   the original one *)
Theorem C07_guards : forall lbr fixed ords t t' st',
  (eliminate_self_dependencies lang_lhs_sub_reads lbr c07_seed_node_vars c07_sd_sorted ords t = TOk (t', st')
   /\ forallb sd_leaf (tstmts t) = true) \/
  (isolate_function_arguments lang_lhs_sub_reads lbr c07_seed_node_vars t = TOk (t', st')
   /\ forallb fai_leaf (tstmts t) = true) \/
  (isolate_function_calls lang_lhs_sub_reads lbr c07_seed_node_vars fixed t = TOk (t', st')
   /\ forallb fci_leaf (tstmts t) = true) \/
  (expand_IfThenElse lang_lhs_sub_reads lbr c07_seed_node_vars c07_ite_flag_first t = TOk (t', st')
   /\ forallb ite_leaf (tstmts t) = true) ->
  derives carries_guard t t'.
Proof.
  exact (fun lbr fixed ords =>
           guards_thm lang_lhs_sub_reads lbr c07_seed_node_vars c07_sd_sorted fixed c07_ite_flag_first ords eq_refl).
Qed.
Print Assumptions C07_guards.

Theorem C07_guard_implied : forall F c g s r,
  gext c g -> cond_t F s g = (r, Ok true) -> exists r', cond_t F s c = (r', Ok true).
Proof. exact guard_implied. Qed.
Print Assumptions C07_guard_implied.

(* definition before use: in the statements derived from one input statement s, a name of ANY set G
   is read only if the reads of s already allow it (D) or an earlier statement of the same block
   wrote it.  With G = the generated names (C07 freshness: none occurs in s, so D = [] qualifies,
   lemma def_before_use_fresh) no generated variable is read before the statement that sets it.
   No restriction on where calls / conditional expressions occur. *)
Theorem C07_def_before_use : forall lbr fixed ords t t' st',
  forallb lf (tstmts t) = true ->
  eliminate_self_dependencies lang_lhs_sub_reads lbr c07_seed_node_vars c07_sd_sorted ords t = TOk (t', st') \/
  isolate_function_arguments lang_lhs_sub_reads lbr c07_seed_node_vars t = TOk (t', st') \/
  isolate_function_calls lang_lhs_sub_reads lbr c07_seed_node_vars fixed t = TOk (t', st') \/
  expand_IfThenElse lang_lhs_sub_reads lbr c07_seed_node_vars c07_ite_flag_first t = TOk (t', st') ->
  derives def_before_use t t'.
Proof.
  exact (fun lbr fixed ords =>
           def_before_use_thm lang_lhs_sub_reads lbr c07_seed_node_vars c07_sd_sorted fixed c07_ite_flag_first
                              ords eq_refl).
Qed.
Print Assumptions C07_def_before_use.

(* pytools' name search always finds a name (the model's fuel never runs out) *)
Theorem C07_name_search_total : forall g b, exists n g', gen g b = Some (n, g').
Proof. exact gen_total. Qed.
Print Assumptions C07_name_search_total.
