(* C12 -- facts about the pieces of the model in coq/model/Refcount.v that the invariant is stated
   with: point updates of the variable and counter maps, the decidable well-formedness tests, and
   the number of owners of a block. *)
From Coq Require Import List Arith Bool Lia.
Import ListNotations.
From Dagrt Require Import ListFacts Refcount.

Lemma upd_same {A} (f : nat -> A) x a : upd f x a x = a.
Proof. unfold upd. now rewrite Nat.eqb_refl. Qed.

Lemma upd_other {A} (f : nat -> A) x y a : y <> x -> upd f x a y = f y.
Proof. unfold upd. intros H. destruct (Nat.eqb_spec y x); [contradiction | reflexivity]. Qed.

Lemma memv_In x l : memv x l = true <-> In x l.
Proof. apply existsb_nat_In. Qed.

Lemma memv_false x l : memv x l = false <-> ~ In x l.
Proof. apply existsb_nat_nIn. Qed.

Lemma nodupb_NoDup l : nodupb l = true -> NoDup l.
Proof. exact (nodupb_by_NoDup Nat.eqb Nat.eqb_eq l). Qed.

Lemma subset_In a b : subset a b = true -> forall x, In x a -> In x b.
Proof.
  unfold subset. rewrite forallb_forall. intros H x Hx. apply memv_In. auto.
Qed.

Lemma points_upd_same vs x v b :
  points (upd vs x v) b x = match v with Some b' => Nat.eqb b' b | None => false end.
Proof. unfold points. now rewrite upd_same. Qed.

Lemma points_upd_other vs x y v b : y <> x -> points (upd vs x v) b y = points vs b y.
Proof. unfold points. intros. now rewrite upd_other. Qed.

Definition b2n (b : bool) : nat := if b then 1 else 0.

Lemma owners_cons y U vs b : owners (y :: U) vs b = b2n (points vs b y) + owners U vs b.
Proof. unfold owners. cbn. destruct (points vs b y); reflexivity. Qed.

Lemma owners_ext U vs vs' b :
  (forall x, In x U -> vs x = vs' x) -> owners U vs b = owners U vs' b.
Proof.
  induction U as [|y U IH]; intros H; [reflexivity|].
  rewrite !owners_cons. unfold points. rewrite (H y) by now left.
  rewrite IH; [reflexivity|]. intros x Hx. apply H. now right.
Qed.

Lemma owners_upd_notin U vs x v b : ~ In x U -> owners U (upd vs x v) b = owners U vs b.
Proof.
  intros H. apply owners_ext. intros y Hy. apply upd_other. intros ->. contradiction.
Qed.

Lemma owners_upd U vs x v b : NoDup U -> In x U ->
  owners U (upd vs x v) b + b2n (points vs b x) =
  owners U vs b + b2n (points (upd vs x v) b x).
Proof.
  induction U as [|y U IH]; intros ND Hin; [destruct Hin|].
  inversion ND as [|? ? Hny ND']; subst.
  rewrite !owners_cons. destruct Hin as [->|Hin].
  - rewrite owners_upd_notin by assumption. lia.
  - assert (y <> x) by (intros ->; contradiction).
    rewrite (points_upd_other vs x y) by assumption.
    specialize (IH ND' Hin). lia.
Qed.

Lemma owners_pos U vs b x : In x U -> vs x = Some b -> 1 <= owners U vs b.
Proof.
  induction U as [|y U IH]; intros Hin Hx; [destruct Hin|].
  rewrite owners_cons. destruct Hin as [->|Hin].
  - unfold points. rewrite Hx, Nat.eqb_refl. cbn. lia.
  - specialize (IH Hin Hx). lia.
Qed.

Lemma owners_zero_iff U vs b : owners U vs b = 0 <-> forall x, In x U -> vs x <> Some b.
Proof.
  split.
  - intros H x Hin Hx. pose proof (owners_pos U vs b x Hin Hx). lia.
  - induction U as [|y U IH]; intros H; [reflexivity|].
    rewrite owners_cons, IH by (intros x Hx; apply H; now right).
    unfold points. specialize (H y (or_introl eq_refl)).
    destruct (vs y) as [b'|]; [|reflexivity].
    destruct (Nat.eqb_spec b' b); [subst; congruence | reflexivity].
Qed.

Lemma owners_zero U vs b : owners U vs b = 0 -> forall x, In x U -> vs x <> Some b.
Proof. apply owners_zero_iff. Qed.

Lemma owners_set U vs x v b : NoDup U -> In x U ->
  owners U (upd vs x v) b =
  owners U (upd vs x None) b + b2n (match v with Some b' => Nat.eqb b' b | None => false end).
Proof.
  intros ND Hin.
  pose proof (owners_upd U vs x v b ND Hin) as H. pose proof (owners_upd U vs x None b ND Hin) as H0.
  rewrite points_upd_same in H, H0. cbn [b2n] in H0. lia.
Qed.

Lemma owners_unset U vs x b : NoDup U -> In x U ->
  owners U vs b = owners U (upd vs x None) b + b2n (points vs b x).
Proof.
  intros ND Hin. pose proof (owners_upd U vs x None b ND Hin) as H.
  rewrite points_upd_same in H. cbn [b2n] in H. lia.
Qed.

Lemma owners_two U vs x y b : NoDup U -> In x U -> In y U -> x <> y ->
  vs x = Some b -> vs y = Some b -> 2 <= owners U vs b.
Proof.
  intros ND Hx Hy Hne Vx Vy. rewrite (owners_unset U vs x b ND Hx).
  unfold points at 1. rewrite Vx, Nat.eqb_refl. cbn.
  assert (1 <= owners U (upd vs x None) b).
  { apply (owners_pos U _ b y Hy). rewrite upd_other; auto. }
  lia.
Qed.
