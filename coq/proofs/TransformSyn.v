(* Definition before use.  In the statements a pass derives from one leaf, a name of
   a set G (instantiated with the generated names) is read only if it was defined before the leaf
   (D) or written by an earlier statement of the same list.  Purely syntactic; needs no side
   condition on where calls / conditional expressions occur.
   wsynV says it of the statements derived from something that reads V; it holds of every derivation of
   TransformSpec.hoist (hoist_wsyn). *)
From Coq Require Import List ZArith NArith String Ascii Bool Arith Lia.
Import ListNotations.
From Dagrt Require Import Lang LangProofs Sched Transform TransformSem TransformSide TransformBasics TransformHoist
     TransformSpec.

Definition rvars (n : tstmt) : list var := vars (tcond n) ++ flat_map vars (kexprs (tkd n)).
Definition wrs (ns : list tstmt) : list var := flat_map swr ns.

Definition dbuD (G D : list var) (ns : list tstmt) : Prop :=
  forall pre n post, ns = pre ++ n :: post -> forall x, In x (rvars n) -> In x G -> In x (D ++ wrs pre).

Lemma wrs_app a b : wrs (a ++ b) = wrs a ++ wrs b.
Proof. unfold wrs. apply flat_map_app. Qed.

Lemma split_mid {A} (l1 l2 pre : list A) n post :
  l1 ++ l2 = pre ++ n :: post ->
  (exists post1, l1 = pre ++ n :: post1 /\ post = post1 ++ l2) \/
  (exists pre2, pre = l1 ++ pre2 /\ l2 = pre2 ++ n :: post).
Proof.
  revert pre. induction l1 as [|x l1 IH]; intros pre H.
  - right. exists pre. auto.
  - destruct pre as [|y pre]; cbn in H; inversion H; subst.
    + left. exists l1. auto.
    + destruct (IH pre H2) as [(p1 & -> & ->)|(p2 & -> & ->)].
      * left. exists p1. auto.
      * right. exists p2. auto.
Qed.

Lemma dbuD_nil G D : dbuD G D [].
Proof. intros pre n post H. destruct pre; discriminate. Qed.

Lemma dbuD_app G D ns1 ns2 : dbuD G D ns1 -> dbuD G (D ++ wrs ns1) ns2 -> dbuD G D (ns1 ++ ns2).
Proof.
  intros D1 D2 pre n post E x Hx Hg. apply split_mid in E. destruct E as [(p1 & -> & ->)|(p2 & -> & ->)].
  - eapply D1; eauto.
  - specialize (D2 p2 n post eq_refl x Hx Hg). rewrite wrs_app. rewrite !in_app_iff in *. tauto.
Qed.

Lemma dbuD_one G D n : (forall x, In x (rvars n) -> In x G -> In x D) -> dbuD G D [n].
Proof.
  intros H pre n0 post E x Hx Hg. destruct pre as [|? [|? ?]]; cbn in E; inversion E; subst.
  cbn. rewrite app_nil_r. now apply H.
Qed.

Lemma dbuD_mono G D D' ns : incl D D' -> dbuD G D ns -> dbuD G D' ns.
Proof.
  intros Hi H pre n post E x Hx Hg. specialize (H pre n post E x Hx Hg). rewrite in_app_iff in *.
  destruct H; auto.
Qed.

(* the names of G among V are defined: they are in D *)
Definition known (G D V : list var) : Prop := forall x, In x V -> In x G -> In x D.

Lemma known_mono G D D' V : incl D D' -> known G D V -> known G D' V.
Proof. intros Hi H x Hx Hg. apply Hi. now apply H. Qed.

Lemma known_appl G D E V : known G D V -> known G (D ++ E) V.
Proof. apply known_mono, incl_appl, incl_refl. Qed.

Lemma known_app G D V1 V2 : known G D V1 -> known G D V2 -> known G D (V1 ++ V2).
Proof. intros H1 H2 x Hx. apply in_app_iff in Hx. destruct Hx; auto. Qed.

Lemma known_app_inv G D V1 V2 : known G D (V1 ++ V2) -> known G D V1 /\ known G D V2.
Proof. intros H. split; intros x Hx; apply H, in_app_iff; auto. Qed.

(* the statements ns, derived under the guard cond from something that reads V, and what stands for it, which
   reads V' *)
Definition wsynV (cond : expr) (V V' : list var) (ns : list tstmt) : Prop :=
  forall G D, known G D V -> known G D (vars cond) -> dbuD G D ns /\ known G (D ++ wrs ns) V'.

Definition wsynG (cond a a' : expr) (ns : list tstmt) : Prop := wsynV cond (vars a) (vars a') ns.

Lemma wsynV_id cond V : wsynV cond V V [].
Proof. intros G D Ha Hc. split; [apply dbuD_nil|]. intros x Hx Hg. rewrite app_nil_r. now apply Ha. Qed.

Lemma wsynG_id cond a : wsynG cond a a [].
Proof. apply wsynV_id. Qed.

Lemma rvars_assign id deps g x a : rvars (mkT id deps g (KAssign x None a [])) = vars g ++ vars a.
Proof. unfold rvars. cbn. now rewrite app_nil_r. Qed.

Lemma known_flat_and G D c x : known G D (vars c) -> known G D (vars x) -> known G D (vars (flat_and c x)).
Proof. intros Hc Hx y Hy. apply vars_flat_and in Hy. destruct Hy; auto. Qed.

Lemma known_incl G D V V' : incl V' V -> known G D V -> known G D V'.
Proof. intros Hi H x Hx. apply H. now apply Hi. Qed.

Lemma wsynV_incl cond V V2 V' V2' ns : incl V V2 -> incl V2' V' -> wsynV cond V V' ns -> wsynV cond V2 V2' ns.
Proof.
  intros Hi Hi' H G D Ha Hc. destruct (H G D (known_incl _ _ _ _ Hi Ha) Hc) as [D1 R1].
  split; [exact D1|exact (known_incl _ _ _ _ Hi' R1)].
Qed.

Lemma wsynV_app cond V1 V1' ns1 V2 V2' ns2 :
  wsynV cond V1 V1' ns1 -> wsynV cond V2 V2' ns2 -> wsynV cond (V1 ++ V2) (V1' ++ V2') (ns1 ++ ns2).
Proof.
  intros H1 H2 G D Ha Hc. apply known_app_inv in Ha. destruct Ha as [Ha Hl].
  destruct (H1 G D Ha Hc) as [D1 R1].
  destruct (H2 G (D ++ wrs ns1) (known_appl _ _ _ _ Hl) (known_appl _ _ _ _ Hc)) as [D2 R2].
  split; [now apply dbuD_app|]. rewrite wrs_app, app_assoc. apply known_app; [now apply known_appl|exact R2].
Qed.

Lemma wsynV_snoc cond V V' ns n name :
  wsynV cond V V' ns -> incl (rvars n) (vars cond ++ V') -> In name (swr n) -> wsynV cond V [name] (ns ++ [n]).
Proof.
  intros H Hr Hw G D Ha Hc. destruct (H G D Ha Hc) as [D1 R1]. split.
  - apply dbuD_app; [exact D1|]. apply dbuD_one. intros x Hx. apply Hr in Hx. revert x Hx.
    apply known_app; [now apply known_appl|exact R1].
  - intros x [<-|[]] _. rewrite wrs_app, !in_app_iff. right. right. unfold wrs. cbn. rewrite app_nil_r. exact Hw.
Qed.

(* the flag is set ahead of the statements of the branches, whose guards read it *)
Lemma wsynV_ite cond Vc Vt Vf nc nt nf flag res i1 i2 i3 d1 d2 d3 c' t' f' :
  let tcnd := flat_and cond (EVar flag) in
  let fcnd := flat_and cond (ENot (EVar flag)) in
  wsynV cond Vc (vars c') nc -> wsynV tcnd Vt (vars t') nt -> wsynV fcnd Vf (vars f') nf ->
  wsynV cond (Vc ++ Vt ++ Vf) [res]
        (nc ++ [mkT i1 d1 cond (KAssign flag None c' [])] ++ nt ++ nf
            ++ [mkT i2 d2 tcnd (KAssign res None t' []); mkT i3 d3 fcnd (KAssign res None f' [])]).
Proof.
  intros tcnd fcnd IHc IHt IHf G D Ha Hc.
  set (s1 := mkT i1 d1 cond (KAssign flag None c' [])).
  set (s2 := mkT i2 d2 tcnd (KAssign res None t' [])). set (s3 := mkT i3 d3 fcnd (KAssign res None f' [])).
  apply known_app_inv in Ha. destruct Ha as [Ha1 Ha]. apply known_app_inv in Ha. destruct Ha as [Ha2 Ha3].
  destruct (IHc G D Ha1 Hc) as [D1 R1].
  set (Dt := (D ++ wrs nc) ++ wrs [s1]).
  assert (Kc : known G Dt (vars cond)) by apply known_appl, known_appl, Hc.
  assert (Kfl : known G Dt [flag]).
  { intros x [<-|[]] _. unfold Dt. apply in_app_iff. right. now left. }
  pose proof (known_flat_and G Dt cond (EVar flag) Kc Kfl) as Kt.
  pose proof (known_flat_and G Dt cond (ENot (EVar flag)) Kc Kfl) as Kf. fold tcnd in Kt. fold fcnd in Kf.
  destruct (IHt G Dt (known_appl _ _ _ _ (known_appl _ _ _ _ Ha2)) Kt) as [D2 R2].
  destruct (IHf G (Dt ++ wrs nt) (known_appl _ _ _ _ (known_appl _ _ _ _ (known_appl _ _ _ _ Ha3)))
                (known_appl _ _ _ _ Kf)) as [D3 R3].
  split.
  - apply dbuD_app; [exact D1|]. apply dbuD_app.
    { apply dbuD_one. unfold s1. rewrite rvars_assign. apply known_app; [now apply known_appl|exact R1]. }
    fold Dt. apply dbuD_app; [exact D2|]. apply dbuD_app; [exact D3|].
    change [s2; s3] with ([s2] ++ [s3]). apply dbuD_app.
    { apply dbuD_one. unfold s2. rewrite rvars_assign. apply known_app; [now apply known_appl, known_appl|].
      now apply known_appl. }
    { apply dbuD_one. unfold s3. rewrite rvars_assign. apply known_app; [now apply known_appl, known_appl, known_appl|].
      now apply known_appl. }
  - intros x [<-|[]] _. rewrite !wrs_app, !in_app_iff. do 5 right. cbn. now left.
Qed.

Lemma hoist_wsyn :
  (forall p cond a a' ns N I, hoist p cond a a' ns N I -> wsynG cond a a' ns) /\
  (forall p cond l l' ns N I, hoists p cond l l' ns N I -> wsynV cond (flat_map vars l) (flat_map vars l') ns).
Proof.
  apply hoist_both; unfold wsynG; cbn [vars flat_map]; try (intros; assumption).
  - intros p cond a. apply wsynV_id.
  - intros p cond o a b a' b' ns N I _ _ H. now rewrite !app_nil_r in H.
  - intros p cond c t f c' t' f' ns N I _ _ _ H. now rewrite !app_nil_r in H.
  - intros cond a a' ns N I name id deps _ _ H.
    apply (wsynV_snoc cond _ _ ns _ name H); [rewrite rvars_assign; apply incl_refl|now left].
  - intros cond f kw l lp lk l' ns N I Es _. apply wsynV_incl; [|apply incl_refl].
    exact (flat_map_incl vars _ _ (args_incl kw l lp lk _ Es)).
  - intros cond f kw l l' ns N I name id deps p kv _ H Es. apply (wsynV_snoc cond _ _ ns _ name H); [|now left].
    unfold rvars. cbn [tcond tkd kexprs]. apply incl_app; [now apply incl_appl|apply incl_appr].
    apply split_at_spec in Es. destruct Es as [-> _]. rewrite !flat_map_app.
    apply incl_app; [now apply incl_appl|apply incl_appr, flat_map_incl, combine_snd_incl].
  - intros cond c t f c' t' f' nc nt nf Nc Nt Nf Ic It If flag res i1 i2 i3 d1 d2 d3 _ IHc _ IHt _ IHf.
    now apply wsynV_ite.
  - intros p cond. apply wsynV_id.
  - intros p cond a a' l l' ns1 ns2 N1 N2 I1 I2 _ H1 _ H2. now apply wsynV_app.
Qed.

Lemma hoist_wsynG {p cond a a' ns N I} : hoist p cond a a' ns N I -> wsynG cond a a' ns.
Proof. apply hoist_wsyn. Qed.
Lemma hoists_wsynV {p cond l l' ns N I} :
  hoists p cond l l' ns N I -> wsynV cond (flat_map vars l) (flat_map vars l') ns.
Proof. apply hoist_wsyn. Qed.

(* definition before use for one call of a mapper, in one statement *)
Definition yspec (cond a : expr) (m : MW expr) : Prop :=
  forall st a' ns xs st', m st = TOk (a', ns, xs, st') -> wsynG cond a a' ns.

Lemma rspec_yspec p cond a m : rspec p cond a m -> yspec cond a m.
Proof. intros H st a' ns xs st' E. destruct (H _ _ _ _ _ E) as (N & I & _ & _ & Hh). exact (hoist_wsynG Hh). Qed.
