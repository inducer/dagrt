(* Every run of the argument isolator, of the call isolator (either shape of isolate_call) and of the
   conditional-expression expander in the shape that emits the flag assignment first (ite true; rule h_ite has that
   order, and the other shape has runs without a derivation) that returns yields a derivation of TransformSpec.hoist:
   fai_rspec, fci_rspec, ite_rspec, one induction over the expression each, no side condition on the expression.
   Before them the unfolding equations of the mappers and what they do on a clean expression (cid: nothing, the
   generator state included). *)
From Coq Require Import List ZArith NArith String Ascii Bool Arith Lia Permutation.
Import ListNotations.
From Dagrt Require Import Lang LangProofs Sched Transform TransformSem TransformSide TransformBasics TransformHoist
     TransformSpec ListFacts.

Lemma nop_call_or_not o : (exists f kw, o = NCall f kw) \/ (forall f kw, o <> NCall f kw).
Proof. destruct o; try (right; intros; discriminate). left. eauto. Qed.

(* monad laws, pointwise: MW is a function type and no extensionality is assumed *)
Lemma bindw_ext {A B} (m : MW A) (f f' : A -> MW B) :
  (forall a st, f a st = f' a st) -> forall st, bindw m f st = bindw m f' st.
Proof.
  intros H st. unfold bindw. destruct (m st) as [[[[a ns] xs] st1]|e]; [|reflexivity]. now rewrite H.
Qed.

Lemma bindw_assoc {A B C} (m : MW A) (f : A -> MW B) (g : B -> MW C) st :
  bindw (bindw m f) g st = bindw m (fun a => bindw (f a) g) st.
Proof.
  unfold bindw. destruct (m st) as [[[[a ns] xs] st1]|e]; [|reflexivity].
  destruct (f a st1) as [[[[b ns2] xs2] st2]|e]; [|reflexivity].
  destruct (g b st2) as [[[[c ns3] xs3] st3]|e]; [|reflexivity].
  now rewrite !app_assoc.
Qed.

Lemma bindw_retw_l {A B} (a : A) (f : A -> MW B) st : bindw (retw a) f st = f a st.
Proof. unfold bindw, retw. destruct (f a st) as [[[[b ns] xs] s]|e]; reflexivity. Qed.

Lemma seqw_app_eq {A B} (p k : list (MW A)) (g : list A -> MW B) st :
  bindw (seqw p) (fun p' => bindw (seqw k) (fun k' => g (p' ++ k'))) st = bindw (seqw (p ++ k)) g st.
Proof.
  revert g st. induction p as [|m p IH]; intros g st.
  - cbn [seqw app]. rewrite bindw_retw_l. reflexivity.
  - cbn [seqw app]. rewrite !bindw_assoc. apply bindw_ext. intros a st1.
    rewrite !bindw_assoc.
    transitivity (bindw (seqw p) (fun r' => bindw (seqw k) (fun k' => g ((a :: r') ++ k'))) st1).
    { apply bindw_ext. intros r' st2.
      exact (bindw_retw_l (a :: r') (fun p' => bindw (seqw k) (fun k' => g (p' ++ k'))) st2). }
    transitivity (bindw (seqw (p ++ k)) (fun l => g (a :: l)) st1).
    { apply (IH (fun l => g (a :: l))). }
    symmetry. apply bindw_ext. intros r' st2. exact (bindw_retw_l (a :: r') g st2).
Qed.

Section Fai.
  Variable cond : expr.
  Variable bdeps : list string.

  Lemma fai_not a : fai cond bdeps (ENot a) = bindw (fai cond bdeps a) (fun a' => retw (ENot a')).
  Proof. reflexivity. Qed.
  Lemma fai_if c t f :
    fai cond bdeps (EIf c t f) =
    bindw (fai cond bdeps c) (fun c' => bindw (fai cond bdeps t) (fun t' =>
      bindw (fai cond bdeps f) (fun f' => retw (EIf c' t' f')))).
  Proof. reflexivity. Qed.
  Lemma fai_bin o a b :
    fai cond bdeps (EBin o a b) =
    bindw (fai cond bdeps a) (fun a' => bindw (fai cond bdeps b) (fun b' => retw (EBin o a' b'))).
  Proof. reflexivity. Qed.
  Lemma fai_nary o l :
    (forall f kw, o <> NCall f kw) ->
    fai cond bdeps (ENary o l) = bindw (seqw (map (fai cond bdeps) l)) (fun l' => retw (ENary o l')).
  Proof. intros H. destruct o; try reflexivity. exfalso. eapply H. reflexivity. Qed.
  Lemma fai_call f kw l :
    fai cond bdeps (ENary (NCall f kw) l) =
    let cl := map (fun a => isolate_arg cond bdeps a (fai cond bdeps a)) l in
    let (pos, kws) := split_at (List.length cl - List.length kw) cl in
    let skw := kw_sort (combine kw kws) in
    bindw (seqw pos) (fun pos' =>
    bindw (seqw (map snd skw)) (fun kws' =>
      retw (ENary (NCall f (map fst skw)) (pos' ++ kws')))).
  Proof. reflexivity. Qed.

  Definition iso_arg (a : expr) : MW expr := isolate_arg cond bdeps a (fai cond bdeps a).

  Lemma fai_call_sorted f kw l st :
    sorted_keys kw = true -> (List.length kw <= List.length l)%nat ->
    fai cond bdeps (ENary (NCall f kw) l) st =
    bindw (seqw (map iso_arg l)) (fun l' => retw (ENary (NCall f kw) l')) st.
  Proof.
    intros Hs Hl. rewrite fai_call. cbv zeta. fold iso_arg.
    set (cl := map iso_arg l).
    destruct (split_at (List.length cl - List.length kw) cl) as [pos kws] eqn:Es.
    apply split_at_spec in Es. destruct Es as [Hcl Hlen].
    assert (Hn : List.length cl = List.length l) by (unfold cl; apply map_length).
    assert (Hk : List.length kws = List.length kw).
    { assert (List.length cl = List.length pos + List.length kws)%nat by (rewrite Hcl; apply app_length). lia. }
    rewrite (kw_sort_sorted kw kws Hs Hk).
    rewrite (map_snd_combine kw kws) by lia. rewrite (map_fst_combine kw kws) by lia.
    rewrite (seqw_app_eq pos kws (fun l' => retw (ENary (NCall f kw) l')) st).
    now rewrite <- Hcl.
  Qed.

  Lemma isolate_arg_inv a rec st r ns0 xs0 st' :
    is_var a = false -> isolate_arg cond bdeps a rec st = TOk (r, ns0, xs0, st') ->
    exists name st1 id st2 a' ns xs,
      genv "tmp" st = TOk (name, st1) /\ geni "tmp" st1 = TOk (id, st2) /\ rec st2 = TOk (a', ns, xs, st') /\
      r = EVar name /\ ns0 = ns ++ [mkT id (bdeps ++ xs) cond (KAssign name None a' [])] /\ xs0 = [id].
  Proof.
    intros Hv E.
    (* on a non-variable the body of isolate_arg does not look at the argument *)
    assert (Ea : isolate_arg cond bdeps a rec st = isolate_arg cond bdeps ENone rec st)
      by (destruct a; try discriminate; reflexivity).
    rewrite Ea in E. cbn [isolate_arg] in E.
    destruct (genv "tmp" st) as [[name st1]|?]; [|discriminate].
    destruct (geni "tmp" st1) as [[id st2]|?] eqn:G2; [|discriminate].
    destruct (rec st2) as [[[[a' ns] xs] st3]|?] eqn:E3; [|discriminate].
    injection E as <- <- <- <-. exists name, st1, id, st2, a', ns, xs. auto 7.
  Qed.

  Lemma iso_arg_var_id l : forallb is_var l = true -> Forall2 cid l (map iso_arg l).
  Proof.
    induction l as [|a l IH]; intros H; [constructor|]. cbn [forallb] in H.
    apply andb_true_iff in H. destruct H as [H1 H2]. constructor; [|auto].
    destruct a; try discriminate. intros st. reflexivity.
  Qed.

  Lemma fai_clean_id e :
    fai_clean e = true -> kw_sorted e = true -> arity_ok e = true -> cid e (fai cond bdeps e).
  Proof.
    induction e as [z|b| |x|a IHa|c t e IHc IHt IHe|o a b IHa IHb|o l IH] using expr_ind';
      intros H Hk Ha; try (intros st; reflexivity); cbn [fai_clean kw_sorted arity_ok] in *.
    - rewrite fai_not. apply cid_not. auto.
    - apply andb_true_iff in H. destruct H as [H He]. apply andb_true_iff in H. destruct H as [Hc Ht].
      apply andb_true_iff in Hk. destruct Hk as [Hk Hke]. apply andb_true_iff in Hk. destruct Hk as [Hkc Hkt].
      apply andb_true_iff in Ha. destruct Ha as [Ha Hae]. apply andb_true_iff in Ha. destruct Ha as [Hac Hat].
      rewrite fai_if. apply cid_if; auto.
    - apply andb_true_iff in H. destruct H as [H1 H2].
      apply andb_true_iff in Hk. destruct Hk as [Hk1 Hk2].
      apply andb_true_iff in Ha. destruct Ha as [Ha1 Ha2].
      rewrite fai_bin. apply cid_bin; auto.
    - apply andb_true_iff in H. destruct H as [Hl Ho].
      apply andb_true_iff in Hk. destruct Hk as [Hkl Hko].
      apply andb_true_iff in Ha. destruct Ha as [Hal Hao].
      destruct (nop_call_or_not o) as [(f & kw & ->)|Hn].
      { intros st. rewrite fai_call_sorted; [|exact Hko|now apply Nat.leb_le]. revert st.
           apply cid_nary, iso_arg_var_id, Ho. }
      rewrite fai_nary by exact Hn. apply cid_nary, Forall2_map_r, Forall_forall.
      intros x Hx; rewrite Forall_forall in IH; rewrite forallb_forall in Hl, Hkl, Hal; apply IH; auto.
  Qed.

  Lemma forallb_Forall {A} (p : A -> bool) l : forallb p l = true -> Forall (fun a => p a = true) l.
  Proof. intros H. apply Forall_forall. intros x Hx. rewrite forallb_forall in H. auto. Qed.

End Fai.

Section Fci.
  Variable fixed : bool.
  Variable cond : expr.
  Variable bdeps : list string.
  Notation fci' := (fci fixed cond bdeps).

  Lemma fci_not a : fci' (ENot a) = bindw (fci' a) (fun a' => retw (ENot a')).
  Proof. reflexivity. Qed.
  Lemma fci_if c t f :
    fci' (EIf c t f) =
    bindw (fci' c) (fun c' => bindw (fci' t) (fun t' => bindw (fci' f) (fun f' => retw (EIf c' t' f')))).
  Proof. reflexivity. Qed.
  Lemma fci_bin o a b :
    fci' (EBin o a b) = bindw (fci' a) (fun a' => bindw (fci' b) (fun b' => retw (EBin o a' b'))).
  Proof. reflexivity. Qed.
  Lemma fci_nary o l :
    (forall f kw, o <> NCall f kw) ->
    fci' (ENary o l) = bindw (seqw (map fci' l)) (fun l' => retw (ENary o l')).
  Proof. intros H. destruct o; try reflexivity. exfalso. eapply H. reflexivity. Qed.
  Lemma fci_call f kw l st :
    fci' (ENary (NCall f kw) l) st =
    match genv "tmp" st with
    | TErr e => TErr e
    | TOk (name, st1) =>
      match geni "tmp" st1 with
      | TErr e => TErr e
      | TOk (id, st2) =>
        match (if fixed then seqw (map fci' l)
               else if existsb has_call l then failw ETypeError else retw l) st2 with
        | TErr e => TErr e
        | TOk (l', ns, xs, st3) =>
            let (p, kv) := split_at (List.length l' - List.length kw) l' in
            TOk (EVar name, ns ++ [mkT id (bdeps ++ xs) cond (KCall [name] f p (combine kw kv))], [id], st3)
        end
      end
    end.
  Proof. reflexivity. Qed.
  Lemma existsb_false_forall {A} (p : A -> bool) l : existsb p l = false -> forall x, In x l -> p x = false.
  Proof.
    intros H x Hx. destruct (p x) eqn:E; [|reflexivity].
    assert (existsb p l = true) by (apply existsb_exists; eauto). congruence.
  Qed.

  Lemma fci_clean_id e : has_call e = false -> cid e (fci' e).
  Proof.
    induction e as [z|b| |x|a IHa|c t e IHc IHt IHe|o a b IHa IHb|o l IH] using expr_ind';
      intros H; try (intros st; reflexivity); cbn [has_call] in H.
    - rewrite fci_not. apply cid_not. auto.
    - apply orb_false_iff in H. destruct H as [H He]. apply orb_false_iff in H. destruct H as [Hc Ht].
      rewrite fci_if. apply cid_if; auto.
    - apply orb_false_iff in H. destruct H as [Ha Hb]. rewrite fci_bin. apply cid_bin; auto.
    - destruct o as [| | | | | |f kw]; try discriminate;
        (rewrite fci_nary by (intros; discriminate); apply cid_nary, Forall2_map_r, Forall_forall;
         intros x Hx; rewrite Forall_forall in IH; apply IH; [exact Hx|]; eapply existsb_false_forall; eauto).
  Qed.

  (* both shapes of isolate_call agree whenever the unrepaired one does not raise *)
  Lemma fci_children l st2 l' ns xs st3 :
    (if fixed then seqw (map fci' l)
     else if existsb has_call l then failw ETypeError else retw l) st2 = TOk (l', ns, xs, st3) ->
    seqw (map fci' l) st2 = TOk (l', ns, xs, st3).
  Proof.
    pose proof fci_clean_id as Hid.
    destruct fixed; [auto|]. destruct (existsb has_call l) eqn:E; [discriminate|].
    intros H. apply retw_inv in H. destruct H as (-> & -> & -> & ->).
    apply seqw_cid, Forall2_map_r, Forall_forall. intros x Hx. apply Hid. eapply existsb_false_forall; eauto.
  Qed.

  Lemma fci_call_inv f kw l st r ns0 xs0 st' :
    fci' (ENary (NCall f kw) l) st = TOk (r, ns0, xs0, st') ->
    exists name st1 id st2 l' ns xs p kv,
      genv "tmp" st = TOk (name, st1) /\ geni "tmp" st1 = TOk (id, st2) /\
      seqw (map fci' l) st2 = TOk (l', ns, xs, st') /\ split_at (List.length l' - List.length kw) l' = (p, kv) /\
      r = EVar name /\ ns0 = ns ++ [mkT id (bdeps ++ xs) cond (KCall [name] f p (combine kw kv))] /\ xs0 = [id].
  Proof.
    intros E. rewrite fci_call in E.
    destruct (genv "tmp" st) as [[name st1]|?]; [|discriminate].
    destruct (geni "tmp" st1) as [[id st2]|?] eqn:G2; [|discriminate].
    destruct ((if fixed then seqw (map fci' l) else if existsb has_call l then failw ETypeError else retw l) st2)
      as [[[[l' ns] xs] st3]|?] eqn:E3; [|discriminate].
    destruct (split_at (List.length l' - List.length kw) l') as [p kv] eqn:Es.
    inversion E; subst. exists name, st1, id, st2, l', ns, xs, p, kv.
    split; [reflexivity|split; [exact G2|split; [now apply fci_children|auto]]].
  Qed.

End Fci.

Section Ite.
  Variable ff : bool.     (* ite_flag_first *)
  Notation ite' := (ite ff).

  Lemma ite_not a cond bdeps :
    ite' (ENot a) cond bdeps = bindw (ite' a cond bdeps) (fun a' => retw (ENot a')).
  Proof. reflexivity. Qed.
  Lemma ite_bin o a b cond bdeps :
    ite' (EBin o a b) cond bdeps =
    bindw (ite' a cond bdeps) (fun a' => bindw (ite' b cond bdeps) (fun b' => retw (EBin o a' b'))).
  Proof. reflexivity. Qed.
  Lemma ite_nary o l cond bdeps :
    ite' (ENary o l) cond bdeps =
    bindw (seqw (map (fun a => ite' a cond bdeps) l)) (fun l' => retw (ENary o l')).
  Proof. reflexivity. Qed.
  Lemma ite_if c t f cond bdeps st :
    ite' (EIf c t f) cond bdeps st =
    match genv "<cond>ifthenelse_cond" st with TErr e => TErr e | TOk (flag, st1) =>
    match genv "ifthenelse_result" st1 with TErr e => TErr e | TOk (res, st2) =>
    match geni "ifthenelse_cond" st2 with TErr e => TErr e | TOk (i1, st3) =>
    match geni "ifthenelse_then" st3 with TErr e => TErr e | TOk (i2, st4) =>
    match geni "ifthenelse_else" st4 with TErr e => TErr e | TOk (i3, st5) =>
    match ite' c cond bdeps st5 with TErr e => TErr e | TOk (c', nc, xc, st6) =>
    let tcnd := flat_and cond (EVar flag) in
    match ite' t tcnd (bdeps ++ [i1]) st6 with TErr e => TErr e | TOk (t', nt, xt, st7) =>
    let fcnd := flat_and cond (ENot (EVar flag)) in
    match ite' f fcnd (bdeps ++ [i1]) st7 with TErr e => TErr e | TOk (f', nf, xf, st8) =>
    let s1 := mkT i1 (bdeps ++ xc) cond (KAssign flag None c' []) in
    let s2 := mkT i2 (bdeps ++ xt ++ [i1]) tcnd (KAssign res None t' []) in
    let s3 := mkT i3 (bdeps ++ xf ++ [i1]) fcnd (KAssign res None f' []) in
    TOk (EVar res,
         (if ff then nc ++ [s1] ++ nt ++ nf ++ [s2; s3] else nc ++ nt ++ nf ++ [s1; s2; s3]),
         [i2; i3], st8)
    end end end end end end end end.
  Proof. reflexivity. Qed.

  Lemma ite_clean_id e : has_if e = false -> forall cond bdeps, cid e (ite' e cond bdeps).
  Proof.
    induction e as [z|b| |x|a IHa|c t e IHc IHt IHe|o a b IHa IHb|o l IH] using expr_ind';
      intros H cond bdeps; try (intros st; reflexivity); cbn [has_if] in H.
    - rewrite ite_not. apply cid_not. auto.
    - discriminate.
    - apply orb_false_iff in H. destruct H as [Ha Hb]. rewrite ite_bin. apply cid_bin; auto.
    - rewrite ite_nary. apply cid_nary, (Forall2_map_r cid (fun a => ite' a cond bdeps)), Forall_forall.
      intros x Hx. rewrite Forall_forall in IH. apply IH; [exact Hx|]. eapply existsb_false_forall; eauto.
  Qed.
End Ite.

Lemma count_one (x y : string) : count_occ string_dec [x] y = if string_dec x y then 1%nat else 0%nat.
Proof. cbn. destruct (string_dec x y); reflexivity. Qed.

Lemma ext_two bn bi st name st1 id st2 :
  genv bn st = TOk (name, st1) -> geni bi st1 = TOk (id, st2) -> ext st st2 [name] [id].
Proof. intros G1 G2. exact (ext_trans _ _ _ _ _ _ _ (ext_genv _ _ _ _ G1) (ext_geni _ _ _ _ G2)). Qed.

Definition on_snd {A B} (g : A -> B) (q : string * A) : string * B := (fst q, g (snd q)).

Lemma kw_insert_map {A B} (g : A -> B) x l :
  kw_insert (on_snd g x) (map (on_snd g) l) = map (on_snd g) (kw_insert x l).
Proof.
  induction l as [|y l IH]; [reflexivity|]. cbn [map kw_insert on_snd fst].
  destruct (String.leb (fst x) (fst y)); [reflexivity|]. cbn [map]. now rewrite <- IH.
Qed.

Lemma kw_sort_map {A B} (g : A -> B) kw l :
  kw_sort (combine kw (map g l)) = map (on_snd g) (kw_sort (combine kw l)).
Proof.
  revert l. induction kw as [|k kw IH]; intros [|x l]; try reflexivity.
  cbn [map combine]. unfold kw_sort. cbn [fold_right]. fold (kw_sort (combine kw (map g l))) (kw_sort (combine kw l)).
  rewrite IH. exact (kw_insert_map g (k, x) _).
Qed.

Lemma iso_arg_rspec cond bdeps a : rspec Pfai cond a (fai cond bdeps a) -> rspec Parg cond a (iso_arg cond bdeps a).
Proof.
  intros H st r ns0 xs0 st' E. unfold iso_arg in E. destruct (is_var a) eqn:Hv.
  { destruct a; try discriminate. revert E. apply rspec_ret. }
  apply isolate_arg_inv in E; [|exact Hv].
  destruct E as (name & st1 & id & st2 & a' & ns & xs & G1 & G2 & E3 & -> & -> & ->).
  destruct (H _ _ _ _ _ E3) as (N & I & X & _ & Hh).
  exists (N ++ [name]), (I ++ [id]). split; [exact (ext_trans _ _ _ _ _ _ _ (ext_two _ _ _ _ _ _ _ G1 G2) X)|].
  split; [now apply incl_appr|now apply h_arg].
Qed.

(* a call under the argument isolator: the closures of the keyword arguments run in the order of the sorted
   keywords *)
Lemma fai_call_r cond bdeps f kw l lp lk :
  Forall (fun a => rspec Pfai cond a (fai cond bdeps a)) l ->
  split_at (List.length l - List.length kw) l = (lp, lk) ->
  forall st r ns xs st', fai cond bdeps (ENary (NCall f kw) l) st = TOk (r, ns, xs, st') ->
    exists N I l', r = ENary (NCall f (map fst (kw_sort (combine kw lk)))) l' /\ ext st st' N I /\ incl xs I /\
      hoists Parg cond (lp ++ map snd (kw_sort (combine kw lk))) l' ns N I.
Proof.
  intros IH Es st r ns xs st'. rewrite fai_call. cbv zeta. fold (iso_arg cond bdeps).
  rewrite map_length, (split_at_map _ _ _ _ _ Es), kw_sort_map.
  set (skw := kw_sort (combine kw lk)).
  replace (map snd (map (on_snd (iso_arg cond bdeps)) skw)) with (map (iso_arg cond bdeps) (map snd skw))
    by (rewrite !map_map; reflexivity).
  replace (map fst (map (on_snd (iso_arg cond bdeps)) skw)) with (map fst skw) by (rewrite map_map; reflexivity).
  rewrite (seqw_app_eq _ _ (fun l' => retw (ENary (NCall f (map fst skw)) l')) st), <- map_app.
  intros E. apply bind_ret_inv in E. destruct E as (l' & E & ->).
  assert (Hall : rspecs Parg cond (lp ++ map snd skw) (seqw (map (iso_arg cond bdeps) (lp ++ map snd skw)))).
  { apply rspecs_map, Forall_forall. intros a Ha. apply iso_arg_rspec.
    rewrite Forall_forall in IH. exact (IH a (args_incl kw l lp lk _ Es a Ha)). }
  destruct (Hall _ _ _ _ _ E) as (N & I & X & S & Hh). exists N, I, l'. auto.
Qed.

Theorem fai_rspec e : forall cond bdeps, rspec Pfai cond e (fai cond bdeps e).
Proof.
  induction e as [z|b| |x|a IHa|c t e IHc IHt IHe|o a b IHa IHb|o l IH] using expr_ind'; intros cond bdeps;
    try apply rspec_ret.
  - rewrite fai_not. now apply rspec_not.
  - rewrite fai_if. now apply rspec_if.
  - rewrite fai_bin. now apply rspec_bin.
  - assert (Hall : Forall (fun a => rspec Pfai cond a (fai cond bdeps a)) l)
      by (eapply Forall_impl; [|exact IH]; intros a Ha; apply Ha).
    destruct (nop_call_or_not o) as [(f & kw & ->)|Hn].
    { intros st r ns xs st' E. destruct (split_at (List.length l - List.length kw) l) as [lp lk] eqn:Es.
      destruct (fai_call_r cond bdeps f kw l lp lk Hall Es _ _ _ _ _ E) as (N & I & l' & -> & X & S & Hh).
      exists N, I. split; [exact X|split; [exact S|]]. exact (h_args cond f kw l lp lk l' ns N I Es Hh). }
    rewrite fai_nary by exact Hn. apply (rspec_node Pfai Pfai cond l _ (fun l' => ENary o l')); [intros; now constructor|].
    now apply rspecs_map.
Qed.

Theorem fci_rspec fixed e : forall cond bdeps, rspec Pfci cond e (fci fixed cond bdeps e).
Proof.
  induction e as [z|b| |x|a IHa|c t e IHc IHt IHe|o a b IHa IHb|o l IH] using expr_ind'; intros cond bdeps;
    try apply rspec_ret.
  - rewrite fci_not. now apply rspec_not.
  - rewrite fci_if. now apply rspec_if.
  - rewrite fci_bin. now apply rspec_bin.
  - assert (Hall : rspecs Pfci cond l (seqw (map (fci fixed cond bdeps) l))).
    { apply rspecs_map. eapply Forall_impl; [|exact IH]. intros a Ha. apply Ha. }
    destruct (nop_call_or_not o) as [(f & kw & ->)|Hn].
    { intros st r ns0 xs0 st' E. apply fci_call_inv in E.
      destruct E as (name & st1 & id & st2 & l' & ns & xs & p & kv & G1 & G2 & E3 & Es & -> & -> & ->).
      destruct (Hall _ _ _ _ _ E3) as (N & I & X & _ & Hh).
      exists (N ++ [name]), (I ++ [id]). split; [exact (ext_trans _ _ _ _ _ _ _ (ext_two _ _ _ _ _ _ _ G1 G2) X)|].
      split; [now apply incl_appr|].
      exact (h_call cond f kw l l' ns N I name id _ p kv Hh Es). }
    rewrite fci_nary by exact Hn. apply (rspec_node Pfci Pfci cond l _ (fun l' => ENary o l')); [intros; now constructor|exact Hall].
Qed.

Theorem ite_rspec e : forall cond bdeps, rspec Pite cond e (ite true e cond bdeps).
Proof.
  induction e as [z|b| |x|a IHa|c t e IHc IHt IHe|o a b IHa IHb|o l IH] using expr_ind'; intros cond bdeps;
    try apply rspec_ret.
  - rewrite ite_not. now apply rspec_not.
  - intros st r ns0 xs0 st' E. rewrite ite_if in E.
    destruct (genv "<cond>ifthenelse_cond" st) as [[flag st1]|?] eqn:G1; [|discriminate].
    destruct (genv "ifthenelse_result" st1) as [[res st2]|?] eqn:G2; [|discriminate].
    destruct (geni "ifthenelse_cond" st2) as [[i1 st3]|?] eqn:G3; [|discriminate].
    destruct (geni "ifthenelse_then" st3) as [[i2 st4]|?] eqn:G4; [|discriminate].
    destruct (geni "ifthenelse_else" st4) as [[i3 st5]|?] eqn:G5; [|discriminate].
    destruct (ite true c cond bdeps st5) as [[[[c' nc] xc] st6]|?] eqn:Ec; [|discriminate].
    cbv zeta in E.
    destruct (ite true t (flat_and cond (EVar flag)) (bdeps ++ [i1]) st6) as [[[[t' nt] xt] st7]|?] eqn:Et;
      [|discriminate].
    destruct (ite true e (flat_and cond (ENot (EVar flag))) (bdeps ++ [i1]) st7) as [[[[f' nf] xf] st8]|?] eqn:Ef;
      [|discriminate].
    inversion E; subst r ns0 xs0 st'. clear E.
    destruct (IHc _ _ _ _ _ _ _ Ec) as (Nc & Ic & Xc & _ & Hc).
    destruct (IHt _ _ _ _ _ _ _ Et) as (Nt & It & Xt & _ & Ht).
    destruct (IHe _ _ _ _ _ _ _ Ef) as (Nf & If & Xf & _ & Hf).
    pose proof (ext_trans _ _ _ _ _ _ _ (ext_genv _ _ _ _ G1) (ext_genv _ _ _ _ G2)) as X2.
    pose proof (ext_trans _ _ _ _ _ _ _ X2 (ext_geni _ _ _ _ G3)) as X3.
    pose proof (ext_trans _ _ _ _ _ _ _ X3 (ext_geni _ _ _ _ G4)) as X4.
    pose proof (ext_trans _ _ _ _ _ _ _ X4 (ext_geni _ _ _ _ G5)) as X5. cbn [app] in X5.
    pose proof (ext_trans _ _ _ _ _ _ _ (ext_trans _ _ _ _ _ _ _ (ext_trans _ _ _ _ _ _ _ X5 Xc) Xt) Xf) as X8.
    exists (Nf ++ Nt ++ Nc ++ [res; flag]), (If ++ It ++ Ic ++ [i3; i2; i1]). split; [exact X8|].
    split; [intros x Hx; rewrite !in_app_iff; cbn in *; tauto|now apply h_ite].
  - rewrite ite_bin. now apply rspec_bin.
  - rewrite ite_nary. apply (rspec_node Pite Pite cond l _ (fun l' => ENary o l')); [intros; now constructor|].
    apply (rspecs_map Pite cond (fun a => ite true a cond bdeps)). eapply Forall_impl; [|exact IH]. intros a Ha. apply Ha.
Qed.

Section Specs.
  Variable F : string -> list val -> list (string * val) -> option (list val).
  Variable dg : bool.

  Theorem fai_spec cond bdeps e :
    fai_ok e = true -> kw_sorted e = true -> arity_ok e = true -> cspec F dg cond e (fai cond bdeps e).
  Proof. intros H1 H2 H3. apply (rspec_cspec F dg Pfai); [apply fai_rspec|]. unfold okp. now rewrite H1, H2, H3. Qed.

  Theorem fci_spec fixed cond bdeps e :
    fci_ok e = true -> arity_ok e = true -> cspec F dg cond e (fci fixed cond bdeps e).
  Proof. intros H1 H2. apply (rspec_cspec F dg Pfci); [apply fci_rspec|]. unfold okp. now rewrite H1, H2. Qed.

  Theorem ite_spec e : ite_ok e = true -> forall cond bdeps, cspec F dg cond e (ite true e cond bdeps).
  Proof. intros H cond bdeps. apply (rspec_cspec F dg Pite); [apply ite_rspec|exact H]. Qed.
End Specs.
