(* Two statements without a conflict on their (extended) read/write sets commute
   (up to extensional equality of stores), on stores in which no loop counter is
   live. *)
From Coq Require Import List ZArith String Bool Arith Lia.
Import ListNotations.
From Dagrt Require Import Lang LangProofs Builder Sched.

Definition disj (a b : list var) : Prop := forall x, In x a -> ~ In x b.

Section Indep.
  Variable tok : var.      (* the execution-state token *)

  Definition barrier (st : stmt) : bool := is_barrier (skd st).
  (* The sets the builder works with (Builder.ext_reads / ext_writes), less what a barrier reads of the
     names seen so far; BuilderProofs.binv has the exact relation.  Every statement reads the token and a
     barrier writes it, which is how a barrier conflicts with everything.  The two shape switches of
     Lang.reads are true: with either of them false the sets miss variables the statement reads, and
     independent statements need not commute (BuilderExamples.lhs_shape_refuted). *)
  Definition xr (st : stmt) : list var := reads true true st ++ [tok].
  Definition xw (st : stmt) : list var := writes st ++ (if barrier st then [tok] else []).
  Definition indep (a b : stmt) : Prop :=
    disj (xw a) (xr b ++ xw b) /\ disj (xw b) (xr a ++ xw a).

  Lemma indep_sym a b : indep a b -> indep b a.
  Proof. intros [H1 H2]. split; assumption. Qed.

  Lemma indep_not_barrier a b : indep a b -> barrier a = false /\ barrier b = false.
  Proof.
    assert (H : forall a b, indep a b -> barrier a = false).
    { intros a0 b0 [H1 _]. destruct (barrier a0) eqn:E; [|reflexivity]. exfalso. apply (H1 tok).
      - unfold xw. rewrite E, in_app_iff. right. now left.
      - unfold xr. rewrite !in_app_iff. left. right. now left. }
    intros Hi. split; [exact (H a b Hi)|exact (H b a (indep_sym a b Hi))].
  Qed.

  Lemma disj_dec a b : {disj a b} + {exists x, In x a /\ In x b}.
  Proof.
    induction a as [|x a IH].
    - left. intros x [].
    - destruct (in_dec string_dec x b) as [Hx|Hx].
      + right. exists x. split; [now left|exact Hx].
      + destruct IH as [IH|IH].
        * left. intros y [<-|Hy]; auto.
        * right. destruct IH as (y & Hy1 & Hy2). exists y. split; [now right|exact Hy2].
  Qed.

  Lemma indep_dec a b : {indep a b} + {~ indep a b}.
  Proof.
    unfold indep. destruct (disj_dec (xw a) (xr b ++ xw b)) as [H1|H1].
    - destruct (disj_dec (xw b) (xr a ++ xw a)) as [H2|H2]; [left; auto|].
      right. intros [_ H]. destruct H2 as (x & Hx1 & Hx2). exact (H x Hx1 Hx2).
    - right. intros [H _]. destruct H1 as (x & Hx1 & Hx2). exact (H x Hx1 Hx2).
  Qed.

  Lemma not_indep a b : ~ indep a b ->
    (exists x, In x (xw a) /\ In x (xr b ++ xw b)) \/ (exists x, In x (xw b) /\ In x (xr a ++ xw a)).
  Proof.
    intros H. destruct (disj_dec (xw a) (xr b ++ xw b)) as [H1|H1]; [|left; exact H1].
    destruct (disj_dec (xw b) (xr a ++ xw a)) as [H2|H2]; [|right; exact H2].
    exfalso. apply H. split; assumption.
  Qed.
End Indep.

Lemma req_refl S : req S S.
Proof. destruct S; cbn; auto. Qed.
Lemma req_trans a b c : req a b -> req b c -> req a c.
Proof.
  destruct a, b, c; cbn; try tauto.
  - intros [H1 ->] [H2 ->]. split; [intros; now rewrite H1|reflexivity].
  - intros [H1 [-> ->]] [H2 [-> ->]]. split; [intros; now rewrite H1|auto].
  - congruence.
Qed.

Lemma req_sym a b : req a b -> req b a.
Proof.
  destruct a, b; cbn; try tauto.
  - intros [H ->]. split; [intros; now rewrite H|reflexivity].
  - intros [H [-> ->]]. split; [intros; now rewrite H|auto].
  - congruence.
Qed.

Section Comm.
  Variable F : string -> list val -> list (string * val) -> option (list val).
  Variable g : bool.

  Lemma run_list_stop l s e w : run_list F g l (RStop s e w) = RStop s e w.
  Proof. induction l; cbn; auto. Qed.
  Lemma run_list_crash l u e : run_list F g l (RCrash u e) = RCrash u e.
  Proof. induction l; cbn; auto. Qed.

  Lemma step_proper st S S' : req S S' -> req (step F g st S) (step F g st S').
  Proof.
    destruct S as [s evs|s evs w|u], S' as [s' evs'|s' evs' w'|u']; cbn [req step]; try tauto.
    intros [Hs ->].
    destruct (exec_stmt_fp F g (fun _ => True) st (fun _ _ => I) s s' (fun x _ => Hs x)) as [a s1 s1' ev _ _ H|a o _ N];
      cbn [snd].
    - split; [intros x; apply H; exact I|reflexivity].
    - destruct o; cbn; auto.
  Qed.

  Lemma nonbarrier_outcome s st :
    barrier st = false -> exists r, snd (exec_stmt F g s st) = of_rs r.
  Proof.
    unfold barrier, exec_stmt. intros Hb.
    destruct (eval F s (scond st)) as [r v].
    destruct (rbind v _) as [[|]|u]; cbn [snd]; [|exists (Ok s); reflexivity|eexists; reflexivity].
    destruct (skd st) as [x sub rhs loops|xs f args kw|comp tid time e| | | | ]; try discriminate.
    - rewrite exec_kind_assign. destruct (run_loops F loops _ s) as [a [s1|u]]; [|eexists; reflexivity].
      destruct (del_loopvars g loops s1) as [a2 r2]. eexists; reflexivity.
    - cbn [exec_kind]. destruct (eval_list F s args) as [r1 [pos|u]]; [|eexists; reflexivity].
      destruct (eval_list F s (map snd kw)) as [r2 [kws|u]]; [|eexists; reflexivity].
      destruct (F f pos _) as [res|]; [|exists (Err true); reflexivity].
      destruct xs as [|x0 xs0]; [exists (Ok s); reflexivity|].
      destruct (Nat.eqb _ _); [|exists (Err false); reflexivity].
      destruct (assign_all s (x0 :: xs0) res) as [a0 s0]. exists (Ok s0). reflexivity.
  Qed.

  Variable tok : var.
  Variable LV : var -> Prop.           (* names used as loop counters anywhere in the phase *)
  Variable U : stmt -> Prop.           (* the statements of the phase *)
  Hypothesis HL : forall st, U st -> forall y, In y (loopvars (skd st)) -> LV y.
  Hypothesis HW : forall st, U st -> forall y, LV y -> ~ In y (writes st).

  Definition clean (S : rstate) : Prop :=
    match S with
    | RRun s _ | RStop s _ _ => forall y, LV y -> s y = None
    | RCrash _ _ => True
    end.

  Lemma exec_clean s st a s' ev :
    U st -> (forall y, LV y -> s y = None) -> exec_stmt F g s st = (a, ONext s' ev) ->
    forall y, LV y -> s' y = None.
  Proof.
    intros Hu Hc E. apply (exec_stmt_clean F g s st a s' ev LV E Hc). intros y Hy. apply HW; assumption.
  Qed.

  Lemma step_clean st S : U st -> clean S -> clean (step F g st S).
  Proof.
    intros Hu. destruct S as [s evs| |]; cbn [step]; auto. intros Hc.
    destruct (exec_stmt F g s st) as [a o] eqn:E. cbn [snd].
    destruct o; cbn [clean]; auto. exact (exec_clean s st a s0 ev Hu Hc E).
  Qed.

  (* on a clean store a loop counter is absent before a statement and after it, so the declared writes
     are all that changes *)
  Lemma exec_unch_clean s st a s' ev :
    U st -> (forall y, LV y -> s y = None) -> exec_stmt F g s st = (a, ONext s' ev) ->
    forall x, ~ In x (writes st) -> s' x = s x.
  Proof.
    intros Hu Hc E x Hx. destruct (in_dec string_dec x (loopvars (skd st))) as [Hl|Hl].
    - pose proof (HL st Hu x Hl) as Lx. rewrite (Hc x Lx). exact (exec_clean s st a s' ev Hu Hc E x Lx).
    - apply (exec_stmt_unch F g s st a s' ev E). unfold WL. rewrite in_app_iff. tauto.
  Qed.

  Lemma indep_writes a b x : U a -> U b -> indep tok a b -> FP a x -> ~ In x (writes b).
  Proof.
    intros Ua Ub [_ H2] Hx Hw. unfold FP in Hx. rewrite !in_app_iff in Hx.
    assert (Hxw : In x (xw tok b)) by (unfold xw; rewrite in_app_iff; now left).
    destruct Hx as [Hr|[Hwa|Hl]].
    - apply (H2 x Hxw). unfold xr. rewrite !in_app_iff. auto.
    - apply (H2 x Hxw). unfold xw. rewrite !in_app_iff. auto.
    - exact (HW b Ub x (HL a Ua x Hl) Hw).
  Qed.

  Lemma undisturbed a b s ab sb ev :
    U a -> U b -> indep tok a b -> (forall y, LV y -> s y = None) ->
    exec_stmt F g s b = (ab, ONext sb ev) ->
    agree (FP a) s sb.
  Proof.
    intros Ua Ub Hi Hc E x Hx. symmetry.
    exact (exec_unch_clean s b ab sb ev Ub Hc E x (indep_writes a b x Ua Ub Hi Hx)).
  Qed.

  Lemma undisturbed_outcome a b s ab sb ev :
    U a -> U b -> indep tok a b -> (forall y, LV y -> s y = None) ->
    exec_stmt F g s b = (ab, ONext sb ev) ->
    fpo_rel (RW a) (WL a) (FP a) s (exec_stmt F g s a) (exec_stmt F g sb a).
  Proof. intros Ua Ub Hi Hc E. apply exec_stmt_fp; [auto|]. exact (undisturbed a b s ab sb ev Ua Ub Hi Hc E). Qed.

  (* a raises: it raises after b as well, or b raised already; req does not tell the two apart *)
  Lemma comm_exn a b s evs u :
    U a -> U b -> indep tok a b -> (forall y, LV y -> s y = None) ->
    snd (exec_stmt F g s a) = of_rs (Err u) ->
    req (step F g a (step F g b (RRun s evs))) (step F g b (step F g a (RRun s evs))).
  Proof.
    intros Ua Ub Hi Hc Ea. destruct (indep_not_barrier tok a b Hi) as [_ Bb].
    destruct (nonbarrier_outcome s b Bb) as [[sb|ub] Eb]; cbn [step]; rewrite Ea, Eb.
    - destruct (exec_stmt F g s b) as [ab ob] eqn:E. cbn [snd of_rs] in Eb. subst ob.
      pose proof (undisturbed_outcome a b s ab sb None Ua Ub Hi Hc E) as Fa. cbn [snd of_rs step].
      destruct (exec_stmt F g s a) as [aa oa], (exec_stmt F g sb a) as [aa' oa']. cbn [snd] in *. subst oa.
      inversion Fa; [destruct u; discriminate|]. destruct u; cbn; apply app_nil_r.
    - destruct u, ub; reflexivity.
  Qed.

  Theorem indep_comm a b S :
    U a -> U b -> indep tok a b -> clean S ->
    req (step F g a (step F g b S)) (step F g b (step F g a S)).
  Proof.
    intros Ua Ub Hi Hc. destruct S as [s evs|s evs w|u]; [|apply req_refl..].
    cbn [clean] in Hc. pose proof (indep_sym tok a b Hi) as Hi'.
    destruct (indep_not_barrier tok a b Hi) as [Ba Bb].
    destruct (nonbarrier_outcome s a Ba) as [[sa|ua] Oa]; [|exact (comm_exn a b s evs ua Ua Ub Hi Hc Oa)].
    destruct (nonbarrier_outcome s b Bb) as [[sb|ub] Ob];
      [|apply req_sym; exact (comm_exn b a s evs ub Ub Ua Hi' Hc Ob)].
    destruct (exec_stmt F g s a) as [aa oa] eqn:Ea, (exec_stmt F g s b) as [ab ob] eqn:Eb.
    cbn [snd of_rs] in Oa, Ob. subst oa ob.
    pose proof (undisturbed_outcome a b s ab sb None Ua Ub Hi Hc Eb) as Fa.
    pose proof (undisturbed_outcome b a s aa sa None Ub Ua Hi' Hc Ea) as Fb.
    cbn [step]. rewrite Ea, Eb. cbn [snd step]. rewrite Ea in Fa. rewrite Eb in Fb.
    inversion Fa as [? ? sab ? _ _ Ha E1 Ea'|? ? _ N]; [|destruct (N _ _ eq_refl)].
    inversion Fb as [? ? sba ? _ _ Hb E2 Eb'|? ? _ N]; [|destruct (N _ _ eq_refl)].
    cbn [snd req]. split; [|reflexivity]. symmetry in Ea', Eb'.
    pose proof (exec_clean s a aa sa None Ua Hc Ea) as Hca. pose proof (exec_clean s b ab sb None Ub Hc Eb) as Hcb.
    (* a variable written by one of the two has the value that one gave it; any other is untouched *)
    intros x. destruct (in_dec string_dec x (writes a)) as [Hxa|Hxa]; [|destruct (in_dec string_dec x (writes b)) as [Hxb|Hxb]].
    - assert (Px : FP a x) by (unfold FP; rewrite !in_app_iff; auto).
      rewrite <- (Ha x Px). symmetry.
      exact (exec_unch_clean sa b _ sba None Ub Hca Eb' x (indep_writes a b x Ua Ub Hi Px)).
    - assert (Px : FP b x) by (unfold FP; rewrite !in_app_iff; auto).
      rewrite <- (Hb x Px). exact (exec_unch_clean sb a _ sab None Ua Hcb Ea' x (indep_writes b a x Ub Ua Hi' Px)).
    - rewrite (exec_unch_clean sb a _ sab None Ua Hcb Ea' x Hxa), (exec_unch_clean sa b _ sba None Ub Hca Eb' x Hxb).
      rewrite (exec_unch_clean s b ab sb None Ub Hc Eb x Hxb), (exec_unch_clean s a aa sa None Ua Hc Ea x Hxa).
      reflexivity.
  Qed.
End Comm.
