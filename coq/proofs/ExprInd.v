(* C19 -- what every proof about expressions starts from: induction through the lists inside an
   expression, the elements of a subscript index, the two shapes of a printed name. *)
From Coq Require Import List ZArith String Ascii Bool.
Import ListNotations.
From Dagrt Require Import GenC19 Print Parse.
Open Scope list_scope.

(* The index of a Subscript is one expression or a tuple of them; printer, evaluator, normal form
   and the well-formedness predicates all match on that: they work on this list. *)
Definition items (i : expr) : list expr := match i with ETuple l => l | _ => [i] end.

Section ExprInd.
  Variable P : expr -> Prop.
  Hypothesis HInt : forall z, P (EInt z).
  Hypothesis HBool : forall b, P (EBool b).
  Hypothesis HVar : forall x, P (EVar x).
  Hypothesis HNary : forall o l, Forall P l -> P (ENary o l).
  Hypothesis HBin : forall o a b, P a -> P b -> P (EBin o a b).
  Hypothesis HNot : forall a, P a -> P (ENot a).
  Hypothesis HIf : forall c t e, P c -> P t -> P e -> P (EIf c t e).
  Hypothesis HCall : forall f args kw, P f -> Forall P args -> Forall (fun kv => P (snd kv)) kw ->
                                       P (ECall f args kw).
  Hypothesis HSub : forall a i, P a -> P i -> Forall P (items i) -> P (ESub a i).
  Hypothesis HTuple : forall l, Forall P l -> P (ETuple l).

  Fixpoint expr_ind' (e : expr) : P e :=
    let fl := fix fl (l : list expr) : Forall P l :=
                match l with
                | [] => Forall_nil _
                | x :: r => Forall_cons _ (expr_ind' x) (fl r)
                end in
    match e with
    | EInt z => HInt z
    | EBool b => HBool b
    | EVar x => HVar x
    | ENary o l => HNary o l (fl l)
    | EBin o a b => HBin o a b (expr_ind' a) (expr_ind' b)
    | ENot a => HNot a (expr_ind' a)
    | EIf c t e => HIf c t e (expr_ind' c) (expr_ind' t) (expr_ind' e)
    | ECall f args kw =>
      HCall f args kw (expr_ind' f) (fl args)
            ((fix fk (k : list (string * expr)) : Forall (fun kv => P (snd kv)) k :=
                match k with
                | [] => Forall_nil _
                | kv :: r => Forall_cons _ (expr_ind' (snd kv)) (fk r)
                end) kw)
    | ESub a i =>
      HSub a i (expr_ind' a) (expr_ind' i)
           (match i as i0 return P i0 -> Forall P (items i0) with
            | ETuple l => fun _ => fl l
            | _ => fun p => Forall_cons _ p (Forall_nil _)
            end (expr_ind' i))
    | ETuple l => HTuple l (fl l)
    end.
End ExprInd.

Lemma print_sub sp q a i :
  print sp q (ESub a i)
  = paren_if (PR_CALL <? q)
      (print sp PR_CALL a ++ [TLBrk] ++ join (TComma :: sp) (map (print sp PR_NONE) (items i)) ++ [TRBrk]).
Proof. destruct i; reflexivity. Qed.

Definition operand_toks (sp : list token) (o : nop) (c : expr) : list token :=
  match o with
  | NProd => paren_if (is_qfr c) (print sp PR_PRODUCT c)
  | _ => print sp (nary_prec o) c
  end.

Lemma print_nary sp o l q :
  print sp q (ENary o l) = paren_if (nary_prec o <? q) (join (nary_sep sp o) (map (operand_toks sp o) l)).
Proof. reflexivity. Qed.

Lemma vars_sub a i : vars (ESub a i) = vars a ++ List.concat (map vars (items i)).
Proof. destruct i; cbn [vars items map List.concat]; rewrite ?app_nil_r; reflexivity. Qed.

Lemma eval_sub rho Ffun Fsub Fquot Fnegpow a i :
  eval rho Ffun Fsub Fquot Fnegpow (ESub a i)
  = match eval rho Ffun Fsub Fquot Fnegpow a, sequence (map (eval rho Ffun Fsub Fquot Fnegpow) (items i)) with
    | Some x, Some is_ => Fsub x is_
    | _, _ => None
    end.
Proof.
  destruct i; try reflexivity; cbn [eval items map sequence];
    match goal with |- context [option_map _ ?v] => destruct v end; reflexivity.
Qed.

Lemma norm_sub a i : norm (ESub a i) = ESub (norm a) (norm i).
Proof. destruct i; reflexivity. Qed.

Lemma wf_expr_sub a i :
  wf_expr (ESub a i)
  = wf_expr a && negb (is_tuple a)
    && ((negb (is_tuple i) || (2 <=? List.length (items i)))
        && forallb (fun c => wf_expr c && negb (is_tuple c)) (items i)).
Proof. destruct i; cbn [wf_expr items is_tuple negb orb andb forallb]; rewrite ?andb_true_r; reflexivity. Qed.

Lemma no_defect_sub a i :
  no_defect (ESub a i)
  = no_defect a && (forallb no_defect (items i) && all_but_last (fun c => negb (is_if c)) (items i)).
Proof. destruct i; cbn [no_defect items forallb all_but_last]; rewrite ?andb_true_r; reflexivity. Qed.

Lemma wf_names_sub a i : wf_names (ESub a i) = wf_names a && forallb wf_names (items i).
Proof. destruct i; cbn [wf_names items forallb]; rewrite ?andb_true_r; reflexivity. Qed.

Lemma items_shape i :
  negb (is_tuple i) || (2 <=? List.length (items i)) = true ->
  exists i1 l, items i = i1 :: l /\ i = match l with [] => i1 | _ => ETuple (i1 :: l) end.
Proof.
  destruct i; try (intros _; eexists _, _; split; reflexivity).
  destruct l as [|i1 [|i2 l]]; try discriminate. intros _. eexists _, _; split; reflexivity.
Qed.

Lemma unbt_items d i : map (unbt d) (items i) = items i -> unbt d i = i.
Proof. destruct i; cbn [items map unbt]; congruence. Qed.

Lemma split_gt_spec r t u : split_gt r = Some (t, u) -> r = (t ++ String ">" u)%string.
Proof.
  revert t u. induction r as [|c r IH]; intros t u H; cbn in H; [discriminate|].
  destruct (Ascii.eqb c ">") eqn:E.
  - apply Ascii.eqb_eq in E. subst c. injection H as <- <-. reflexivity.
  - destruct (split_gt r) as [[t' u']|]; [|discriminate]. injection H as <- <-.
    cbn. f_equal. apply IH. reflexivity.
Qed.

Lemma var_toks_cases x :
  var_toks x = [TId x]
  \/ exists t u, x = ("<" ++ t ++ ">" ++ u)%string
                 /\ var_toks x = TCmp CLt :: TId t :: TCmp CGt :: (match u with EmptyString => [] | _ => [TId u] end).
Proof.
  destruct x as [|c r]; [left; reflexivity|]. unfold var_toks.
  destruct (Ascii.eqb c "<") eqn:E; [|left; reflexivity].
  apply Ascii.eqb_eq in E. subst c.
  destruct (split_gt r) as [[t u]|] eqn:S; [|left; reflexivity].
  right. exists t, u. split; [|reflexivity].
  apply split_gt_spec in S. subst r. reflexivity.
Qed.
