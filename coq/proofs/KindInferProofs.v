(* The mapper of the kind-inference model (coq/model/KindInfer.v: infer, eval_work) is monotone:
   under a table with smaller entries an expression gets a smaller kind or none at all
   (infer_mono, eval_work_mono); and what it returns for a well-formed statement is a proper
   kind (infer_some, eval_work_some). *)
From Coq Require Import List String Bool.
Import ListNotations.
From Dagrt Require Import Unify UnifyProofs KindOrder KindInfer KindRegistryProofs.

Section ExprInd.
  Variable P : expr -> Prop.
  Hypothesis Hc : forall r, P (EConst r).
  Hypothesis Hv : forall x, P (EVar x).
  Hypothesis Hs : forall l, Forall P l -> P (ESum l).
  Hypothesis Hp : forall l, Forall P l -> P (EProd l).
  Hypothesis Hq : forall n d, P n -> P d -> P (EQuot n d).
  Hypothesis Hm : forall a b, P a -> P b -> P (ECmp a b).
  Hypothesis Hcall : forall f args kwn, Forall P args -> P (ECall f args kwn).

  Definition all_children (ind : forall e, P e) : forall l, Forall P l :=
    fix go l := match l with
                | [] => Forall_nil P
                | x :: r => Forall_cons x (ind x) (go r)
                end.

  Fixpoint expr_ind' (e : expr) : P e :=
    match e with
    | EConst r => Hc r
    | EVar x => Hv x
    | ESum l => Hs l (all_children expr_ind' l)
    | EProd l => Hp l (all_children expr_ind' l)
    | EQuot n d => Hq n d (expr_ind' n) (expr_ind' d)
    | ECmp a b => Hm a b (expr_ind' a) (expr_ind' b)
    | ECall f args kwn => Hcall f args kwn (all_children expr_ind' args)
    end.
End ExprInd.

(* no empty product (its kind would be None); pymbolic.flatten never produces one *)
Fixpoint expr_ok (e : expr) : bool :=
  match e with
  | EConst _ | EVar _ => true
  | ESum l => forallb expr_ok l
  | EProd l => negb (match l with [] => true | _ => false end) && forallb expr_ok l
  | EQuot n d => expr_ok n && expr_ok d
  | ECmp _ _ => true
  | ECall _ _ _ => true      (* a call returns proper kinds whatever its arguments are *)
  end.

Definition stmt_ok (s : bstmt) : bool :=
  match b_rhs s with
  | RExpr flat _ => expr_ok flat
  | RCall _ _ _ => true
  end.

(* small-run result r against big-run result r' *)
Definition rrel (r r' : ires) : Prop :=
  match r' with
  | IOk k' => r = IUnable \/ exists k, r = IOk k /\ kle k k'
  | IUnable => r = IUnable
  | IErr _ => True
  end.

Lemma rrel_unable : forall X, rrel IUnable X.
Proof. intros [k| |e]; cbn; auto. Qed.

(* the same for the results of map_generic_call(single_return_only=False) *)
Definition mrel (m m' : mres) : Prop :=
  match m' with
  | MOk ks' => m = MUnable \/ exists ks, m = MOk ks /\ Forall2 kle ks ks'
  | MUnable => m = MUnable
  | MErr _ => True
  end.

Lemma lift1_rel : forall r r', rrel r r' -> mrel (lift1 r) (lift1 r').
Proof.
  intros r [k'| |e'] H; cbn in *; [|subst r; reflexivity|exact I].
  destruct H as [->|[k [-> Hk]]]; [left; reflexivity|].
  right. eexists; split; [reflexivity|]. constructor; [assumption|constructor].
Qed.

Lemma single_rel : forall m m', mrel m m' -> rrel (single m) (single m').
Proof.
  intros m [ks'| |e'] H; cbn in H.
  - destruct ks' as [|k' [|k2' r']]; cbn; try exact I.
    destruct H as [->|[ks [-> Hk]]]; [left; reflexivity|].
    inversion Hk as [|k ? l ? Hkk Hl]; subst. inversion Hl; subst.
    right. eexists; split; [reflexivity|assumption].
  - subst m. reflexivity.
  - exact I.
Qed.

Lemma arg_kinds_rel : forall rs rs', Forall2 rrel rs rs' ->
  match arg_kinds rs' with
  | Err _ => True
  | Ok aks' => exists aks, arg_kinds rs = Ok aks /\ Forall2 wle aks aks'
  end.
Proof.
  induction 1 as [|r r' rs rs' Hr Hrs IH]; cbn.
  - exists []. split; [reflexivity|constructor].
  - destruct r' as [k'| |e']; cbn in Hr; [| |exact I].
    + destruct (arg_kinds rs') as [aks'|e]; [|exact I].
      destruct IH as [aks [E Hw]].
      destruct Hr as [->|[k [-> Hk]]]; cbn; rewrite E; eexists; (split; [reflexivity|]); constructor;
        try assumption; [left; reflexivity|right; assumption].
    + subst r. destruct (arg_kinds rs') as [aks'|e]; [|exact I].
      destruct IH as [aks [E Hw]]. cbn. rewrite E. eexists; split; [reflexivity|].
      constructor; [left; reflexivity|assumption].
Qed.

Lemma Forall2_map : forall {A B C} (R : B -> C -> Prop) (f : A -> B) (g : A -> C) l,
  Forall (fun x => R (f x) (g x)) l -> Forall2 R (map f l) (map g l).
Proof. induction 1; cbn; constructor; assumption. Qed.

Lemma map_some_nonone : forall ks : list kind, Forall (fun k : okind => k <> None) (map (@Some kind) ks).
Proof. induction ks; cbn; constructor; [discriminate|assumption]. Qed.

Lemma call_res_some : forall c f rs kwn ks, call_res c f rs kwn = MOk ks -> Forall (fun k => k <> None) ks.
Proof.
  intros c f rs kwn ks. unfold call_res.
  destruct (rlookup (c_reg c) f); [|discriminate].
  destruct (arg_kinds rs); [|discriminate].
  destruct (call_kinds (c_arr_only c) f0 a kwn); [|discriminate].
  intros [= <-]. apply map_some_nonone.
Qed.

Section RepairedUnify.
  Variable c : cfg.
  Hypothesis Hut : c_ut_int c = true.
  Hypothesis Harr : c_arr_int c = true.

  Lemma infer_ext : forall lk lk' e, (forall x, lk x = lk' x) -> infer c lk e = infer c lk' e.
  Proof.
    intros lk lk' e H.
    induction e as [r|x|l IH|l IH|n d IHn IHd|a b _ _|f args kwn IH] using expr_ind'; cbn; try reflexivity.
    - rewrite H; reflexivity.
    - rewrite (map_ext_Forall _ _ IH); reflexivity.
    - rewrite (map_ext_Forall _ _ IH); reflexivity.
    - rewrite IHn, IHd; reflexivity.
    - rewrite (map_ext_Forall _ _ IH); reflexivity.
  Qed.

  Lemma eval_ext : forall lk lk' s, (forall x, lk x = lk' x) ->
    eval_work c lk s = eval_work c lk' s /\ eval_check c lk s = eval_check c lk' s.
  Proof.
    intros lk lk' s H. unfold eval_work, eval_check. destruct (b_rhs s) as [flat raw|f args kwn].
    - rewrite (infer_ext lk lk' flat H), (infer_ext lk lk' raw H). split; reflexivity.
    - rewrite (map_ext _ _ (fun e => infer_ext lk lk' e H)). split; reflexivity.
  Qed.

  Lemma eval_work_ext : forall lk lk' s, (forall x, lk x = lk' x) -> eval_work c lk s = eval_work c lk' s.
  Proof. intros lk lk' s H. exact (proj1 (eval_ext lk lk' s H)). Qed.

  Lemma eval_check_ext : forall lk lk' s, (forall x, lk x = lk' x) -> eval_check c lk s = eval_check c lk' s.
  Proof. intros lk lk' s H. exact (proj2 (eval_ext lk lk' s H)). Qed.

  (* exc records that a child was skipped; a child the big run skips, the small run skips too.
     While the small run has skipped none, its accumulator is below the big one in the strong
     order (None only below None): at the end of the list this excludes a small run that raises
     TypeError (nothing inferred, nothing skipped) where the big run returns a kind. *)
  Lemma sum_fold_mono : forall rs rs', Forall2 rrel rs rs' ->
    forall acc exc acc' exc',
      wle acc acc' -> (exc = false -> kle acc acc') -> (exc' = true -> exc = true) ->
      rrel (sum_fold c rs acc exc) (sum_fold c rs' acc' exc').
  Proof.
    induction 1 as [|r r' rs rs' Hr Hrs IH]; intros acc exc acc' exc' Hw Hs Hx; cbn.
    - destruct acc' as [ka'|].
      + cbn. destruct acc as [ka|].
        * right. eexists; split; [reflexivity|]. apply wle_kle; [assumption|discriminate].
        * destruct exc; [left; reflexivity|].
          specialize (Hs eq_refl). apply kle_none_l in Hs. discriminate.
      + apply wle_none_r in Hw. subst acc.
        destruct exc'; cbn; [|exact I]. rewrite (Hx eq_refl). reflexivity.
    - destruct r' as [k'| |e']; cbn in Hr.
      + rewrite (U_UU c Hut Harr acc' k'). destruct (UU acc' k') as [c'|e'] eqn:E'; [|exact I].
        destruct Hr as [->|[k [-> Hk]]].
        * apply IH; [eapply UU_skip_w; eassumption|discriminate|reflexivity].
        * rewrite (U_UU c Hut Harr acc k).
          destruct (UU_mono_w _ _ _ _ _ Hw Hk E') as [c2 [E2 Hw2]]. rewrite E2.
          apply IH; [assumption| |assumption].
          intro Hf. destruct (UU_mono _ _ _ _ _ (Hs Hf) Hk E') as [c3 [E3 Hk3]].
          rewrite E2 in E3. injection E3 as <-. assumption.
      + subst r. apply IH; [assumption|discriminate|reflexivity].
      + exact I.
  Qed.

  Lemma prod_fold_mono : forall rs rs', Forall2 rrel rs rs' ->
    forall acc acc', kle acc acc' -> rrel (prod_fold c rs acc) (prod_fold c rs' acc').
  Proof.
    induction 1 as [|r r' rs rs' Hr Hrs IH]; intros acc acc' Hk; cbn.
    - right. eexists; split; [reflexivity|assumption].
    - destruct r' as [k'| |e']; cbn in Hr.
      + rewrite (U_UU c Hut Harr acc' k'). destruct (UU acc' k') as [c'|e'] eqn:E'; [|exact I].
        destruct Hr as [->|[k [-> Hkk]]]; [apply rrel_unable|].
        rewrite (U_UU c Hut Harr acc k).
        destruct (UU_mono _ _ _ _ _ Hk Hkk E') as [c2 [E2 Hk2]]. rewrite E2.
        apply IH; assumption.
      + subst r. reflexivity.
      + exact I.
  Qed.

  (* the registry is monotone in the shape in which the matrix built-ins insist on arrays *)
  Hypothesis Hao : c_arr_only c = true.

  Lemma call_res_mono : forall f rs rs' kwn, Forall2 rrel rs rs' ->
    mrel (call_res c f rs kwn) (call_res c f rs' kwn).
  Proof.
    intros f rs rs' kwn H. unfold call_res.
    destruct (rlookup (c_reg c) f) as [sg|]; [|exact I].
    pose proof (arg_kinds_rel rs rs' H) as Ha.
    destruct (arg_kinds rs') as [aks'|e]; [|exact I].
    destruct Ha as [aks [-> Hw]]. rewrite Hao.
    pose proof (call_kinds_mono sg aks aks' kwn Hw) as Hk.
    destruct (call_kinds true sg aks' kwn) as [ks'|]; cbn in Hk.
    - destruct Hk as [->|[ks [-> Hks]]]; [left; reflexivity|].
      right. eexists; split; [reflexivity|assumption].
    - rewrite Hk. reflexivity.
  Qed.

  Lemma infer_mono : forall lk lk' e, lk_le lk lk' -> rrel (infer c lk e) (infer c lk' e).
  Proof.
    intros lk lk' e Hle. induction e as [r|x|l IH|l IH|n d IHn IHd|a b _ _|f args kwn IH] using expr_ind'; cbn [infer].
    - right. eexists; split; [reflexivity|apply kle_refl].
    - destruct (lk' x) as [k'|] eqn:E'; cbn.
      + destruct (lk x) as [k|] eqn:E; [|left; reflexivity].
        right. destruct (Hle _ _ E) as [k2 [E2 Hk]]. rewrite E' in E2. injection E2 as <-.
        eexists; split; [reflexivity|assumption].
      + destruct (lk x) as [k|] eqn:E; [|reflexivity].
        destruct (Hle _ _ E) as [k2 [E2 _]]. congruence.
    - apply sum_fold_mono.
      + apply Forall2_map, IH.
      + left; reflexivity.
      + intros _; apply kle_refl.
      + discriminate.
    - apply prod_fold_mono; [apply Forall2_map, IH|apply kle_refl].
    - apply prod_fold_mono; [|apply kle_refl].
      constructor; [exact IHn|]. constructor; [exact IHd|constructor].
    - right. eexists; split; [reflexivity|apply kle_refl].
    - apply single_rel, call_res_mono, Forall2_map, IH.
  Qed.

  Lemma eval_work_mono : forall lk lk' s, lk_le lk lk' -> mrel (eval_work c lk s) (eval_work c lk' s).
  Proof.
    intros lk lk' s H. unfold eval_work. destruct (b_rhs s) as [flat raw|f args kwn].
    - apply lift1_rel. apply infer_mono; assumption.
    - apply call_res_mono, Forall2_map, Forall_forall. intros e _. apply infer_mono; assumption.
  Qed.

  Lemma sum_fold_some : forall rs acc exc k, sum_fold c rs acc exc = IOk k -> k <> None.
  Proof.
    induction rs as [|r rs IH]; intros acc exc k; cbn.
    - destruct acc; [|destruct exc; discriminate]. intros [= <-]; discriminate.
    - destruct r as [k1| |e]; [|apply IH|discriminate].
      destruct (U c acc k1); [apply IH|discriminate].
  Qed.

  Lemma prod_fold_some : forall rs acc k,
    (forall k1, In (IOk k1) rs -> k1 <> None) ->
    prod_fold c rs acc = IOk k -> (acc <> None \/ rs <> []) -> k <> None.
  Proof.
    induction rs as [|r rs IH]; intros acc k Hin; cbn.
    - intros [= <-] [H|H]; [assumption|contradiction].
    - destruct r as [k1| |e]; try discriminate.
      rewrite (U_UU c Hut Harr). destruct (UU acc k1) as [c2|] eqn:E; [|discriminate].
      intros H _. eapply IH; [|exact H|left].
      + intros k2 H2. apply Hin. right; assumption.
      + eapply UU_some_r; [exact E|]. apply Hin. left; reflexivity.
  Qed.

  Lemma infer_some : forall lk e k, lk_nonone lk -> expr_ok e = true -> infer c lk e = IOk k -> k <> None.
  Proof.
    intros lk e. induction e as [r|x|l IH|l IH|n d IHn IHd|a b _ _|f args kwn IH] using expr_ind';
      intros k Hlk Hok; cbn [infer].
    - intros [= <-]; discriminate.
    - destruct (lk x) as [k0|] eqn:E; [|discriminate]. intros [= <-]. eapply Hlk; eassumption.
    - apply sum_fold_some.
    - cbn in Hok. apply andb_true_iff in Hok. destruct Hok as [Hne Hok].
      intro Hp. eapply prod_fold_some; [|exact Hp|].
      + intros k1 Hin. apply in_map_iff in Hin. destruct Hin as [x [Hx Hin]].
        rewrite Forall_forall in IH. eapply IH; [exact Hin|assumption| |exact Hx].
        rewrite forallb_forall in Hok. apply Hok; assumption.
      + right. destruct l; [discriminate|cbn; discriminate].
    - cbn in Hok. apply andb_true_iff in Hok. destruct Hok as [Hok1 Hok2].
      intro Hp. eapply prod_fold_some; [|exact Hp|right; discriminate].
      intros k1 [Hin|[Hin|[]]].
      + eapply IHn; eassumption.
      + eapply IHd; eassumption.
    - intros [= <-]; discriminate.
    - intro Hs. unfold single in Hs.
      destruct (call_res c f (map (infer c lk) args) kwn) as [ks| |e] eqn:E; try discriminate.
      destruct ks as [|k1 [|? ?]]; try discriminate. injection Hs as <-.
      apply call_res_some in E. inversion E; assumption.
  Qed.

  Lemma eval_work_some : forall lk s ks, lk_nonone lk -> stmt_ok s = true ->
    eval_work c lk s = MOk ks -> Forall (fun k => k <> None) ks.
  Proof.
    intros lk s ks Hlk. unfold eval_work, stmt_ok. destruct (b_rhs s) as [flat raw|f args kwn].
    - intros Hok. destruct (infer c lk flat) as [k| |e] eqn:E; cbn; try discriminate.
      intros [= <-]. constructor; [|constructor]. eapply infer_some; eassumption.
    - intros _. apply call_res_some.
  Qed.

End RepairedUnify.
