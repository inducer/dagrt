(* dagrt/utils.py resolve_args is parametric in what the arguments are.  coq/model/Kinds.v and
   coq/model/KindInfer.v spell the same polymorphic functions ([resolve], [split_args], [alookup], [aremove]), so
   the statements below, about the copies of Kinds.v, are statements about those of KindInfer.v by conversion. *)
From Coq Require Import List String Bool.
Import ListNotations.
Open Scope string_scope.
Open Scope list_scope.
From Dagrt Require Import ListFacts Kinds.

Definition kw_rel {A B} (R : A -> B -> Prop) (p : string * A) (q : string * B) : Prop :=
  fst p = fst q /\ R (snd p) (snd q).

Lemma Forall2_combine : forall {A B} (R : A -> B -> Prop) (names : list string) l l',
  Forall2 R l l' -> Forall2 (kw_rel R) (combine names l) (combine names l').
Proof.
  induction names as [|n names IH]; intros l l' H; simpl; [constructor|].
  destruct H; constructor; [split; auto | auto].
Qed.

Lemma alookup_rel : forall {A B} (R : A -> B -> Prop) kw kw' n,
  Forall2 (kw_rel R) kw kw' ->
  match alookup kw n, alookup kw' n with
  | Some v, Some v' => R v v'
  | None, None => True
  | _, _ => False
  end.
Proof.
  intros A B R kw kw' n H. induction H as [|[a v] [b w] kw kw' [Hab Hvw] H IH]; simpl; [exact I|].
  simpl in Hab, Hvw. subst b. destruct (String.eqb a n); assumption.
Qed.

Lemma aremove_rel : forall {A B} (R : A -> B -> Prop) kw kw' n,
  Forall2 (kw_rel R) kw kw' -> Forall2 (kw_rel R) (aremove kw n) (aremove kw' n).
Proof.
  intros A B R kw kw' n H. induction H as [|[a v] [b w] kw kw' [Hab Hvw] H IH]; simpl; [constructor|].
  simpl in Hab, Hvw. subst b. destruct (String.eqb a n); [assumption|].
  constructor; [split; auto | assumption].
Qed.

Lemma resolve_rel : forall {A B} (R : A -> B -> Prop) names pos pos' kw kw',
  Forall2 R pos pos' -> Forall2 (kw_rel R) kw kw' ->
  match resolve names pos kw, resolve names pos' kw' with
  | Some a, Some a' => Forall2 R a a'
  | None, None => True
  | _, _ => False
  end.
Proof.
  intros A B R names. induction names as [|n names IH]; intros pos pos' kw kw' Hp Hk; simpl.
  - destruct Hp; [|exact I]. destruct Hk; [constructor | exact I].
  - destruct Hp as [|p p' pos pos' Hpp Hp].
    + pose proof (alookup_rel R kw kw' n Hk) as Hl.
      destruct (alookup kw n) as [v|], (alookup kw' n) as [v'|]; try contradiction; try exact I.
      specialize (IH [] [] (aremove kw n) (aremove kw' n) (Forall2_nil R) (aremove_rel R kw kw' n Hk)).
      destruct (resolve names [] (aremove kw n)), (resolve names [] (aremove kw' n)); try contradiction; try exact I.
      constructor; assumption.
    + pose proof (alookup_rel R kw kw' n Hk) as Hl.
      destruct (alookup kw n) as [v|], (alookup kw' n) as [v'|]; try contradiction; try exact I.
      specialize (IH pos pos' kw kw' Hp Hk).
      destruct (resolve names pos kw), (resolve names pos' kw'); try contradiction; try exact I.
      constructor; assumption.
Qed.

Lemma split_args_rel : forall {A B} (R : A -> B -> Prop) vals vals' kwn,
  Forall2 R vals vals' ->
  Forall2 R (fst (split_args vals kwn)) (fst (split_args vals' kwn)) /\
  Forall2 (kw_rel R) (snd (split_args vals kwn)) (snd (split_args vals' kwn)).
Proof.
  intros A B R vals vals' kwn H. unfold split_args. simpl.
  rewrite <- (Forall2_length R vals vals' H). split.
  - apply Forall2_firstn. assumption.
  - apply Forall2_combine. apply Forall2_skipn. assumption.
Qed.

Lemma resolve_split_rel : forall {A B} (R : A -> B -> Prop) names vals vals' kwn,
  Forall2 R vals vals' ->
  match resolve names (fst (split_args vals kwn)) (snd (split_args vals kwn)),
        resolve names (fst (split_args vals' kwn)) (snd (split_args vals' kwn)) with
  | Some a, Some a' => Forall2 R a a'
  | None, None => True
  | _, _ => False
  end.
Proof.
  intros A B R names vals vals' kwn H. destruct (split_args_rel R vals vals' kwn H) as [Hp Hkw].
  exact (resolve_rel R names _ _ _ _ Hp Hkw).
Qed.
