(* C09: SymbolKindTable.set (coq/model/Kinds.v): [tbl_set] on one dict, then [tset] on the table with its
   global and per-phase dicts. *)
From Coq Require Import List String Bool Arith Lia.
Import ListNotations.
Open Scope string_scope.
Open Scope list_scope.
From Dagrt Require Import Kinds KindsClassProofs.

Lemma kind_eqb_eq : forall a b, kind_eqb a b = true <-> a = b.
Proof.
  intros a b. split.
  - destruct a, b; simpl; intros H; try discriminate; try reflexivity.
    + apply Bool.eqb_prop in H. subst. reflexivity.
    + apply Bool.eqb_prop in H. subst. reflexivity.
    + apply String.eqb_eq in H. subst. reflexivity.
  - intros ->. destruct b; simpl; try reflexivity; try apply Bool.eqb_reflx. apply String.eqb_refl.
Qed.

Lemma okind_eqb_eq : forall a b, okind_eqb a b = true <-> a = b.
Proof.
  intros [a|] [b|]; simpl; split; intros H; try discriminate; try reflexivity.
  - apply kind_eqb_eq in H. subst. reflexivity.
  - inversion H; subst. apply kind_eqb_eq. reflexivity.
Qed.

Lemma alookup_app_last : forall {A} (t : list (string * A)) x k y,
  alookup (t ++ [(x, k)]) y =
  match alookup t y with Some v => Some v | None => if String.eqb x y then Some k else None end.
Proof.
  induction t as [|[n v] t IH]; intros x k y; simpl; [reflexivity|].
  destruct (String.eqb n y); [reflexivity | apply IH].
Qed.

Lemma alookup_tupdate : forall t x k y,
  alookup (tupdate t x k) y =
  if String.eqb x y then match alookup t y with Some _ => Some k | None => None end else alookup t y.
Proof.
  induction t as [|[n v] t IH]; intros x k y; simpl.
  - destruct (String.eqb x y); reflexivity.
  - destruct (String.eqb n x) eqn:E; simpl.
    + apply String.eqb_eq in E. subst n. destruct (String.eqb x y); reflexivity.
    + rewrite IH. destruct (String.eqb n y) eqn:E2; [|reflexivity].
      apply String.eqb_eq in E2. subst n. rewrite String.eqb_sym in E. rewrite E. reflexivity.
Qed.

Lemma alookup_pupdate : forall p ph t q,
  alookup (pupdate p ph t) q = if String.eqb ph q then Some t else alookup p q.
Proof.
  induction p as [|[n v] p IH]; intros ph t q; simpl.
  - destruct (String.eqb ph q); reflexivity.
  - destruct (String.eqb n ph) eqn:E; simpl.
    + apply String.eqb_eq in E. subst n. destruct (String.eqb ph q); reflexivity.
    + rewrite IH. destruct (String.eqb n q) eqn:E2; [|reflexivity].
      apply String.eqb_eq in E2. subst n. rewrite String.eqb_sym in E. rewrite E. reflexivity.
Qed.

Lemma pupdate_same : forall p ph t, alookup p ph = Some t -> pupdate p ph t = p.
Proof.
  induction p as [|[n v] p IH]; intros ph t H; simpl in *; [discriminate|].
  destruct (String.eqb n ph) eqn:E.
  - inversion H; subst. reflexivity.
  - rewrite IH; auto.
Qed.

Lemma local_of_pupdate : forall T ph t p g ch cf ex,
  local_of (mkSkt g (pupdate (sp T) ph t) ch cf ex) p = if String.eqb ph p then t else local_of T p.
Proof.
  intros. unfold local_of. simpl. rewrite alookup_pupdate. destruct (String.eqb ph p); reflexivity.
Qed.

(* a phase in whose dict a name is found has a dict: writing that dict back changes nothing *)
Lemma pupdate_local_of : forall T ph x (old : okind),
  alookup (local_of T ph) x = Some old -> pupdate (sp T) ph (local_of T ph) = sp T.
Proof.
  intros T ph x old H. apply pupdate_same. unfold local_of in *.
  destruct (alookup (sp T) ph); [reflexivity | discriminate H].
Qed.

Definition tbl_all_some (t : tbl) : Prop := forall y ko, alookup t y = Some ko -> ko <> None.

Lemma nil_all_some : tbl_all_some [].
Proof. intros y ko H. discriminate. Qed.

Lemma unify_some : forall a b ko, a <> None -> b <> None -> unify a b = Ok ko -> ko <> None.
Proof.
  intros [a|] [b|] ko Ha Hb H; try congruence.
  destruct (unify_nonbool _ _ _ H) as [k [-> _]]. discriminate.
Qed.

Lemma tbl_set_cases : forall nm t x k,
  (alookup t x = None /\ tbl_set nm t x k = (t ++ [(x, k)], nm, None)) \/
  (exists old, alookup t x = Some old /\
     ((tbl_set nm t x k = (t, false, None) /\ (old = k \/ unify k old = Ok old)) \/
      (exists e, tbl_set nm t x k = (t, false, Some e) /\ unify k old = Err e) \/
      (exists k', tbl_set nm t x k = (tupdate t x k', true, None) /\ unify k old = Ok k' /\ k' <> old))).
Proof.
  intros nm t x k. unfold tbl_set. destruct (alookup t x) as [old|] eqn:E; [right|left; auto].
  exists old. split; [reflexivity|].
  destruct (okind_eqb old k) eqn:E1; [apply okind_eqb_eq in E1; left; auto|].
  destruct (unify k old) as [k'|e] eqn:Hu; [|right; left; exists e; split; reflexivity].
  destruct (okind_eqb old k') eqn:E2; [apply okind_eqb_eq in E2; subst k'; left; auto|].
  right. right. exists k'. repeat split; auto. intros ->.
  assert (okind_eqb old old = true) by (apply okind_eqb_eq; reflexivity). congruence.
Qed.

Lemma tbl_set_lookup : forall nm t x k t' ch cf,
  tbl_set nm t x k = (t', ch, cf) ->
  exists v, (v = k \/ exists old, alookup t x = Some old /\ (v = old \/ unify k old = Ok v)) /\
            forall y, alookup t' y = if String.eqb x y then Some v else alookup t y.
Proof.
  intros nm t x k t' ch cf H.
  destruct (tbl_set_cases nm t x k) as [[E R]|[old [E [[R _]|[[e [R _]]|[k' [R [Hu _]]]]]]]];
    rewrite R in H; injection H as <- _ _.
  - exists k. split; [auto|]. intros y. rewrite alookup_app_last.
    destruct (String.eqb_spec x y); [subst y; rewrite E; reflexivity | destruct (alookup t y); reflexivity].
  - exists old. split; [eauto|]. intros y. destruct (String.eqb_spec x y); [subst y; exact E | reflexivity].
  - exists old. split; [eauto|]. intros y. destruct (String.eqb_spec x y); [subst y; exact E | reflexivity].
  - exists k'. split; [eauto|]. intros y. rewrite alookup_tupdate.
    destruct (String.eqb_spec x y); [subst y; rewrite E|]; reflexivity.
Qed.

(* needs nm = true: otherwise a new entry leaves the change flag down as well *)
Lemma tbl_set_unchanged : forall t x k t' cf,
  tbl_set true t x k = (t', false, cf) ->
  t' = t /\ exists old, alookup t x = Some old /\ (cf = None -> old = k \/ unify k old = Ok old).
Proof.
  intros t x k t' cf H.
  destruct (tbl_set_cases true t x k) as [[_ R]|[old [E [[R Hm]|[[e [R _]]|[k' [R _]]]]]]];
    rewrite R in H; try discriminate H; injection H as <- <-; split; try reflexivity; exists old; split; auto.
  discriminate.
Qed.

Definition tbl_of (C : cfg) (T : skt) (ph x : string) : tbl :=
  if is_state C x then sg T else local_of T ph.

Definition twf (C : cfg) (T : skt) : Prop :=
  (forall y, alookup (sg T) y <> None -> is_state C y = true) /\
  (forall p y, alookup (local_of T p) y <> None -> is_state C y = false).

Definition all_some (T : skt) : Prop :=
  tbl_all_some (sg T) /\ forall p, tbl_all_some (local_of T p).

Definition quiet (T : skt) : Prop := schanged T = false /\ sconf T = 0.

Lemma lookup_none_iff : forall T p y,
  lookup T p y <> None <-> (alookup (sg T) y <> None \/ alookup (local_of T p) y <> None).
Proof.
  intros T p y. unfold lookup. destruct (alookup (sg T) y); split; intros H.
  - left. discriminate.
  - discriminate.
  - right. assumption.
  - destruct H; [contradiction | assumption].
Qed.

Lemma lookup_all_some : forall T ph x, all_some T -> lookup T ph x <> None -> exists k, lookup T ph x = Some (Some k).
Proof.
  intros T ph x [Hg Hl] H. unfold lookup in *. destruct (alookup (sg T) x) as [ko|] eqn:E.
  - destruct ko as [k|]; [eauto | exfalso; eapply Hg; eauto].
  - destruct (alookup (local_of T ph) x) as [ko|] eqn:E2; [|congruence].
    destruct ko as [k|]; [eauto | exfalso; eapply Hl; eauto].
Qed.

Lemma lookup_tbl_of : forall C T ph x, twf C T -> lookup T ph x = alookup (tbl_of C T ph x) x.
Proof.
  intros C T ph x [Hg Hl]. unfold lookup, tbl_of. destruct (is_state C x) eqn:Ex.
  - destruct (alookup (sg T) x) eqn:E; [reflexivity|].
    destruct (alookup (local_of T ph) x) eqn:E2; [|reflexivity].
    assert (is_state C x = false) by (apply (Hl ph); congruence). congruence.
  - destruct (alookup (sg T) x) eqn:E; [|reflexivity].
    assert (is_state C x = true) by (apply Hg; congruence). congruence.
Qed.

Section TSet.
  Variable C : cfg.

  (* the three bookkeeping fields after a `set`, from what [tbl_set] returns for the dict the name lives in *)
  Lemma tset_schanged : forall T ph x k,
    schanged (tset C T ph x k) = schanged T || snd (fst (tbl_set (new_marks C) (tbl_of C T ph x) x k)).
  Proof.
    intros T ph x k. unfold tset, tbl_of.
    destruct (is_state C x); destruct (tbl_set (new_marks C) _ x k) as [[t' ch] cf]; reflexivity.
  Qed.

  Lemma tset_sconf : forall T ph x k,
    sconf (tset C T ph x k) = sconf T + conf_inc (snd (tbl_set (new_marks C) (tbl_of C T ph x) x k)).
  Proof.
    intros T ph x k. unfold tset, tbl_of.
    destruct (is_state C x); destruct (tbl_set (new_marks C) _ x k) as [[t' ch] cf]; reflexivity.
  Qed.

  Lemma tset_sexn : forall T ph x k,
    sexn (tset C T ph x k) = first_exn (sexn T) (snd (tbl_set (new_marks C) (tbl_of C T ph x) x k)).
  Proof.
    intros T ph x k. unfold tset, tbl_of.
    destruct (is_state C x); destruct (tbl_set (new_marks C) _ x k) as [[t' ch] cf]; reflexivity.
  Qed.

  Lemma tset_lookup : forall T ph x k,
    exists v, (v = k \/ exists old, alookup (tbl_of C T ph x) x = Some old /\ (v = old \/ unify k old = Ok v)) /\
      (forall y, alookup (sg (tset C T ph x k)) y =
                 if is_state C x && String.eqb x y then Some v else alookup (sg T) y) /\
      (forall p y, alookup (local_of (tset C T ph x k) p) y =
                   if negb (is_state C x) && String.eqb ph p && String.eqb x y then Some v
                   else alookup (local_of T p) y).
  Proof.
    intros T ph x k. unfold tset, tbl_of. destruct (is_state C x);
      destruct (tbl_set (new_marks C) _ x k) as [[t' ch] cf] eqn:E;
      destruct (tbl_set_lookup _ _ _ _ _ _ _ E) as [v [Hv Hl]]; exists v; (split; [exact Hv|]); simpl.
    - split; [exact Hl | reflexivity].
    - split; [reflexivity|]. intros p y. rewrite local_of_pupdate.
      destruct (String.eqb_spec ph p) as [<-|]; [apply Hl | reflexivity].
  Qed.

  Lemma tset_keeps_keys : forall T ph x k p y, lookup T p y <> None -> lookup (tset C T ph x k) p y <> None.
  Proof.
    intros T ph x k p y H. apply lookup_none_iff in H. apply lookup_none_iff.
    destruct (tset_lookup T ph x k) as [v [_ [Hg Hl]]]. rewrite Hg, Hl.
    destruct H; [left | right]; match goal with |- context [if ?b then _ else _] => destruct b end;
      (discriminate || assumption).
  Qed.

  Lemma tset_key : forall T ph x k, lookup (tset C T ph x k) ph x <> None.
  Proof.
    intros T ph x k. apply lookup_none_iff.
    destruct (tset_lookup T ph x k) as [v [_ [Hg Hl]]]. rewrite Hg, Hl, !String.eqb_refl, !andb_true_r.
    destruct (is_state C x); [left | right]; discriminate.
  Qed.

  Lemma tset_twf : forall T ph x k, twf C T -> twf C (tset C T ph x k).
  Proof.
    intros T ph x k [Hg Hl]. destruct (tset_lookup T ph x k) as [v [_ [Eg El]]]. split.
    - intros y. rewrite Eg. destruct (is_state C x) eqn:Ex; [|apply Hg].
      destruct (String.eqb_spec x y); [subst y; intros _; exact Ex | apply Hg].
    - intros p y. rewrite El. destruct (is_state C x) eqn:Ex; [apply Hl|]. destruct (String.eqb ph p); [|apply Hl].
      destruct (String.eqb_spec x y); [subst y; intros _; exact Ex | apply Hl].
  Qed.

  Lemma tset_all_some : forall T ph x k, all_some T -> k <> None -> all_some (tset C T ph x k).
  Proof.
    intros T ph x k [Hg Hl] Hk. destruct (tset_lookup T ph x k) as [v [Hv [Eg El]]].
    assert (Hvn : v <> None).
    { destruct Hv as [->|[old [Ho Hv]]]; [exact Hk|].
      assert (Hon : old <> None) by (unfold tbl_of in Ho; destruct (is_state C x); [eapply Hg | eapply Hl]; exact Ho).
      destruct Hv as [->|Hu]; [exact Hon | exact (unify_some k old v Hk Hon Hu)]. }
    split; [intros y ko; rewrite Eg | intros p y ko; rewrite El];
      match goal with |- context [if ?b then _ else _] => destruct b end;
      try (intros E; injection E as <-; exact Hvn); [apply Hg | apply Hl].
  Qed.

  Lemma tset_changed_mono : forall T ph x k, schanged T = true -> schanged (tset C T ph x k) = true.
  Proof. intros T ph x k H. rewrite tset_schanged, H. reflexivity. Qed.

  Lemma tset_conf_mono : forall T ph x k, sconf T <= sconf (tset C T ph x k).
  Proof. intros T ph x k. rewrite tset_sconf. lia. Qed.

  Lemma tset_exn_conf : forall T ph x k,
    (sexn T = None <-> sconf T = 0) ->
    (sexn (tset C T ph x k) = None <-> sconf (tset C T ph x k) = 0).
  Proof.
    intros T ph x k H. rewrite tset_sexn, tset_sconf.
    destruct (snd (tbl_set (new_marks C) (tbl_of C T ph x) x k)); simpl.
    - split; [destruct (sexn T); discriminate | lia].
    - rewrite Nat.add_0_r. destruct (sexn T); exact H.
  Qed.

  (* what a `set` writes when the dicts are as they were, the flag stays down and no message is printed *)
  Lemma skt_same : forall T, mkSkt (sg T) (sp T) (schanged T || false) (sconf T + 0) (first_exn (sexn T) None) = T.
  Proof. intros [g p c n [e|]]; simpl; rewrite orb_false_r, Nat.add_0_r; reflexivity. Qed.

  (* A `set` that leaves the change flag down found the name in its dict and kept both dicts; if it printed no
     message either, it returns the table it was given. *)
  Lemma tset_unchanged : forall T ph x k,
    new_marks C = true -> schanged (tset C T ph x k) = false ->
    (sg T = sg (tset C T ph x k) /\ sp T = sp (tset C T ph x k)) /\ schanged T = false /\
    (sconf (tset C T ph x k) = sconf T ->
       tset C T ph x k = T /\
       exists old, alookup (tbl_of C T ph x) x = Some old /\ (old = k \/ unify k old = Ok old)).
  Proof.
    intros T ph x k Hnm. unfold tbl_of, tset. rewrite Hnm.
    destruct (is_state C x); destruct (tbl_set true _ x k) as [[t' ch] cf] eqn:E; simpl;
      intros [Hc ->]%orb_false_elim; destruct (tbl_set_unchanged _ _ _ _ _ E) as [-> [old [Ho Hold]]].
    2: rewrite (pupdate_local_of T ph x old Ho).
    all: split; [split; reflexivity|]; split; [exact Hc|]; intros Hn; (destruct cf; [simpl in Hn; lia|]);
      split; [apply skt_same | eauto].
  Qed.

  Lemma tset_quiet : forall T ph x k,
    new_marks C = true -> quiet (tset C T ph x k) ->
    tset C T ph x k = T /\
    exists old, alookup (tbl_of C T ph x) x = Some old /\ (old = k \/ unify k old = Ok old).
  Proof.
    intros T ph x k Hnm [Hc Hn]. apply (tset_unchanged T ph x k Hnm Hc).
    pose proof (tset_conf_mono T ph x k). lia.
  Qed.
End TSet.
