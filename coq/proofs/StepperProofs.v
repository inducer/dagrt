(* C01 / C11: the stepping loop is independent of the admissible order in which a
   backend executes a phase body; state after an exception. *)
From Coq Require Import List ZArith String Bool Arith Lia Permutation.
Import ListNotations.
From Dagrt Require Import Lang LangProofs BuilderCore Builder Sched SchedProofs LinExt BuilderProofs Stepper.
Close Scope Z_scope.
Local Open Scope nat_scope.
Local Open Scope list_scope.

Definition to_rstate (r : store * list event * body_end) : rstate :=
  match r with
  | (s, e, BDone) => RRun s e
  | (s, e, BFail) => RStop s e StFail
  | (s, e, BSwitch p) => RStop s e (StSwitch p)
  | (s, e, BRaise k) => RStop s e (StRaise k)
  | (s, e, BExn u) => RCrash u e
  end.

Definition pick (l : list stmt) (sched : list nat) : list stmt :=
  flat_map (fun i => match nth_error l i with Some st => [st] | None => [] end) sched.

Section SP.
  Variable F : string -> list val -> list (string * val) -> option (list val).
  Variable g : bool.

  Lemma exec_seq_run_list l : forall s evs,
    to_rstate (exec_seq F g l s evs) = run_list F g l (RRun s evs).
  Proof.
    induction l as [|st l IH]; intros s evs; [reflexivity|].
    cbn [exec_seq]. unfold run_list. cbn [fold_left step].
    change (fold_left (fun S st0 => step F g st0 S) l) with (run_list F g l).
    destruct (snd (exec_stmt F g s st)); cbn [to_rstate];
      rewrite ?run_list_stop, ?run_list_crash; auto.
  Qed.

  Lemma run_ids_pick l sched S :
    (forall i, In i sched -> i < List.length l) ->
    run_ids F g l sched S = run_list F g (pick l sched) S.
  Proof. apply run_ids_select. Qed.

  Lemma run_list_proper l : forall S S', req S S' -> req (run_list F g l S) (run_list F g l S').
  Proof. exact (LinExt.run_proper stmt rstate (step F g) req (step_proper F g) l). Qed.
End SP.

Lemma pick_seq l : pick l (seq 0 (List.length l)) = l.
Proof. apply select_seq. Qed.

Definition is_exn (e : run_end) : bool := match e with EndExn _ => true | _ => false end.
Definition end_rel (a b : run_end) : Prop :=
  match a, b with
  | EndExn _, EndExn _ => True      (* which exception escapes may depend on the schedule *)
  | _, _ => a = b
  end.
Definition run_rel (a b : list sev * store * string * run_end) : Prop :=
  let '(ev, s, nx, e) := a in
  let '(ev', s', nx', e') := b in
  ev = ev' /\ nx = nx' /\ end_rel e e' /\ (is_exn e = false -> forall x, s x = s' x).

Lemma find_phase_In d n p : find_phase d n = Some p -> In p d /\ ph_name p = n.
Proof.
  induction d as [|q r IH]; cbn; [discriminate|].
  destruct (String.eqb_spec (ph_name q) n) as [E|E].
  - intros H. injection H as <-. auto.
  - intros H. destruct (IH H). auto.
Qed.

Lemma to_rstate_req s e b s' e' b' :
  req (to_rstate (s, e, b)) (to_rstate (s', e', b')) ->
  e = e' /\ ((b = b' /\ forall x, s x = s' x) \/ exists u u', b = BExn u /\ b' = BExn u').
Proof.
  destruct b, b'; cbn [to_rstate req]; try contradiction.
  (* left: BDone with BDone, the nine pairs that both are RStop (2-10), BExn with BExn *)
  2-10: intros (Hs & -> & Hw); try discriminate Hw; try injection Hw as ->; auto.
  - intros (Hs & ->). auto.
  - intros ->. eauto 6.
Qed.

Lemma run_rel_prefix ys x a b :
  run_rel a b ->
  run_rel (let '(r, s, n, e) := a in (ys ++ x :: r, s, n, e)) (let '(r, s, n, e) := b in (ys ++ x :: r, s, n, e)).
Proof. destruct a as [[[r s] n] e], b as [[[r' s'] n'] e']. cbn. intros (-> & H). auto. Qed.

Section Run.
  Variable F : string -> list val -> list (string * val) -> option (list val).
  Variable g : bool.
  Variable keep : var -> bool.
  Variable obs : list var.

  (* no per-step name is set: true at set_up and after every step *)
  Definition Pre (s : store) : Prop := forall x, keep x = false -> s x = None.

  Lemma Pre_cleanup s : Pre (cleanup keep s).
  Proof. intros x Hx. unfold cleanup. now rewrite Hx. Qed.

  Variables ord1 ord2 : string -> nat -> list stmt -> list stmt.
  Variable d : list phase.
  Hypothesis Hord : forall p i s, In p d -> Pre s ->
    req (to_rstate (exec_seq F g (ord1 (ph_name p) i (ph_stmts p)) s []))
        (to_rstate (exec_seq F g (ord2 (ph_name p) i (ph_stmts p)) s [])).

  Lemma time_reached_ext s s' te : (forall x, s x = s' x) -> time_reached s te = time_reached s' te.
  Proof. intros H. unfold time_reached. destruct te; [now rewrite H|reflexivity]. Qed.

  Lemma cleanup_ext s s' : (forall x, s x = s' x) -> forall x, cleanup keep s x = cleanup keep s' x.
  Proof. intros H x. unfold cleanup. now rewrite H. Qed.

  Theorem run_order_independent : forall fuel s s' next te mx n a,
    Pre s -> (forall x, s x = s' x) ->
    run_rel (run F g keep obs ord1 fuel d s next te mx n a)
            (run F g keep obs ord2 fuel d s' next te mx n a).
  Proof.
    induction fuel as [|f IH]; intros s s' next te mx n a Hp Hs; cbn [run].
    - cbn. repeat split; auto.
    - rewrite (time_reached_ext s s' te Hs).
      destruct (time_reached s' te) as [[|]|]; try (cbn; repeat split; auto; discriminate).
      destruct (match mx with Some m => Nat.leb m n | None => false end);
        [cbn; repeat split; auto|].
      destruct (find_phase d next) as [p|] eqn:Ef; [|cbn; repeat split; auto; discriminate].
      destruct (find_phase_In _ _ _ Ef) as [Hin Hn]. subst next.
      assert (Hb : req (to_rstate (exec_seq F g (ord1 (ph_name p) a (ph_stmts p)) s []))
                       (to_rstate (exec_seq F g (ord2 (ph_name p) a (ph_stmts p)) s' []))).
      { eapply req_trans; [apply Hord; assumption|].
        rewrite !exec_seq_run_list. apply run_list_proper. cbn. auto. }
      destruct (exec_seq F g (ord1 (ph_name p) a (ph_stmts p)) s []) as [[s1 e1] b1].
      destruct (exec_seq F g (ord2 (ph_name p) a (ph_stmts p)) s' []) as [[s1' e1'] b1'].
      apply to_rstate_req in Hb as (<- & [(<- & Hs1)|(u & u' & -> & ->)]);
        [|cbn; repeat split; auto; discriminate].
      pose proof (cleanup_ext _ _ Hs1) as Hc. destruct b1.
      (* completed, failed, switched: equal events of this step, then a run from equal stores *)
      1-3: rewrite <- !Hc, <- (map_ext _ _ Hc); apply run_rel_prefix, IH; [apply Pre_cleanup|exact Hc].
      all: cbn; repeat split; auto.
  Qed.
End Run.

Section Adm.
  Variable F : string -> list val -> list (string * val) -> option (list val).
  Variable g : bool.
  Variable is_state : var -> bool.
  Variable tok : var.
  Variable keep : var -> bool.

  Definition built (l : list stmt) : Prop :=
    exists p b, build true true is_state tok p = BOk b /\ b_stmts b = l.

  (* what C04 proves of the controller's plan and C05 of the lowered tree *)
  Definition admissible (l l' : list stmt) : Prop :=
    exists sched, Permutation (seq 0 (List.length l)) sched /\ respects l sched /\ l' = pick l sched.

  (* A3 (DESIGN.md 2.2) for a phase *)
  Definition lv_ok (l : list stmt) : Prop :=
    forall a y, In a l -> In y (loopvars (skd a)) ->
      keep y = false /\ forall b, In b l -> ~ In y (writes b).

  Lemma lv_ok_loopvars_ok l s : lv_ok l -> Pre keep s -> loopvars_ok l s.
  Proof. intros Hlv Hpre a y Ha Hy. destruct (Hlv a y Ha Hy) as [Hk Hw]. split; [apply Hpre, Hk|exact Hw]. Qed.

  Theorem body_order_independent l l' s :
    built l -> lv_ok l -> admissible l l' -> Pre keep s ->
    req (to_rstate (exec_seq F g l' s [])) (to_rstate (exec_seq F g l s [])).
  Proof.
    intros (p & b & Hb & <-) Hlv (sched & Hperm & Hresp & ->) Hpre.
    rewrite !exec_seq_run_list.
    rewrite <- (run_ids_pick F g (b_stmts b) sched).
    - apply (all_schedules_run_list F g is_state tok p b s sched Hb); auto using lv_ok_loopvars_ok.
    - intros i Hi. eapply Permutation_in in Hi; [|apply Permutation_sym, Hperm].
      apply in_seq in Hi. lia.
  Qed.

  Theorem run_admissible_independent obs ord1 ord2 d :
    (forall p, In p d -> built (ph_stmts p) /\ lv_ok (ph_stmts p)) ->
    (forall p i, In p d -> admissible (ph_stmts p) (ord1 (ph_name p) i (ph_stmts p))) ->
    (forall p i, In p d -> admissible (ph_stmts p) (ord2 (ph_name p) i (ph_stmts p))) ->
    forall fuel s s' next te mx n a, Pre keep s -> (forall x, s x = s' x) ->
    run_rel (run F g keep obs ord1 fuel d s next te mx n a) (run F g keep obs ord2 fuel d s' next te mx n a).
  Proof.
    intros Hd H1 H2. apply run_order_independent. intros p i s0 Hin Hp. destruct (Hd p Hin) as [Hb Hl].
    apply req_trans with (to_rstate (exec_seq F g (ph_stmts p) s0 [])); [|apply req_sym];
      apply body_order_independent; auto.
  Qed.

  Lemma admissible_refl l : built l -> admissible l l.
  Proof.
    intros (p & b & Hb & <-). exists (seq 0 (List.length (b_stmts b))). split; [apply Permutation_refl|]. split.
    - apply respects_seq. intros i st dd. exact (edges_backward is_state tok p b i st dd Hb).
    - symmetry. apply pick_seq.
  Qed.
End Adm.

Section Exn.
  Variable F : string -> list val -> list (string * val) -> option (list val).
  Variable g : bool.
  Variable keep : var -> bool.

  Lemma exec_seq_unch (l : list stmt) : forall (s : store) evs (s1 : store) evs1 e (x : var),
    exec_seq F g l s evs = (s1, evs1, e) ->
    (forall st, In st l -> ~ WL st x) -> s1 x = s x.
  Proof.
    induction l as [|st l IH]; intros s evs s1 evs1 e x H Hx; cbn [exec_seq] in H.
    - injection H as <- _ _. reflexivity.
    - destruct (exec_stmt F g s st) as [a o] eqn:E. cbn [snd] in H.
      destruct o as [s' ev| | | | |]; try (injection H as <- _ _; reflexivity).
      rewrite (IH _ _ _ _ _ x H) by (intros st0 H0; apply Hx; now right).
      eapply exec_stmt_unch; [exact E|]. apply Hx. now left.
  Qed.

  Lemma exec_seq_exn_prefix l1 st l2 : forall s evs s1 evs1 (u : bool),
    exec_seq F g l1 s evs = (s1, evs1, BDone) ->
    snd (exec_stmt F g s1 st) = (if u then OUserExn else OCrash) ->
    exec_seq F g (l1 ++ st :: l2) s evs = (s1, evs1, BExn u).
  Proof.
    induction l1 as [|a l1 IH]; intros s evs s1 evs1 u H1 H2; cbn [exec_seq app] in *.
    - injection H1 as <- <-. rewrite H2. destruct u; reflexivity.
    - destruct (snd (exec_stmt F g s a)); try discriminate. eapply IH; eassumption.
  Qed.

  (* The failing statement is counted among the writers although the model keeps the store from
     before it: a real loop nest may have completed some iterations. *)
  Theorem exn_state l1 st l2 s s1 evs1 (u : bool) :
    exec_seq F g l1 s [] = (s1, evs1, BDone) ->
    snd (exec_stmt F g s1 st) = (if u then OUserExn else OCrash) ->
    let final := cleanup keep (fst (fst (exec_seq F g (l1 ++ st :: l2) s []))) in
    Pre keep final /\
    (forall x, keep x = true -> (forall a, In a (l1 ++ [st]) -> ~ WL a x) -> final x = s x) /\
    snd (exec_seq F g (l1 ++ st :: l2) s []) = BExn u.
  Proof.
    intros H1 H2. rewrite (exec_seq_exn_prefix l1 st l2 s [] s1 evs1 u H1 H2). cbn [fst snd].
    split; [apply Pre_cleanup|]. split; [|reflexivity].
    (* the store is the one from before st, so only the writers in l1 matter *)
    intros x Hk Hx. unfold cleanup. rewrite Hk. apply (exec_seq_unch l1 s [] s1 evs1 BDone x H1).
    intros a Ha. apply Hx, in_or_app. now left.
  Qed.
End Exn.
