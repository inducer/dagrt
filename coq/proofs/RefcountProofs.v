(* C12 -- whole histories (initialize; any number of calls of run; shutdown): between two calls
   of run the state satisfies K, which gives the three theorems for the repaired shapes; then the
   witness programs that refute them for the unrepaired shapes, and examples. *)
From Coq Require Import List Arith Bool.
Import ListNotations.
From Dagrt Require Import ListFacts Refcount RefcountBase RefcountState RefcountTree.

Lemma nullify_all_spec l st :
  cnt (nullify_all l st) = cnt st /\ nxt (nullify_all l st) = nxt st /\
  frees (nullify_all l st) = frees st /\
  (forall y, vars (nullify_all l st) y = if memv y l then None else vars st y) /\
  (forall y, defd (nullify_all l st) y = if memv y l then false else defd st y).
Proof.
  revert st. induction l as [|x r IH]; intros st.
  - cbn. auto.
  - cbn [nullify_all].
    destruct (IH (ev (set_defd (set_vars st (upd (vars st) x None)) (upd (defd st) x false))
                     [TNullifyVar x])) as (C & N & F & V & D).
    rewrite C, N, F. cbn. repeat split; auto.
    + intros y. rewrite V. cbn. unfold upd. destruct (Nat.eqb y x); cbn; [|reflexivity].
      destruct (memv y r); reflexivity.
    + intros y. rewrite D. cbn. unfold upd. destruct (Nat.eqb y x); cbn; [|reflexivity].
      destruct (memv y r); reflexivity.
Qed.

Lemma deinit_list U l st :
  NoDup U -> (forall x, In x l -> In x U) -> refcount_inv U st ->
  exists st', run_ops (map ODeinit l) st = ONormal st' /\ refcount_inv U st' /\
              (forall x, In x l -> vars st' x = None) /\
              (forall y, ~ In y l -> vars st' y = vars st y) /\
              defd st' = defd st.
Proof.
  intros ND. revert st. induction l as [|x r IH]; intros st Hl I.
  - exists st. cbn. split; [reflexivity|]. split; [assumption|]. split; [intros x []|]. auto.
  - cbn [map run_ops run_op].
    destruct (deinit_spec U x st ND (Hl x (or_introl eq_refl)) I) as (st1 & E & (I1 & Fr & _) & Vx & D & _).
    rewrite E. destruct (IH st1 (fun y Hy => Hl y (or_intror Hy)) I1)
      as (st2 & E2 & I2 & Vl & Fr2 & D2).
    exists st2. split; [assumption|]. split; [assumption|]. repeat split.
    + intros y [<-|Hy]; [|auto]. destruct (in_dec Nat.eq_dec x r); [auto|]. now rewrite Fr2.
    + intros y Hy. rewrite Fr2 by (intros H; apply Hy; now right).
      apply Fr. intros ->. apply Hy. now left.
    + congruence.
Qed.

Lemma find_func_in l q f : find_func l q = Some f -> In f l.
Proof.
  induction l as [|g r IH]; cbn; [discriminate|].
  destruct (Nat.eqb (f_id g) q); [intros [= <-]; now left | right; auto].
Qed.

Lemma NoDup_app_l {A} (a b : list A) : NoDup (a ++ b) -> NoDup a.
Proof. apply ListFacts.NoDup_app_l. Qed.

Section Prog.
  Variable p : prog.
  Hypothesis WFp : prog_wf p = true.
  Let U := universe p.
  Let G := globals p.
  Variable swc : bool.          (* sw_stmt_cond: either shape of lower_inst *)
  Let m := emit_mem true true swc p.

  Lemma wf_parts :
    NoDup U /\ (forall x, In x (initable p) -> In x G) /\ NoDup (initable p) /\
    forall ph, In ph (phases p) -> phase_wf G ph = true.
  Proof.
    unfold prog_wf in WFp.
    apply andb_true_iff in WFp. destruct WFp as [H H4].
    apply andb_true_iff in H. destruct H as [H H3].
    apply andb_true_iff in H. destruct H as [H1 H2].
    split; [apply nodupb_NoDup; assumption|]. split; [apply subset_In; assumption|].
    split; [apply nodupb_NoDup; assumption|]. rewrite forallb_forall in H4. exact H4.
  Qed.

  Let ND : NoDup U := proj1 wf_parts.

  Lemma G_in_U x : In x G -> In x U.
  Proof. intros H. unfold U, universe. apply in_or_app. now left. Qed.

  Lemma locals_in_U ph x : In ph (phases p) -> In x (ph_locals ph) -> In x U.
  Proof.
    intros Hp Hx. unfold U, universe. apply in_or_app. right. apply in_flat_map. eauto.
  Qed.

  Lemma locals_not_G ph x : In ph (phases p) -> In x (ph_locals ph) -> ~ In x G.
  Proof.
    intros Hp Hx Hg. pose proof ND as N. unfold U, universe in N.
    apply (NoDup_app_disj _ _ x N Hg). apply in_flat_map. eauto.
  Qed.

  (* between two calls of run *)
  Definition K (st : mstate) : Prop :=
    refcount_inv U st /\ (forall x, ~ In x G -> vars st x = None) /\
    (forall g, In g G -> defd st g = true -> vars st g <> None).

  Definition Kpost (o : outcome) : Prop :=
    match o with
    | ONormal st => K st
    | OExit _ => False
    | OStopped st => refcount_inv U st
    | OFault f st => is_src f /\ refcount_inv U st
    end.

  Lemma scope_in_U ph : In ph (phases p) -> forall x, In x (G ++ ph_locals ph) -> In x U.
  Proof.
    intros Hp x Hx. apply in_app_or in Hx. destruct Hx; [now apply G_in_U | eapply locals_in_U; eauto].
  Qed.

  (* entering a phase function: every local was unassociated already, so the nullify changes no
     pointer; no assigned variable of the phase is unassociated, whatever may still run *)
  Lemma enter_Inv ph A st :
    In ph (phases p) -> K st -> Inv U G (ph_locals ph) A (nullify_all (ph_locals ph) st).
  Proof.
    intros Hp (I & KL & KG). set (locs := ph_locals ph).
    destruct (nullify_all_spec locs st) as (C & N & F & V & D).
    assert (Hv1 : forall x, vars (nullify_all locs st) x = vars st x).
    { intros x. rewrite V. destruct (memv x locs) eqn:M; [|reflexivity].
      apply memv_In in M. symmetry. apply KL. eapply locals_not_G; eauto. }
    split; [|split].
    - unfold refcount_inv. rewrite C, N, F. eapply rinv_ext; [|exact I]. intros x. now rewrite Hv1.
    - intros x Hx Dx Vx. exfalso. rewrite D in Dx. destruct (memv x locs) eqn:M; [discriminate|].
      apply memv_false in M. apply in_app_or in Hx. destruct Hx as [Hx|Hx]; [|contradiction].
      rewrite Hv1 in Vx. apply (KG x Hx Dx Vx).
    - intros y Hy. rewrite Hv1. apply KL. intros Hg. apply Hy. apply in_or_app. now left.
  Qed.

  (* label 999: every local is released, which leaves what holds between two calls *)
  Lemma label_K ph st :
    In ph (phases p) -> Q U G (ph_locals ph) st ->
    Kpost (run_ops (map ODeinit (ph_locals ph)) (ev st [TLabel])).
  Proof.
    intros Hp (I & J & O). set (locs := ph_locals ph) in *.
    destruct (deinit_list U locs (ev st [TLabel]) ND (fun x Hx => locals_in_U ph x Hp Hx) I)
      as (st' & E & I' & Vl & Fr & D).
    rewrite E. cbn. split; [assumption|]. split.
    - intros x Hx. destruct (in_dec Nat.eq_dec x locs) as [Hl|Hl]; [auto|].
      rewrite Fr by assumption. cbn. apply O. intros Hs. apply in_app_or in Hs. tauto.
    - intros g Hg Dg. rewrite Fr by (intros Hl; eapply locals_not_G; eauto).
      rewrite D in Dg. apply (J g Hg Dg).
  Qed.

  Lemma run_func_K v ph st :
    In ph (phases p) -> K st -> Kpost (run_func v (emit_phase true true swc G ph) st).
  Proof.
    intros Hp HK.
    pose proof wf_parts as (_ & _ & _ & Hph). specialize (Hph ph Hp).
    unfold phase_wf in Hph. apply andb_true_iff in Hph. destruct Hph as [Hst Hnd].
    rewrite forallb_forall in Hst. apply nodupb_NoDup in Hnd.
    pose proof (body_ok U G _ _ ND (scope_in_U ph Hp) Hnd Hst v swc (ph_body ph) [] _ eq_refl
                        (enter_Inv ph _ st Hp HK)) as Hbody.
    unfold run_func. cbn [emit_phase f_locals f_body f_exit].
    destruct (run_code v _ [] _) as [st2|st2|st2|f st2]; cbn [post] in Hbody.
    - apply label_K; [assumption|]. apply (Inv_Q _ _ _ _ _ Hbody).
    - apply label_K; assumption.
    - apply Hbody.
    - exact Hbody.
  Qed.

  Lemma run_step_K v st : K st -> Kpost (run_step m v st).
  Proof.
    intros HK. unfold run_step. destruct (find_func (m_funcs m) (nph st)) as [f|] eqn:Ef.
    - apply find_func_in in Ef. cbn in Ef. apply in_map_iff in Ef. destruct Ef as [ph [<- Hp]].
      apply run_func_K; assumption.
    - cbn. apply HK.
  Qed.

  Lemma run_steps_K h st : K st -> Kpost (run_steps m h st).
  Proof.
    revert st. induction h as [|v r IH]; intros st HK; [exact HK|].
    cbn [run_steps]. pose proof (run_step_K v st HK) as H1.
    destruct (run_step m v st); cbn in H1 |- *; auto. contradiction.
  Qed.

  Lemma init_alloc_K present l st :
    NoDup l -> (forall x, In x l -> In x G) -> K st -> (forall x, In x l -> vars st x = None) ->
    K (init_alloc l present st).
  Proof.
    revert st. induction l as [|x r IH]; intros st NDl Hl HK Hn; [exact HK|].
    cbn [init_alloc]. inversion NDl as [|? ? Hxr NDr]; subst.
    assert (Hr : forall y, In y r -> In y G) by (intros y Hy; apply Hl; now right).
    destruct (memv x present); [|apply IH; auto; intros y Hy; apply Hn; now right].
    apply IH; auto.
    - destruct HK as (I & KL & KG). split; [|split].
      + unfold refcount_inv. cbn. apply rinv_set_fresh; auto.
        * apply G_in_U. apply Hl. now left.
        * apply rinv_unset_null; [exact I|]. apply Hn. now left.
      + intros y Hy. cbn. rewrite upd_other; [auto|]. intros ->. apply Hy. apply Hl. now left.
      + intros g Hg Dg. cbn in Dg |- *. unfold upd in *.
        destruct (Nat.eqb g x); [discriminate | auto].
    - intros y Hy. cbn. rewrite upd_other; [apply Hn; now right|]. intros ->. contradiction.
  Qed.

  Lemma init_K present : K (init m present).
  Proof.
    unfold init. cbn [m emit_mem m_initable m_globals m_first].
    pose proof wf_parts as (_ & Hsub & NDi & _).
    destruct (nullify_all_spec (globals p) (set_nph st0 (first_phase p))) as (C & N & F & V & D).
    set (sta := nullify_all (globals p) (set_nph st0 (first_phase p))) in *.
    assert (Va : forall x, vars sta x = None).
    { intros x. rewrite V. destruct (memv x (globals p)); reflexivity. }
    apply init_alloc_K; auto.
    split; [|split; [auto|]].
    - unfold refcount_inv. rewrite C, N, F. now apply rinv_empty.
    - intros g _ Dg. rewrite D in Dg. destruct (memv g (globals p)); discriminate.
  Qed.

  Lemma shutdown_K st :
    K st ->
    exists st', shutdown m st = (ONormal st', []) /\ refcount_inv U st' /\
                (forall b, cnt st' b = None) /\ live_blocks st' = [].
  Proof.
    intros (I & KL & KG). unfold shutdown. cbn [m emit_mem m_globals].
    destruct (deinit_list U (globals p) st ND G_in_U I) as (st' & E & I' & Vg & Fr & D).
    rewrite E.
    assert (Hall : forall x, vars st' x = None).
    { intros x. destruct (in_dec Nat.eq_dec x (globals p)) as [Hg|Hg]; [auto|].
      rewrite Fr by assumption. apply KL. exact Hg. }
    assert (Hc : forall b, cnt st' b = None).
    { intros b. apply (rinv_no_owner _ _ _ _ _ b I'). intros x _. now rewrite Hall. }
    exists st'. split; [|split; [assumption|split; [assumption|]]].
    - f_equal. apply filter_nil_iff. intros x _. now rewrite Hall.
    - unfold live_blocks. apply filter_nil_iff. intros b _. now rewrite Hc.
  Qed.

  Theorem run_mem_K present h :
    match run_mem m present h with
    | HDone st reps =>
        refcount_inv U st /\ (forall b, cnt st b = None) /\ live_blocks st = [] /\ reps = []
    | HStopped st => refcount_inv U st
    | HFault f st => is_src f /\ refcount_inv U st
    end.
  Proof.
    unfold run_mem. pose proof (run_steps_K h (init m present) (init_K present)) as H.
    destruct (run_steps m h (init m present)) as [st|st|st|f st]; cbn in H;
      [|contradiction | exact H | exact H].
    destruct (shutdown_K st H) as (st' & E & I' & Hc & Hl). rewrite E. auto.
  Qed.

  Theorem invariant_fixed present h :
    let r := run_mem m present h in
    (forall f st, r = HFault f st -> exists x, f = SrcUndefined x) /\
    refcount_inv U (final_state r).
  Proof.
    cbn zeta. pose proof (run_mem_K present h) as H.
    destruct (run_mem m present h) as [st reps|st|f st]; cbn.
    - split; [intros f st1 [=] | apply H].
    - split; [intros f st1 [=] | exact H].
    - destruct H as [[x Hs] I]. split; [|exact I]. intros f1 st1 [= <- <-]. now exists x.
  Qed.

  Theorem no_leak_fixed present h st reps :
    run_mem m present h = HDone st reps -> live_blocks st = [] /\ reps = [].
  Proof. intros E. pose proof (run_mem_K present h) as H. rewrite E in H. split; apply H. Qed.

  Theorem free_once_fixed present h st reps :
    run_mem m present h = HDone st reps ->
    forall b, count_occ Nat.eq_dec (frees st) b = if Nat.ltb b (nxt st) then 1 else 0.
  Proof.
    intros E b. pose proof (run_mem_K present h) as H. rewrite E in H.
    destruct H as (I & Hc & _). exact (rinv_released _ _ _ _ _ b I (Hc b)).
  Qed.
End Prog.

Definition invariant_stmt (sw_exit sw_loop sw_cond : bool) : Prop :=
  forall p present h, prog_wf p = true ->
    let r := run_mem (emit_mem sw_exit sw_loop sw_cond p) present h in
    (forall f st, r = HFault f st -> exists x, f = SrcUndefined x) /\
    refcount_inv (universe p) (final_state r).

Definition no_leak_stmt (sw_exit sw_loop sw_cond : bool) : Prop :=
  forall p present h st reps, prog_wf p = true ->
    run_mem (emit_mem sw_exit sw_loop sw_cond p) present h = HDone st reps ->
    live_blocks st = [] /\ reps = [].

Definition free_once_stmt (sw_exit sw_loop sw_cond : bool) : Prop :=
  forall p present h st reps, prog_wf p = true ->
    run_mem (emit_mem sw_exit sw_loop sw_cond p) present h = HDone st reps ->
    forall b, count_occ Nat.eq_dec (frees st) b = if Nat.ltb b (nxt st) then 1 else 0.

(* the third switch (does lower_inst honour statement.condition) is free: with either shape the
   emitted operations keep the protocol *)
Lemma invariant_holds sw_exit sw_loop sw_cond :
  sw_exit = true -> sw_loop = true -> invariant_stmt sw_exit sw_loop sw_cond.
Proof. intros -> -> p present h W. exact (invariant_fixed p W sw_cond present h). Qed.

Lemma no_leak_holds sw_exit sw_loop sw_cond :
  sw_exit = true -> sw_loop = true -> no_leak_stmt sw_exit sw_loop sw_cond.
Proof. intros -> -> p present h st reps W. exact (no_leak_fixed p W sw_cond present h st reps). Qed.

Lemma free_once_holds sw_exit sw_loop sw_cond :
  sw_exit = true -> sw_loop = true -> free_once_stmt sw_exit sw_loop sw_cond.
Proof. intros -> -> p present h st reps W. exact (free_once_fixed p W sw_cond present h st reps). Qed.

(* The witnesses are the structured trees the real generator produced for the programs of
   corpus/C12/*.json; variable and statement numbering as harness/c12.py assigns it. *)

(* tmp <- f(0, <state>y); if <t> > 0: fail_step; <state>y <- tmp        0 = <state>y, 1 = tmp *)
Definition wit_early_exit : prog :=
  mkProg [0] [0] 0 [mkPhase 0 0 [1] (NBlock [
    NStmt (mkStmt 0 None (KAlloc []) [] [] true);
    NBlock [NStmt (mkStmt 1 None (KAlloc []) [] [] true); NStmt (mkStmt 2 None (KAlloc [1]) [0] [0; 1] true)];
    NIfT (GAtom 0) (NStmt (mkStmt 3 None (KExit XFail) [] [] false));
    NStmt (mkStmt 4 None (KMove 0 1) [1] [0; 1] true)])].

(* tmp <- f(0, <state>y); if <t> > 0: <state>y <- tmp   (last use under a guard that is false) *)
Definition wit_guarded_last_use : prog :=
  mkProg [0] [0] 0 [mkPhase 0 0 [1] (NBlock [
    NStmt (mkStmt 0 None (KAlloc []) [] [] true);
    NBlock [NStmt (mkStmt 1 None (KAlloc []) [] [] true); NStmt (mkStmt 2 None (KAlloc [1]) [0] [0; 1] true)];
    NIfT (GAtom 0) (NStmt (mkStmt 3 None (KMove 0 1) [1] [0; 1] true))])].

(* tmp <- f(0,<state>y); <state>y <- tmp; t2 <- f(0,<state>y); yield t2
   0 = <ret_state>y, 1 = <state>y, 2 = t2, 3 = tmp: YieldState emits no last-use deinit *)
Definition wit_yield_local : prog :=
  mkProg [0; 1] [1] 0 [mkPhase 0 0 [2; 3] (NBlock [
    NBlock [NStmt (mkStmt 0 None (KAlloc []) [] [] true); NStmt (mkStmt 1 None (KAlloc [3]) [1] [1; 3] true)];
    NStmt (mkStmt 2 None (KMove 1 3) [3] [1; 3] true);
    NBlock [NStmt (mkStmt 3 None (KAlloc []) [] [] true); NStmt (mkStmt 4 None (KAlloc [2]) [1] [1; 2] true)];
    NStmt (mkStmt 5 None (KMove 0 2) [2] [2] false)])].

(* x <- f(0, <state>y); <state>y <- f(0, x) for i in [0,3)     0 = <state>y, 1 = tmp_1, 2 = x:
   the last statement that mentions x is inside the loop body *)
Definition wit_loop : prog :=
  mkProg [0] [0] 0 [mkPhase 0 0 [1; 2] (NBlock [
    NBlock [NStmt (mkStmt 0 None (KAlloc []) [] [] true); NStmt (mkStmt 1 None (KAlloc [2]) [0] [0; 2] true)];
    NFor 3 (NBlock [
      NStmt (mkStmt 2 None (KAlloc []) [] [] true);
      NBlock [NStmt (mkStmt 3 None (KAlloc [1]) [2] [1; 2] true); NStmt (mkStmt 4 None (KMove 0 1) [1] [1; 0] true)]])])].

(* u0 <- <state>z; <state>z <- u0 for i in [0,3); <state>z <- f(0, <state>z)
   0 = <state>z, 1 = temp__state_z, 2 = u0: the move inside the loop is the last mention of u0 *)
Definition wit_loop_move : prog :=
  mkProg [0] [0] 0 [mkPhase 0 0 [1; 2] (NBlock [
    NStmt (mkStmt 0 None (KMove 2 0) [0] [0; 2] true);
    NFor 3 (NStmt (mkStmt 1 None (KMove 0 2) [2] [0; 2] true));
    NBlock [NStmt (mkStmt 2 None (KMove 1 0) [0] [0; 1] true);
            NBlock [NStmt (mkStmt 3 None (KAlloc []) [] [] true); NStmt (mkStmt 4 None (KAlloc [0]) [1] [0; 1] true)]]])].

Definition vT : valn := fun _ => valuation [0].   (* the guard flag holds, in every trip *)
Definition vF : valn := fun _ => valuation [].

(* A final state holds functions (vars, cnt), so a result of run_mem is not compared as a whole:
   a run is evaluated once, to the part of its result that is first-order, and what the examples
   say about the state is read off that. *)
Definition done_summary (r : hresult) : option (list var * list block * block * list block) :=
  match r with
  | HDone st reps => Some (reps, live_blocks st, nxt st, frees st)
  | _ => None
  end.

Definition fault_of (r : hresult) : option fault :=
  match r with HFault f _ => Some f | _ => None end.

Lemma summary_done r reps live n fr (P : mstate -> Prop) :
  done_summary r = Some (reps, live, n, fr) ->
  (forall st, live_blocks st = live -> nxt st = n -> frees st = fr -> P st) ->
  exists st, r = HDone st reps /\ P st.
Proof. destruct r as [st reps0| |]; try discriminate. intros [= -> <- <- <-] H. eauto. Qed.

Lemma fault_of_spec r f : fault_of r = Some f -> exists st, r = HFault f st.
Proof. destruct r; try discriminate. intros [= ->]. eauto. Qed.

(* unrepaired exit label: a failed step leaks the temporary (blocks 2 and 3 are never released) *)
Lemma early_exit_unrepaired sw_loop sw_cond :
  exists st, run_mem (emit_mem false sw_loop sw_cond wit_early_exit) [0] [vF; vT; vT] = HDone st [] /\
             live_blocks st = [2; 3] /\ nxt st = 4 /\ frees st = [1; 0].
Proof. eapply summary_done; [destruct sw_loop, sw_cond; vm_compute; reflexivity | auto]. Qed.

Lemma no_leak_refuted sw_loop sw_cond : ~ no_leak_stmt false sw_loop sw_cond.
Proof.
  intros H. destruct (early_exit_unrepaired sw_loop sw_cond) as (st & E & L & _).
  destruct (H wit_early_exit _ _ st [] eq_refl E) as [H' _]. rewrite L in H'. discriminate.
Qed.

(* blocks live after shutdown, as the model predicts them for three of the witnesses *)
Example leak_early_exit :
  snd (fst (observe (run_mem (emit_mem false false true wit_early_exit) [0] [vF; vT; vT]))) = 2.
Proof. vm_compute. reflexivity. Qed.
Example leak_guarded_last_use :
  snd (fst (observe (run_mem (emit_mem false false true wit_guarded_last_use) [0] [vF; vF; vT]))) = 2.
Proof. vm_compute. reflexivity. Qed.
Example leak_yield_local :
  snd (fst (observe (run_mem (emit_mem false false true wit_yield_local) [1] [vF; vF; vF]))) = 3.
Proof. vm_compute. reflexivity. Qed.

(* unrepaired last-use deinit inside a loop body: the second trip reads a nullified pointer *)
Lemma invariant_refuted sw_exit sw_cond : ~ invariant_stmt sw_exit false sw_cond.
Proof.
  intros H. destruct (H wit_loop [0] [vF] eq_refl) as [H' _].
  destruct (fault_of_spec (run_mem (emit_mem sw_exit false sw_cond wit_loop) [0] [vF]) (UseNull 2))
    as [st E]; [destruct sw_exit, sw_cond; vm_compute; reflexivity|].
  destruct (H' _ _ E) as [x [=]].
Qed.

(* the same defect seen through a move: the second trip moves from the nullified u0 (the real
   program then increments through u0's stale counter pointer: heap-use-after-free under ASan) *)
Example loop_move_faults :
  exists st, run_mem (emit_mem false false true wit_loop_move) [0] [vF] = HFault (UseNull 2) st.
Proof. apply fault_of_spec. vm_compute. reflexivity. Qed.
Example loop_move_fixed :
  exists st, prog_wf wit_loop_move = true /\
             run_mem (emit_mem true true true wit_loop_move) [0] [vF] = HDone st [] /\ live_blocks st = [].
Proof.
  enough (exists st, run_mem (emit_mem true true true wit_loop_move) [0] [vF] = HDone st [] /\
                     live_blocks st = []) as (st & E & L) by (exists st; auto).
  eapply summary_done; [vm_compute; reflexivity | auto].
Qed.

(* every allocated block is released once: false as soon as one is never released *)
Lemma free_once_refuted sw_loop sw_cond : ~ free_once_stmt false sw_loop sw_cond.
Proof.
  intros H. destruct (early_exit_unrepaired sw_loop sw_cond) as (st & E & _ & N & F).
  specialize (H wit_early_exit _ _ st [] eq_refl E 2). rewrite N, F in H. discriminate.
Qed.

(* non-vacuity: four of the witnesses are well-formed programs (wit_loop_move: loop_move_fixed), and
   with the repaired shapes wit_early_exit, wit_loop and wit_yield_local run to completion and leak
   nothing; for the first two the log holds as many releases as blocks were allocated *)
Example wf_witnesses :
  prog_wf wit_early_exit = true /\ prog_wf wit_guarded_last_use = true /\
  prog_wf wit_yield_local = true /\ prog_wf wit_loop = true.
Proof. vm_compute. auto. Qed.

Example fixed_early_exit :
  exists st, run_mem (emit_mem true true true wit_early_exit) [0] [vF; vT; vT] = HDone st [] /\
             live_blocks st = [] /\ nxt st = 4 /\ length (frees st) = 4.
Proof. eapply summary_done; [vm_compute; reflexivity|]. intros st L N F. rewrite F. auto. Qed.

Example fixed_loop :
  exists st, run_mem (emit_mem true true true wit_loop) [0] [vF; vF] = HDone st [] /\
             live_blocks st = [] /\ nxt st = 9 /\ length (frees st) = 9.
Proof. eapply summary_done; [vm_compute; reflexivity|]. intros st L N F. rewrite F. auto. Qed.

Example fixed_yield_local :
  exists st, run_mem (emit_mem true true true wit_yield_local) [1] [vF; vF; vF] = HDone st [] /\
             live_blocks st = [].
Proof. eapply summary_done; [vm_compute; reflexivity | auto]. Qed.

(* statements that carry a condition of their own (corpus/C12/cond_expr_in_loop.json,
   guarded_loop_last_use.json) *)

(* k <- f(0, <state>y); w <- f(0, k if i > 1 else 2*k) for i in [0,4); <state>y <- w
   0 = <state>y, 1 = ifthenelse_result, 2 = k, 3 = tmp_1, 4 = tmp_2, 5 = w; flag 0 = `i > 1`, assigned
   in every trip.  Statements 4 and 5 are what expand_IfThenElse makes of the conditional expression;
   5 is the last statement that mentions k. *)
Definition wit_cond_loop : prog :=
  mkProg [0] [0] 0 [mkPhase 0 0 [1; 2; 3; 4; 5] (NBlock [
    NBlock [NStmt (mkStmt 0 None (KAlloc []) [] [] true); NStmt (mkStmt 1 None (KAlloc [2]) [0] [0; 2] true)];
    NFor 4 (NBlock [
      NStmt (mkStmt 2 None (KAlloc []) [] [] true);
      NBlock [NStmt (mkStmt 3 None (KAlloc []) [] [] true);
              NStmt (mkStmt 4 (Some (GAnd GTrue (GAtom 0))) (KMove 1 2) [2] [1; 2] true);
              NStmt (mkStmt 5 (Some (GAnd GTrue (GNot (GAtom 0)))) (KAlloc [1]) [2] [1; 2] true);
              NStmt (mkStmt 6 None (KMove 3 1) [1] [1; 3] true)];
      NBlock [NStmt (mkStmt 7 None (KAlloc [4]) [3] [3; 4] true);
              NStmt (mkStmt 8 None (KMove 5 4) [4] [4; 5] true)]]);
    NStmt (mkStmt 9 None (KMove 0 5) [5] [0; 5] true)])].

(* x <- f(0, <state>y); if <t> > 0: (<state>y <- f(0, x) for i in [0,3))      0 = <state>y, 1 = tmp_1,
   2 = x; the tree is ForLoop(IfThen ...): the last mention of x is inside an `if` inside the loop *)
Definition wit_guarded_loop : prog :=
  mkProg [0] [0] 0 [mkPhase 0 0 [1; 2] (NBlock [
    NStmt (mkStmt 0 None (KAlloc []) [] [] true);
    NBlock [NStmt (mkStmt 1 None (KAlloc []) [] [] true); NStmt (mkStmt 2 None (KAlloc [2]) [0] [0; 2] true)];
    NFor 3 (NIfT (GAtom 0) (NBlock [
      NStmt (mkStmt 3 None (KAlloc []) [] [] true);
      NBlock [NStmt (mkStmt 4 None (KAlloc [1]) [2] [1; 2] true);
              NStmt (mkStmt 5 None (KMove 0 1) [1] [0; 1] true)]]))])].

(* flag 0 holds in the trips with counter > 1 (a valuation that depends on the trip) *)
Definition v_i_gt_1 : valn :=
  fun ctx => match ctx with i :: _ => valuation (if Nat.ltb 1 i then [0] else []) | [] => valuation [] end.

Example wf_cond_witnesses : prog_wf wit_cond_loop = true /\ prog_wf wit_guarded_loop = true.
Proof. vm_compute. auto. Qed.

(* the tree as it is: both programs complete, leak nothing, release each block once *)
Example fixed_cond_loop :
  exists st, run_mem (emit_mem true true true wit_cond_loop) [0] [v_i_gt_1; v_i_gt_1] = HDone st [] /\
             live_blocks st = [] /\ length (frees st) = nxt st /\ nxt st = 15.
Proof. eapply summary_done; [vm_compute; reflexivity|]. intros st L N F. rewrite F. auto. Qed.

Example fixed_guarded_loop :
  exists st, run_mem (emit_mem true true true wit_guarded_loop) [0] [vF; vT] = HDone st [] /\
             live_blocks st = [] /\ length (frees st) = nxt st.
Proof. eapply summary_done; [vm_compute; reflexivity|]. intros st L N F. rewrite F, N. auto. Qed.

(* the last-use release emitted inside the loop (the shape that the seeded change C12_b re-creates for
   these two programs): the release of k sits inside the `if` of statement 5, runs in trip 0, and trip 1
   reads the nullified k; same for x under the guard *)
Example cond_loop_unrepaired_faults :
  exists st, run_mem (emit_mem true false true wit_cond_loop) [0] [v_i_gt_1] = HFault (UseNull 2) st.
Proof. apply fault_of_spec. vm_compute. reflexivity. Qed.

Example guarded_loop_unrepaired_faults :
  exists st, run_mem (emit_mem true false true wit_guarded_loop) [0] [vT] = HFault (UseNull 2) st.
Proof. apply fault_of_spec. vm_compute. reflexivity. Qed.

(* ... and that release really is conditional: when the flag holds in every trip, statement 5 never
   runs, nothing is released inside the loop and even that shape completes (k goes at the exit label) *)
Example cond_stmt_release_is_conditional :
  exists st, run_mem (emit_mem true false true wit_cond_loop) [0] [vT] = HDone st [] /\ live_blocks st = [].
Proof. eapply summary_done; [vm_compute; reflexivity | auto]. Qed.

(* lower_inst ignoring statement.condition (trees before 9d87c11): both statements run in every trip;
   the protocol is kept all the same (the value computed is wrong, which is C03's business) *)
Example cond_ignored_still_safe :
  exists st, run_mem (emit_mem true true false wit_cond_loop) [0] [v_i_gt_1] = HDone st [] /\
             live_blocks st = [] /\ length (frees st) = nxt st.
Proof. eapply summary_done; [vm_compute; reflexivity|]. intros st L N F. rewrite F, N. auto. Qed.

(* a source program that reads a variable it never assigned is reported as the SOURCE's fault *)
Example src_undefined_is_classified :
  exists st, run_mem (emit_mem true true true wit_early_exit) [] [vF] = HFault (SrcUndefined 0) st.
Proof. apply fault_of_spec. vm_compute. reflexivity. Qed.
