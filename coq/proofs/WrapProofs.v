(* C20, model/Wrap.v.  wrap_line_base is a tokenizer followed by a loop over the tokens; the
   loop's result is [render (layout_of ...)]: [layout] says which tokens go on which output line
   behind which prefix, [render] gives the text.  The rendered lines, joined, are the tokens
   [spaced] (wrap_spaced, no tokenizer involved), and a reader that skips whitespace and takes
   a token in front of a break as a whole is a function of the spaced tokens (Section Reader).
   shlex_split and quoted_split are such readers (lex_of_spaced), and so is every tokenizer with
   the four properties of Section Generic.  The target language's reading of a line (tscan) is
   such a reader of quoted_split's tokens, and the input of quoted_split is its tokens spaced:
   hence the layout theorem for quoted_split and its refutation for shlex_split. *)
From Coq Require Import List String Ascii ZArith Bool Lia ZifyBool.
Import ListNotations.
From Dagrt Require Import ListFacts Wrap.
Open Scope Z_scope.

Definition all_ws (s : str) : Prop := Forall (fun c => is_ws c = true) s.

Lemma cons_tok_ok t r ts : cons_tok t r = LexOk ts -> exists ts', r = LexOk ts' /\ ts = t :: ts'.
Proof. destruct r; simpl; intros H; inversion H; eauto. Qed.

Lemma slen_app (a b : str) : slen (a ++ b) = slen a + slen b.
Proof. unfold slen. rewrite app_length. lia. Qed.

Lemma slen_cons c (a : str) : slen (c :: a) = 1 + slen a.
Proof. unfold slen. simpl List.length. lia. Qed.

Lemma slen_nonneg (a : str) : 0 <= slen a.
Proof. unfold slen. lia. Qed.

Lemma slen_spaces n : slen (spaces n) = Z.max 0 n.
Proof. unfold slen, spaces. rewrite repeat_length. lia. Qed.

Lemma all_ws_repeat n : all_ws (repeat sp n).
Proof. unfold all_ws. induction n; simpl; constructor; auto. Qed.

Lemma all_ws_spaces n : all_ws (spaces n).
Proof. apply all_ws_repeat. Qed.

Lemma all_ws_app a b : all_ws a -> all_ws b -> all_ws (a ++ b).
Proof. unfold all_ws. intros. apply Forall_app; auto. Qed.

(* a token can end in front of [s] *)
Definition at_break (s : str) : Prop :=
  match s with [] => True | c :: _ => is_ws c = true end.

Lemma all_ws_break w : all_ws w -> at_break w.
Proof. destruct 1; [exact I|assumption]. Qed.

Lemma at_break_ws w s : all_ws w -> w <> [] -> at_break (w ++ s).
Proof. destruct 1; [congruence|intros _; assumption]. Qed.

Lemma join_sp_cons2 t t2 r : join_sp (t :: t2 :: r) = t ++ sp :: join_sp (t2 :: r).
Proof. reflexivity. Qed.

Lemma join_sp_snoc g w : g <> [] -> join_sp (g ++ [w]) = join_sp g ++ sp :: w.
Proof.
  destruct g as [|t r]; [congruence|]. intros _. simpl.
  rewrite map_app, concat_app. simpl. rewrite app_nil_r, <- app_assoc. reflexivity.
Qed.

(* [spaced P ts s]: the text [s] is the tokens [ts], each followed by the end of the text or by
   whitespace, with any amount of whitespace around them.  Wrapping keeps this relation to the
   tokens (wrap_spaced), and what a tokenizer or the target language reads is a function of it
   (reads). *)
Inductive spaced (P : str -> Prop) : list str -> str -> Prop :=
| spaced_nil : spaced P [] []
| spaced_ws c ts s : is_ws c = true -> spaced P ts s -> spaced P ts (c :: s)
| spaced_tok t ts s : P t -> at_break s -> spaced P ts s -> spaced P (t :: ts) (t ++ s).

Lemma spaced_Forall P ts s : spaced P ts s -> Forall P ts.
Proof. induction 1; auto. Qed.

Lemma spaced_ws_app P w ts s : all_ws w -> spaced P ts s -> spaced P ts (w ++ s).
Proof. induction 1; simpl; auto using spaced_ws. Qed.

Lemma spaced_app P ts1 s1 ts2 s2 : spaced P ts1 s1 -> spaced P ts2 s2 -> at_break s2 ->
  spaced P (ts1 ++ ts2) (s1 ++ s2).
Proof.
  intros H1 H2 Hb. induction H1 as [|c ts s Hc _ IH|t ts s Ht Hs _ IH]; simpl; [assumption|auto using spaced_ws|].
  rewrite <- app_assoc. apply spaced_tok; [assumption| |assumption]. destruct s; [exact Hb|exact Hs].
Qed.

Lemma spaced_join_sp P g : Forall P g -> spaced P g (join_sp g).
Proof.
  induction 1 as [|t g Ht _ IH]; [constructor|]. destruct g as [|t2 r].
  - apply spaced_tok; [assumption|exact I|constructor].
  - rewrite join_sp_cons2. apply spaced_tok; [assumption|reflexivity|].
    apply spaced_ws; [reflexivity|exact IH].
Qed.

(* A reader [f] that skips whitespace and takes a token in front of a break as a whole ([op t]
   is what the token contributes) reads spaced text as a fold over its tokens. *)
Section Reader.
  Variables (R : Type) (f : str -> R) (op : str -> R -> R) (P : str -> Prop).
  Hypothesis r_ws : forall c s, is_ws c = true -> f (c :: s) = f s.
  Hypothesis r_tok : forall t s, P t -> at_break s -> f (t ++ s) = op t (f s).

  Lemma reads ts s : spaced P ts s -> f s = fold_right op (f []) ts.
  Proof.
    induction 1 as [|c ts s Hc _ IH|t ts s Ht Hs _ IH]; [reflexivity| |].
    - rewrite r_ws by assumption. exact IH.
    - rewrite r_tok, IH by assumption. reflexivity.
  Qed.
End Reader.

(* render, render0 and the model's unmark are of this form by conversion, so what they do to
   [init ++ [x]] is one fact. *)
Definition map_last {A B} (f g : A -> B) : list A -> list B :=
  fix go l :=
    match l with
    | [] => []
    | x :: r => match r with [] => [g x] | _ => f x :: go r end
    end.

Lemma map_last_snoc {A B} (f g : A -> B) init x : map_last f g (init ++ [x]) = map f init ++ [g x].
Proof.
  induction init as [|y init IH]; [reflexivity|].
  cbn [app map]. rewrite <- IH. destruct init; reflexivity.
Qed.

Lemma unmark_snoc init l : unmark (init ++ [l]) = map (@removelast ascii) init ++ [l].
Proof. exact (map_last_snoc (@removelast ascii) (fun l => l) init l). Qed.

Section Pack.
  Variables (m : ascii) (ind : str) (ilen width : Z).
  Let pad := pad_with m.
  Let pw := width - ilen.

  Definition fits (cur w : str) (has_next : bool) : bool :=
    let next_len := ilen + slen cur + 1 + slen w in
    (next_len <? width) || (negb has_next && (next_len =? width)).

  Definition text (pg : str * list str) : str := fst pg ++ join_sp (snd pg).

  Fixpoint layout (pre : str) (g : list str) (toks : list str) : list (str * list str) :=
    match toks with
    | [] => [(pre, g)]
    | w :: r =>
        if fits (pre ++ join_sp g) w (negb (is_nil r)) then layout pre (g ++ [w]) r
        else (pre, g) :: layout ind [w] r
    end.

  Fixpoint render (l : list (str * list str)) : list str :=
    match l with
    | [] => []
    | pg :: r => match r with [] => [text pg] | _ => pad (text pg) pw :: render r end
    end.

  (* the lines of [render] with their markers removed (unmark_render) *)
  Fixpoint render0 (l : list (str * list str)) : list str :=
    match l with
    | [] => []
    | pg :: r => match r with
                 | [] => [text pg]
                 | _ => (text pg ++ spaces (pw - 1 - slen (text pg))) :: render0 r
                 end
    end.

  Lemma layout_nonnil pre g toks : layout pre g toks <> [].
  Proof.
    revert pre g; induction toks as [|w r IH]; intros; simpl; [congruence|].
    destruct (fits _ _ _); [apply IH|congruence].
  Qed.

  Lemma render_cons pg r : r <> [] -> render (pg :: r) = pad (text pg) pw :: render r.
  Proof. destruct r; [congruence|reflexivity]. Qed.

  Lemma render0_cons pg r : r <> [] ->
    render0 (pg :: r) = (text pg ++ spaces (pw - 1 - slen (text pg))) :: render0 r.
  Proof. destruct r; [congruence|reflexivity]. Qed.

  Lemma render_snoc init pg :
    render (init ++ [pg]) = map (fun pg => pad (text pg) pw) init ++ [text pg].
  Proof. exact (map_last_snoc (fun pg => pad (text pg) pw) text init pg). Qed.

  Lemma render0_snoc init pg :
    render0 (init ++ [pg]) =
    map (fun pg => text pg ++ spaces (pw - 1 - slen (text pg))) init ++ [text pg].
  Proof. exact (map_last_snoc _ text init pg). Qed.

  Lemma render_nonnil l : l <> [] -> render l <> [].
  Proof. destruct l as [|pg [|]]; simpl; congruence. Qed.

  Lemma render_last_unmarked : forall l d, l <> [] -> last (render l) d = text (last l ([], [])).
  Proof.
    intros l d H. destruct (exists_last H) as (init & pg & ->).
    rewrite render_snoc, !last_last. reflexivity.
  Qed.

  Lemma unmark_render l : unmark (render l) = render0 l.
  Proof.
    induction l as [|pg init _] using rev_ind; [reflexivity|].
    rewrite render_snoc, render0_snoc, unmark_snoc, map_map. f_equal.
    apply map_ext. intros pg'. unfold pad, pad_with. rewrite app_assoc. apply removelast_last.
  Qed.

  (* the loop, started in the middle of a line: at_line_start is false after the first token *)
  Lemma wrap_loop_render : forall toks lines pre g cur, g <> [] -> cur = pre ++ join_sp g ->
    let st := wrap_loop pad ind ilen width (mkW lines false cur) toks in
    rev (w_lines st) ++ [w_cur st] = rev lines ++ render (layout pre g toks).
  Proof.
    induction toks as [|w r IH]; intros lines pre g cur Hg ->; [reflexivity|].
    cbn [wrap_loop layout]. unfold wrap_step. cbn [w_start w_lines w_cur].
    fold (fits (pre ++ join_sp g) w (negb (is_nil r))).
    destruct (fits (pre ++ join_sp g) w (negb (is_nil r))); cbn [w_start w_lines w_cur].
    - apply IH; [destruct g; discriminate|].
      rewrite join_sp_snoc, app_assoc by assumption. reflexivity.
    - rewrite render_cons by apply layout_nonnil.
      rewrite (IH _ ind [w]); [|discriminate|simpl; rewrite app_nil_r; reflexivity].
      simpl. rewrite <- app_assoc. reflexivity.
  Qed.

  Lemma layout_concat : forall toks pre g,
    List.concat (map snd (layout pre g toks)) = g ++ toks.
  Proof.
    induction toks as [|w r IH]; intros; simpl.
    - rewrite !app_nil_r. reflexivity.
    - destruct (fits _ _ _).
      + rewrite IH, <- app_assoc. reflexivity.
      + simpl. rewrite IH. reflexivity.
  Qed.

  Lemma layout_groups_nonempty : forall toks pre g, g <> [] ->
    Forall (fun pg => snd pg <> []) (layout pre g toks).
  Proof.
    induction toks as [|w r IH]; intros pre g Hg; simpl.
    - constructor; auto.
    - destruct (fits _ _ _).
      + apply IH. destruct g; simpl; congruence.
      + constructor; auto. apply IH. congruence.
  Qed.

  Lemma layout_prefixes : forall toks pre g,
    exists g' rest, layout pre g toks = (pre, g') :: rest /\ Forall (fun pg => fst pg = ind) rest.
  Proof.
    induction toks as [|w r IH]; intros pre g; simpl.
    - eauto.
    - destruct (fits _ _ _).
      + apply IH.
      + destruct (IH ind [w]) as (g' & rest & E & F). rewrite E. eauto.
  Qed.

  Lemma pad_fits_len t : slen t <= pw - 1 -> slen (pad t pw) = pw.
  Proof.
    intros. unfold pad, pad_with. rewrite !slen_app, slen_spaces, slen_cons. change (slen []) with 0. lia.
  Qed.

  Lemma fits_bound cur w has_next : fits cur w has_next = true ->
    ilen + slen (cur ++ sp :: w) <= width /\
    (has_next = true -> ilen + slen (cur ++ sp :: w) < width).
  Proof. unfold fits. rewrite slen_app, slen_cons. lia. Qed.

  (* The invariant is about the line being filled: once it holds two tokens it fits, strictly
     while tokens are left, because a line is closed only when the next token does not fit and
     a closed line gets the marker in column pw. *)
  Lemma layout_width : forall toks pre g,
    ((2 <= List.length g)%nat ->
       ilen + slen (pre ++ join_sp g) <= width /\
       (toks <> [] -> ilen + slen (pre ++ join_sp g) < width)) ->
    Forall2 (fun pg line => (2 <= List.length (snd pg))%nat -> ilen + slen line <= width)
            (layout pre g toks) (render (layout pre g toks)).
  Proof.
    induction toks as [|w r IH]; intros pre g H; simpl.
    - constructor; [|constructor]. intros H2. apply (H H2).
    - destruct (fits (pre ++ join_sp g) w (negb (is_nil r))) eqn:F.
      + apply IH. intros Hg.
        rewrite join_sp_snoc, app_assoc by (destruct g; [simpl in Hg; lia|discriminate]).
        destruct (fits_bound _ _ _ F) as [A B]. split; [exact A|].
        intros Hr. apply B. destruct r; [congruence|reflexivity].
      + rewrite render_cons by apply layout_nonnil. constructor.
        * intros H2. destruct (H H2) as [_ B]. specialize (B ltac:(discriminate)).
          rewrite pad_fits_len; unfold pw, text; simpl; lia.
        * apply IH. simpl. intros; lia.
  Qed.

  Lemma render_head l line : In line (render l) -> exists pg rest, In pg l /\ line = text pg ++ rest.
  Proof.
    induction l as [|pg init _] using rev_ind; [contradiction|].
    rewrite render_snoc, in_app_iff, in_map_iff. intros [(pg' & <- & Hin) | [<- | []]].
    - exists pg'. eexists. split; [apply in_or_app; left; exact Hin|reflexivity].
    - exists pg, []. split; [apply in_elt|symmetry; apply app_nil_r].
  Qed.

  Lemma render_marked l :
    Forall (fun line => exists t, line = t ++ spaces (pw - 1 - slen t) ++ [m] /\
                                  (slen t <= pw - 1 -> slen line = pw))
           (removelast (render l)).
  Proof.
    induction l as [|pg init _] using rev_ind; [constructor|].
    rewrite render_snoc, removelast_last. apply Forall_map, Forall_forall. intros pg' _.
    exists (text pg'). split; [reflexivity|apply pad_fits_len].
  Qed.

  Lemma render_indented l : Forall (fun pg => fst pg = ind) l ->
    Forall (fun line => exists rest, line = ind ++ rest) (render l).
  Proof.
    intros H. apply Forall_forall. intros line Hin.
    destruct (render_head l line Hin) as (pg & rest & Hpg & ->).
    rewrite Forall_forall in H. unfold text. rewrite (H pg Hpg), <- app_assoc. eauto.
  Qed.

  Section SpacedLines.
    Variable tokok : str -> Prop.

    Definition good_line (pg : str * list str) : Prop := all_ws (fst pg) /\ Forall tokok (snd pg).

    Lemma spaced_line pg w : good_line pg -> all_ws w -> spaced tokok (snd pg) (text pg ++ w).
    Proof.
      intros [Hp Hg] Hw. unfold text. rewrite <- app_assoc. rewrite <- (app_nil_r (snd pg)) at 1.
      apply spaced_ws_app; [assumption|].
      apply spaced_app; [apply spaced_join_sp, Hg| |apply all_ws_break, Hw].
      rewrite <- (app_nil_r w). apply spaced_ws_app; [assumption|constructor].
    Qed.

    Lemma spaced_each_render0 l : Forall good_line l ->
      Forall2 (fun pg u => spaced tokok (snd pg) u) l (render0 l).
    Proof.
      induction 1 as [|pg r Hpg _ IH]; [constructor|].
      destruct r; [|rewrite render0_cons by discriminate]; constructor;
        auto using spaced_line, all_ws_spaces.
      rewrite <- (app_nil_r (text pg)). apply spaced_line; [assumption|constructor].
    Qed.

    Lemma joined_render0_head pg r : exists Y, List.concat (render0 (pg :: r)) = fst pg ++ Y.
    Proof.
      destruct r as [|pg2 r']; simpl; unfold text; rewrite <- !app_assoc; eauto.
    Qed.

    (* Between two groups stand the padding of the one line and the prefix of the next, which
       has to be non-empty because the padding can be empty. *)
    Lemma spaced_joined_render0 : forall l, Forall good_line l ->
      Forall (fun pg => fst pg <> []) (tl l) ->
      spaced tokok (List.concat (map snd l)) (List.concat (render0 l)).
    Proof.
      induction l as [|pg r IH]; intros H Hpre; [constructor|].
      inversion_clear H as [|? ? Hpg Hr]. destruct r as [|pg2 r'].
      - simpl. rewrite !app_nil_r, <- (app_nil_r (text pg)). apply spaced_line; [assumption|constructor].
      - rewrite render0_cons by discriminate. cbn [List.concat map tl] in *.
        inversion_clear Hpre as [|? ? Hpre2 Hpre'].
        apply spaced_app; [apply spaced_line; [assumption|apply all_ws_spaces]|apply IH; assumption|].
        destruct (joined_render0_head pg2 r') as [Y ->]. inversion Hr as [|? ? [Hw2 _] _]; subst.
        apply at_break_ws; assumption.
    Qed.
  End SpacedLines.
End Pack.

(* the first token opens the first line whatever its length (the loop starts with at_line_start), behind the empty
   prefix; no token at all gives the one empty line *)
Definition layout_of (ind : str) (level : nat) (width : Z) (toks : list str) : list (str * list str) :=
  match toks with
  | [] => [([], [])]
  | w :: r => layout ind (slen (times level ind)) width [] [w] r
  end.

Lemma wrap_tokens_render m ind level width toks :
  wrap_tokens (pad_with m) ind level width toks =
  render m (slen (times level ind)) width (layout_of ind level width toks).
Proof.
  destruct toks as [|w r]; [reflexivity|].
  apply (wrap_loop_render m ind (slen (times level ind)) width r [] [] [w] w); [discriminate|].
  symmetry. apply app_nil_r.
Qed.

Lemma layout_of_nonnil ind level width toks : layout_of ind level width toks <> [].
Proof. destruct toks; [discriminate|apply layout_nonnil]. Qed.

Lemma layout_of_concat ind level width toks :
  List.concat (map snd (layout_of ind level width toks)) = toks.
Proof. destruct toks; [reflexivity|apply layout_concat]. Qed.

Lemma layout_of_groups_nonempty ind level width toks : toks <> [] ->
  Forall (fun pg => snd pg <> []) (layout_of ind level width toks).
Proof. destruct toks; [congruence|]. intros _. apply layout_groups_nonempty. discriminate. Qed.

Lemma layout_of_prefixes ind level width toks :
  exists g rest, layout_of ind level width toks = ([], g) :: rest /\
                 Forall (fun pg => fst pg = ind) rest.
Proof. destruct toks; [exists [], []; split; [reflexivity|constructor]|apply layout_prefixes]. Qed.

Section WrapSpaced.
  Variables (tokok : str -> Prop) (m : ascii) (ind : str) (level : nat) (width : Z).
  Hypothesis ind_ws : all_ws ind.

  Lemma layout_good toks : Forall tokok toks -> Forall (good_line tokok) (layout_of ind level width toks).
  Proof.
    intros Hok. unfold good_line. apply Forall_and.
    - destruct (layout_of_prefixes ind level width toks) as (g & rest & -> & Hp).
      constructor; [constructor|]. eapply Forall_impl; [|exact Hp]. intros pg ->. exact ind_ws.
    - rewrite <- (layout_of_concat ind level width toks), Forall_concat, Forall_map in Hok.
      exact Hok.
  Qed.

  Lemma layout_tl_prefix toks : ind <> [] ->
    Forall (fun pg : str * list str => fst pg <> []) (tl (layout_of ind level width toks)).
  Proof.
    intros Hind. destruct (layout_of_prefixes ind level width toks) as (g & rest & -> & Hp).
    simpl. eapply Forall_impl; [|exact Hp]. intros pg ->. exact Hind.
  Qed.

  Theorem wrap_spaced toks : Forall tokok toks -> ind <> [] ->
    spaced tokok toks (joined (wrap_tokens (pad_with m) ind level width toks)).
  Proof.
    intros Hok Hne. unfold joined. rewrite wrap_tokens_render, unmark_render.
    rewrite <- (layout_of_concat ind level width toks) at 1.
    apply spaced_joined_render0; auto using layout_good, layout_tl_prefix.
  Qed.

  Theorem wrap_spaced_lines toks : Forall tokok toks ->
    Forall2 (fun pg u => spaced tokok (snd pg) u) (layout_of ind level width toks)
            (unmark (wrap_tokens (pad_with m) ind level width toks)).
  Proof.
    intros Hok. rewrite wrap_tokens_render, unmark_render. apply spaced_each_render0, layout_good, Hok.
  Qed.
End WrapSpaced.

Definition prepend (g : list str) (r : lexres) : lexres :=
  match r with LexOk ts => LexOk (g ++ ts) | LexValueError => LexValueError end.

(* what reading back needs of a tokenizer *)
Definition reads_spaced (lexf : str -> lexres) (tokok : str -> Prop) : Prop :=
  forall ts s, spaced tokok ts s -> lexf s = LexOk ts.

Lemma reader_spaced (lexf : str -> lexres) (tokok : str -> Prop) :
  (forall w s, all_ws w -> lexf (w ++ s) = lexf s) -> lexf [] = LexOk [] ->
  (forall t s, tokok t -> at_break s -> lexf (t ++ s) = cons_tok t (lexf s)) ->
  reads_spaced lexf tokok.
Proof.
  intros Hws Hnil Htok ts s H.
  rewrite (reads _ lexf cons_tok tokok) with (ts := ts); [| |exact Htok|exact H].
  - rewrite Hnil. clear H. induction ts as [|t ts' IH]; [reflexivity|]. simpl. rewrite IH. reflexivity.
  - intros c s' Hc. apply (Hws [c] s'). constructor; [exact Hc|constructor].
Qed.

Section LexAll.
  Variable lexf : str -> lexres.

  Fixpoint lex_all (lines : list str) : lexres :=
    match lines with
    | [] => LexOk []
    | l :: r => match lexf l with LexOk g => prepend g (lex_all r) | LexValueError => LexValueError end
    end.

  Lemma lex_all_groups tokok (l : list (str * list str)) us : reads_spaced lexf tokok ->
    Forall2 (fun pg u => spaced tokok (snd pg) u) l us ->
    lex_all us = LexOk (List.concat (map snd l)).
  Proof.
    intros R. induction 1 as [|pg u r us E _ IH]; [reflexivity|]. simpl. rewrite (R _ _ E), IH. reflexivity.
  Qed.
End LexAll.

Section Generic.
  Variable lexf : str -> lexres.
  Variable tokok : str -> Prop.
  Hypothesis lex_ws : forall w s, all_ws w -> lexf (w ++ s) = lexf s.
  Hypothesis lex_nil : lexf [] = LexOk [].
  Hypothesis tok_sep : forall t c s, tokok t -> is_ws c = true ->
                                     lexf (t ++ c :: s) = cons_tok t (lexf s).
  Hypothesis tok_end : forall t, tokok t -> lexf t = LexOk [t].

  Lemma lex_tok_break t s : tokok t -> at_break s -> lexf (t ++ s) = cons_tok t (lexf s).
  Proof.
    intros Ht Hs. destruct s as [|c s'].
    - rewrite app_nil_r, lex_nil. apply tok_end, Ht.
    - rewrite tok_sep by assumption. change (c :: s') with ([c] ++ s').
      rewrite lex_ws by (constructor; [exact Hs|constructor]). reflexivity.
  Qed.

  Lemma lex_spaced : reads_spaced lexf tokok.
  Proof. exact (reader_spaced lexf tokok lex_ws lex_nil lex_tok_break). Qed.

  Lemma relex g : Forall tokok g -> lexf (join_sp g) = LexOk g.
  Proof. intros Hg. apply lex_spaced, spaced_join_sp, Hg. Qed.

  Section Lines.
    Variables (ilen width : Z).

    Lemma lex_each_render0 l : Forall (good_line tokok) l ->
      Forall2 (fun pg u => lexf u = LexOk (snd pg)) l (render0 ilen width l).
    Proof.
      intros H. eapply Forall2_impl; [|apply spaced_each_render0, H]. intros pg u. apply lex_spaced.
    Qed.

    Lemma lex_all_render0 l : Forall (good_line tokok) l ->
      lex_all lexf (render0 ilen width l) = LexOk (List.concat (map snd l)).
    Proof. intros H. apply (lex_all_groups lexf tokok _ _ lex_spaced), spaced_each_render0, H. Qed.

    Lemma lex_joined_render0 l : Forall (good_line tokok) l ->
      Forall (fun pg => fst pg <> []) (tl l) ->
      lexf (List.concat (render0 ilen width l)) = LexOk (List.concat (map snd l)).
    Proof. intros. apply lex_spaced, spaced_joined_render0; assumption. Qed.
  End Lines.

  Section Wrapped.
    Variables (m : ascii) (ind : str) (level : nat) (width : Z).
    Hypothesis ind_ws : all_ws ind.

    Theorem wrap_tokens_relex toks : Forall tokok toks -> ind <> [] ->
      lexf (joined (wrap_tokens (pad_with m) ind level width toks)) = LexOk toks.
    Proof. intros. apply lex_spaced, wrap_spaced; assumption. Qed.

    Theorem wrap_tokens_relex_lines toks : Forall tokok toks ->
      lex_all lexf (unmark (wrap_tokens (pad_with m) ind level width toks)) = LexOk toks.
    Proof.
      intros Hok. rewrite <- (layout_of_concat ind level width toks) at 2.
      apply (lex_all_groups lexf tokok _ _ lex_spaced), wrap_spaced_lines; assumption.
    Qed.
  End Wrapped.
End Generic.

Section Shape.
  Variables (m : ascii) (ind : str) (level : nat) (width : Z).
  Let ilen := slen (times level ind).
  Let lay toks := layout_of ind level width toks.

  Theorem wrap_atomic toks :
    wrap_tokens (pad_with m) ind level width toks = render m ilen width (lay toks) /\
    List.concat (map snd (lay toks)) = toks /\
    (toks <> [] -> Forall (fun pg => snd pg <> []) (lay toks)) /\
    exists g rest, lay toks = ([], g) :: rest /\ Forall (fun pg => fst pg = ind) rest.
  Proof.
    split; [apply wrap_tokens_render|]. split; [apply layout_of_concat|].
    split; [apply layout_of_groups_nonempty|apply layout_of_prefixes].
  Qed.

  Lemma wrap_empty : wrap_tokens (pad_with m) ind level width [] = [[]].
  Proof. reflexivity. Qed.

  Theorem wrap_width toks :
    Forall2 (fun pg line => (2 <= List.length (snd pg))%nat -> ilen + slen line <= width)
            (lay toks) (wrap_tokens (pad_with m) ind level width toks).
  Proof.
    rewrite wrap_tokens_render. destruct toks as [|w r].
    - constructor; [|constructor]. simpl. lia.
    - apply layout_width. simpl. lia.
  Qed.

  Theorem wrap_continuation toks :
    let lines := wrap_tokens (pad_with m) ind level width toks in
    Forall (fun line => exists t, line = t ++ spaces (width - ilen - 1 - slen t) ++ [m] /\
                                  (slen t <= width - ilen - 1 -> slen line = width - ilen))
           (removelast lines) /\
    Forall (fun line => exists rest, line = ind ++ rest) (tl lines) /\
    (toks <> [] -> last lines [] = text (last (lay toks) ([], []))).
  Proof.
    intros lines. unfold lines. rewrite wrap_tokens_render. split; [apply render_marked|].
    split; [|intros _; apply render_last_unmarked, layout_of_nonnil].
    destruct (layout_of_prefixes ind level width toks) as (g & rest & -> & Hp).
    destruct rest; [constructor|]. rewrite render_cons by discriminate.
    apply render_indented, Hp.
  Qed.
End Shape.

Lemma wrap_line_inv lexf pad line level width ind lines :
  wrap_line_base lexf pad line level width ind = WrapOk lines ->
  exists ts, lexf line = LexOk ts /\ lines = wrap_tokens pad ind level width ts.
Proof.
  unfold wrap_line_base. destruct (lexf line) as [ts|]; [|discriminate]. intros [= <-]. eauto.
Qed.

Theorem wrap_line_error lexf pad line level width ind :
  wrap_line_base lexf pad line level width ind = WrapValueError <-> lexf line = LexValueError.
Proof. unfold wrap_line_base. destruct (lexf line); split; congruence. Qed.

Theorem wrap_line_atomic lexf m line level width ind ts lines :
  lexf line = LexOk ts ->
  wrap_line_base lexf (pad_with m) line level width ind = WrapOk lines ->
  let lay := layout_of ind level width ts in
  lines = render m (slen (times level ind)) width lay /\
  List.concat (map snd lay) = ts /\
  (ts <> [] -> Forall (fun pg => snd pg <> []) lay) /\
  exists g rest, lay = ([], g) :: rest /\ Forall (fun pg => fst pg = ind) rest.
Proof.
  intros Hlex H. apply wrap_line_inv in H as (ts' & E & ->).
  rewrite Hlex in E. injection E as <-. apply wrap_atomic.
Qed.

Theorem wrap_line_width lexf m line level width ind ts lines :
  lexf line = LexOk ts ->
  wrap_line_base lexf (pad_with m) line level width ind = WrapOk lines ->
  Forall2 (fun pg l => (2 <= List.length (snd pg))%nat -> slen (times level ind) + slen l <= width)
          (layout_of ind level width ts) lines.
Proof.
  intros Hlex H. apply wrap_line_inv in H as (ts' & E & ->).
  rewrite Hlex in E. injection E as <-. apply wrap_width.
Qed.

Theorem wrap_line_continuation lexf m line level width ind lines :
  wrap_line_base lexf (pad_with m) line level width ind = WrapOk lines ->
  let pw := width - slen (times level ind) in
  Forall (fun l => exists t, l = t ++ spaces (pw - 1 - slen t) ++ [m] /\
                             (slen t <= pw - 1 -> slen l = pw))
         (removelast lines) /\
  Forall (fun l => exists rest, l = ind ++ rest) (tl lines).
Proof.
  intros H. apply wrap_line_inv in H as (ts & _ & ->).
  destruct (wrap_continuation m ind level width ts) as (A & B & _). split; assumption.
Qed.

Definition nonws (s : str) : Prop := Forall (fun c => is_ws c = false) s.

(* the tokens shlex.split(posix=False) can produce *)
Inductive shtok : str -> Prop :=
| shtok_word c body : is_ws c = false -> is_quote c = false -> nonws body -> shtok (c :: body)
| shtok_quoted q body : is_quote q = true -> ~ In q body -> shtok (q :: body ++ [q]).

Lemma quote_not_ws q : is_quote q = true -> is_ws q = false.
Proof.
  unfold is_quote. intros H. apply orb_true_iff in H.
  destruct H as [H|H]; apply Ascii.eqb_eq in H; subst; reflexivity.
Qed.

Lemma shlex_skip_ws : forall w s, all_ws w -> shlex_split (w ++ s) = shlex_split s.
Proof.
  unfold shlex_split. intros w s H. induction H as [|c w Hc _ IH]; [reflexivity|].
  simpl. rewrite Hc. exact IH.
Qed.

Lemma lex_word_run : forall body tok s, nonws body ->
  lex_go SWord tok (body ++ s) = lex_go SWord (rev body ++ tok) s.
Proof.
  intros body tok s H. revert tok. induction H as [|c b Hc _ IH]; intros tok; [reflexivity|].
  simpl. rewrite Hc, IH, <- app_assoc. reflexivity.
Qed.

Lemma lex_quote_run : forall body q tok s, ~ In q body ->
  lex_go (SQuote q) tok (body ++ q :: s) =
  cons_tok (rev tok ++ body ++ [q]) (lex_go SSpace [] s).
Proof.
  induction body as [|c b IH]; intros q tok s H.
  - simpl. rewrite Ascii.eqb_refl. reflexivity.
  - simpl. destruct (Ascii.eqb c q) eqn:E.
    + apply Ascii.eqb_eq in E. subst. exfalso. apply H. left. reflexivity.
    + rewrite IH by (intros HI; apply H; right; exact HI).
      simpl. rewrite <- app_assoc. reflexivity.
Qed.

Lemma shlex_tok t s : shtok t -> at_break s -> shlex_split (t ++ s) = cons_tok t (shlex_split s).
Proof.
  intros Ht Hs. unfold shlex_split. destruct Ht as [c0 body Hw Hq Hb | q body Hq Hn].
  - simpl. rewrite Hw, Hq, lex_word_run by assumption.
    replace (c0 :: body) with (rev (rev body ++ [c0]))
      by (rewrite rev_app_distr, rev_involutive; reflexivity).
    destruct s as [|c s']; simpl in *; [|rewrite Hs]; reflexivity.
  - simpl. rewrite (quote_not_ws q Hq), Hq, <- app_assoc. simpl.
    rewrite lex_quote_run by assumption. reflexivity.
Qed.

(* what completes the pending token to one shlex can produce *)
Definition lex_inv (st : lstate) (tok : str) : Prop :=
  match st with
  | SSpace => True
  | SWord => forall b, nonws b -> shtok (rev tok ++ b)
  | SQuote q => forall b, ~ In q b -> shtok (rev tok ++ b ++ [q])
  end.

Lemma lex_go_sound : forall s st tok ts, lex_go st tok s = LexOk ts -> lex_inv st tok ->
  Forall shtok ts.
Proof.
  induction s as [|c r IH]; intros st tok ts H Inv.
  - destruct st; simpl in H; inversion H; subst; repeat constructor.
    rewrite <- (app_nil_r (rev tok)). apply Inv. constructor.
  - destruct st as [| |q]; simpl in H.
    + destruct (is_ws c) eqn:W; [eapply IH; eauto; exact I|].
      destruct (is_quote c) eqn:Q; eapply IH; eauto; intros b Hb; simpl; constructor; assumption.
    + destruct (is_ws c) eqn:W.
      * apply cons_tok_ok in H as (ts' & H & ->). constructor; [|eapply IH; eauto; exact I].
        rewrite <- (app_nil_r (rev tok)). apply Inv. constructor.
      * eapply IH; eauto. intros b Hb. simpl. rewrite <- app_assoc. apply Inv. constructor; assumption.
    + destruct (Ascii.eqb c q) eqn:Eq.
      * apply Ascii.eqb_eq in Eq. subst c. apply cons_tok_ok in H as (ts' & H & ->).
        constructor; [exact (Inv [] (fun x => x))|eapply IH; eauto; exact I].
      * eapply IH; eauto. intros b Hb. simpl. rewrite <- app_assoc. apply (Inv (c :: b)).
        intros [->|HI]; [rewrite Ascii.eqb_refl in Eq; discriminate|exact (Hb HI)].
Qed.

Lemma shlex_sound line ts : shlex_split line = LexOk ts -> Forall shtok ts.
Proof. intros H. eapply lex_go_sound; [exact H|exact I]. Qed.

Lemma shtok_quoted_whole t q r : shtok t -> t = q :: r -> is_quote q = true ->
  exists body, t = q :: body ++ [q] /\ ~ In q body.
Proof.
  intros Ht E Q. destruct Ht as [c0 body Hw Hq Hb | q0 body Hq Hn].
  - inversion E; subst. congruence.
  - inversion E; subst. eauto.
Qed.

Theorem shlex_quoted_whole line ts t q r : shlex_split line = LexOk ts -> In t ts ->
  t = q :: r -> is_quote q = true -> exists body, t = q :: body ++ [q] /\ ~ In q body.
Proof.
  intros H Hin E Q. apply shlex_sound in H. rewrite Forall_forall in H.
  eapply shtok_quoted_whole; eauto.
Qed.

(* One character of qlex_go (qlex_go_cons); None: [c] is whitespace outside a
   literal and ends the token. *)
Definition qstep (esc : bool) (st : qstate) (c : ascii) : option qstate :=
  match st with
  | QOut => if is_ws c then None else if is_quote c then Some (QIn c) else Some QOut
  | QIn q => if esc && is_bs c then Some (QEsc q) else if Ascii.eqb c q then Some QOut else Some (QIn q)
  | QEsc q => Some (QIn q)
  end.

Fixpoint qrun (esc : bool) (st : qstate) (u : str) : option qstate :=
  match u with
  | [] => Some st
  | c :: r => match qstep esc st c with Some st' => qrun esc st' r | None => None end
  end.

(* non-empty, no whitespace outside a literal, every literal closed *)
Definition qtok (esc : bool) (t : str) : Prop := t <> [] /\ qrun esc QOut t = Some QOut.

Lemma qrun_app esc : forall u st v,
  qrun esc st (u ++ v) = match qrun esc st u with Some st' => qrun esc st' v | None => None end.
Proof.
  induction u as [|c u IH]; intros st v; [reflexivity|].
  simpl. destruct (qstep esc st c); [apply IH|reflexivity].
Qed.

Lemma qstep_None esc st c : qstep esc st c = None -> st = QOut /\ is_ws c = true.
Proof.
  destruct st as [|q|q]; simpl; [|destruct (esc && is_bs c), (Ascii.eqb c q)|]; try discriminate.
  destruct (is_ws c); [auto|destruct (is_quote c); discriminate].
Qed.

Definition emit_tok (tok : str) (r : lexres) : lexres :=
  match tok with [] => r | _ => cons_tok (rev tok) r end.

Lemma emit_rev t r : t <> [] -> emit_tok (rev t) r = cons_tok t r.
Proof.
  intros Hne. unfold emit_tok. rewrite rev_involutive. destruct (rev t) eqn:E; [|reflexivity].
  apply (f_equal (@rev ascii)) in E. rewrite rev_involutive in E. contradiction.
Qed.

Lemma qlex_go_cons esc st tok c r :
  qlex_go esc st tok (c :: r) =
  match qstep esc st c with
  | Some st' => qlex_go esc st' (c :: tok) r
  | None => emit_tok tok (qlex_go esc QOut [] r)
  end.
Proof.
  destruct st as [|q|q]; simpl.
  - destruct (is_ws c); [destruct tok; reflexivity|]. destruct (is_quote c); reflexivity.
  - destruct (esc && is_bs c); [reflexivity|]. destruct (Ascii.eqb c q); reflexivity.
  - reflexivity.
Qed.

Lemma qlex_go_nil esc tok : qlex_go esc QOut tok [] = emit_tok tok (LexOk []).
Proof. destruct tok; reflexivity. Qed.

Lemma qlex_run esc : forall u st st' tok s, qrun esc st u = Some st' ->
  qlex_go esc st tok (u ++ s) = qlex_go esc st' (rev u ++ tok) s.
Proof.
  induction u as [|c u IH]; intros st st' tok s H; simpl in H.
  - inversion H. reflexivity.
  - simpl app. rewrite qlex_go_cons. destruct (qstep esc st c) as [st1|]; [|discriminate].
    rewrite (IH st1 st') by assumption. simpl. rewrite <- app_assoc. reflexivity.
Qed.

Lemma qlex_skip_ws esc : forall w s, all_ws w -> quoted_split esc (w ++ s) = quoted_split esc s.
Proof.
  unfold quoted_split. intros w s H. induction H as [|c w Hc _ IH]; [reflexivity|].
  simpl. rewrite Hc. exact IH.
Qed.

Lemma qlex_tok esc t s : qtok esc t -> at_break s ->
  quoted_split esc (t ++ s) = cons_tok t (quoted_split esc s).
Proof.
  intros [Hne Hr] Hs. unfold quoted_split.
  rewrite (qlex_run esc t QOut QOut) by assumption. rewrite app_nil_r.
  destruct s as [|c s'].
  - rewrite qlex_go_nil. apply emit_rev, Hne.
  - rewrite !qlex_go_cons. simpl in Hs. unfold qstep. rewrite Hs. apply emit_rev, Hne.
Qed.

Lemma qtok_rev esc a tok : qrun esc QOut (rev (a :: tok)) = Some QOut -> qtok esc (rev (a :: tok)).
Proof. split; [simpl; destruct (rev tok); discriminate|assumption]. Qed.

(* The input of quoted_split is its tokens, spaced.  shlex_split has no such property: it
   ends a token behind a closing quote without whitespace ('a'b is two tokens), which is why
   joining its tokens with blanks can change what the target language reads. *)
Lemma qlex_go_spaced esc : forall s st tok ts, qlex_go esc st tok s = LexOk ts ->
  qrun esc QOut (rev tok) = Some st -> spaced (qtok esc) ts (rev tok ++ s).
Proof.
  induction s as [|c r IH]; intros st tok ts H Inv.
  - destruct st; try discriminate. rewrite qlex_go_nil in H.
    destruct tok; inversion H; subst; [constructor|].
    apply spaced_tok; [apply qtok_rev, Inv|exact I|constructor].
  - rewrite qlex_go_cons in H. destruct (qstep esc st c) as [st1|] eqn:E.
    + replace (rev tok ++ c :: r) with (rev (c :: tok) ++ r) by (simpl; rewrite <- app_assoc; reflexivity).
      eapply IH; [exact H|]. simpl. rewrite qrun_app, Inv. simpl. rewrite E. reflexivity.
    + apply qstep_None in E as [-> W]. destruct tok as [|a tok']; cbn [emit_tok] in H.
      * apply spaced_ws; [exact W|]. exact (IH QOut [] ts H eq_refl).
      * apply cons_tok_ok in H as (ts' & H & ->).
        apply spaced_tok; [apply qtok_rev, Inv|exact W|].
        apply spaced_ws; [exact W|]. exact (IH QOut [] ts' H eq_refl).
Qed.

Lemma qlex_spaced esc line ts : quoted_split esc line = LexOk ts -> spaced (qtok esc) ts line.
Proof. intros H. exact (qlex_go_spaced esc line QOut [] ts H eq_refl). Qed.

Lemma qlex_sound esc line ts : quoted_split esc line = LexOk ts -> Forall (qtok esc) ts.
Proof. intros H. eapply spaced_Forall, qlex_spaced, H. Qed.

(* tscan_go and qlex_go side by side, to show that what the former reads depends only on the
   latter's tokens. *)
Definition sim (stq : qstate) (stt : tstate) : Prop :=
  match stq, stt with
  | QOut, TOut => True
  | QOut, TClosed q _ => is_quote q = true
  | QIn q, TIn q' _ => q = q' /\ is_quote q = true
  | QEsc q, TEsc q' _ => q = q' /\ is_quote q = true
  | _, _ => False
  end.

(* One character of tscan_go (tscan_go_cons): the items that reading [c] completes, and the
   next state. *)
Definition tstep (esc dbl : bool) (stt : tstate) (c : ascii) : (scanres -> scanres) * tstate :=
  let out k := if is_ws c then (k, TOut) else if is_quote c then (k, TIn c [])
               else (fun x => k (cons_item (Sym c) x), TOut) in
  match stt with
  | TOut => out (fun x => x)
  | TIn q b => (fun x => x, if esc && is_bs c then TEsc q (c :: b)
                            else if Ascii.eqb c q then TClosed q b else TIn q (c :: b))
  | TEsc q b => (fun x => x, TIn q (c :: b))
  | TClosed q b => if dbl && Ascii.eqb c q then (fun x => x, TIn q (c :: b))
                   else out (cons_item (Lit q (rev b)))
  end.

Lemma tscan_go_cons esc dbl stt c X :
  tscan_go esc dbl stt (c :: X) =
  fst (tstep esc dbl stt c) (tscan_go esc dbl (snd (tstep esc dbl stt c)) X).
Proof.
  destruct stt as [|q b|q b|q b]; simpl.
  - destruct (is_ws c); [|destruct (is_quote c)]; reflexivity.
  - destruct (esc && is_bs c); [|destruct (Ascii.eqb c q)]; reflexivity.
  - reflexivity.
  - destruct (dbl && Ascii.eqb c q); [reflexivity|].
    destruct (is_ws c); [|destruct (is_quote c)]; reflexivity.
Qed.

Lemma sim_step esc dbl stq c stq' stt : qstep esc stq c = Some stq' -> sim stq stt ->
  sim stq' (snd (tstep esc dbl stt c)).
Proof.
  destruct stq as [|q|q], stt as [|q' b|q' b|q' b]; simpl; try contradiction.
  - destruct (is_ws c); [discriminate|]. destruct (is_quote c) eqn:Q; intros [= <-] _; simpl; auto.
  - destruct (is_ws c); [discriminate|]. intros Hs Hq. destruct (dbl && Ascii.eqb c q') eqn:D.
    + apply andb_true_iff in D as [_ D]. apply Ascii.eqb_eq in D. subst c.
      rewrite Hq in Hs. injection Hs as <-. simpl. auto.
    + destruct (is_quote c) eqn:Q; injection Hs as <-; simpl; auto.
  - intros Hs [-> Q]. destruct (esc && is_bs c); [|destruct (Ascii.eqb c q')];
      injection Hs as <-; simpl; auto.
  - intros [= <-] [-> Q]. simpl. auto.
Qed.

(* reading [a], then [b] *)
Definition scan_app (a b : scanres) : scanres :=
  match a, b with ScanOk x, ScanOk y => ScanOk (x ++ y) | _, _ => ScanUnterminated end.

Lemma scan_app_cons i a b : scan_app (cons_item i a) b = cons_item i (scan_app a b).
Proof. destruct a, b; reflexivity. Qed.

Lemma tstep_app esc dbl stt c a b :
  fst (tstep esc dbl stt c) (scan_app a b) = scan_app (fst (tstep esc dbl stt c) a) b.
Proof.
  destruct stt as [|q r|q r|q r]; simpl; try reflexivity.
  2: destruct (dbl && Ascii.eqb c q); [reflexivity|].
  all: destruct (is_ws c); [|destruct (is_quote c)]; simpl; rewrite ?scan_app_cons; reflexivity.
Qed.

Lemma tscan_break esc dbl stt s : sim QOut stt -> at_break s ->
  tscan_go esc dbl stt s = scan_app (tscan_go esc dbl stt []) (tscan esc dbl s).
Proof.
  intros Hsim Hs. unfold tscan.
  destruct stt as [|q b|q b|q b]; simpl in Hsim; try contradiction;
    (destruct s as [|c s']; [reflexivity|]); simpl in *; rewrite Hs.
  - destruct (tscan_go esc dbl TOut s'); reflexivity.
  - replace (dbl && Ascii.eqb c q) with false; [destruct (tscan_go esc dbl TOut s'); reflexivity|].
    destruct (Ascii.eqb c q) eqn:Eq; [|symmetry; apply andb_false_r].
    apply Ascii.eqb_eq in Eq. subst. rewrite (quote_not_ws _ Hsim) in Hs. discriminate.
Qed.

(* a token in front of a break is read by itself *)
Lemma tscan_go_tok esc dbl : forall t stq stt s, qrun esc stq t = Some QOut -> sim stq stt ->
  at_break s -> tscan_go esc dbl stt (t ++ s) = scan_app (tscan_go esc dbl stt t) (tscan esc dbl s).
Proof.
  induction t as [|c u IH]; intros stq stt s H Hsim Hs; simpl in H.
  - injection H as ->. apply tscan_break; assumption.
  - destruct (qstep esc stq c) as [stq1|] eqn:E; [|discriminate]. cbn [app].
    rewrite !tscan_go_cons, (IH stq1 _ s H (sim_step esc dbl stq c stq1 stt E Hsim) Hs). apply tstep_app.
Qed.

Lemma tscan_ws esc dbl c s : is_ws c = true -> tscan esc dbl (c :: s) = tscan esc dbl s.
Proof. intros H. unfold tscan. simpl. rewrite H. reflexivity. Qed.

Lemma tscan_tok esc dbl t s : qtok esc t -> at_break s ->
  tscan esc dbl (t ++ s) = scan_app (tscan esc dbl t) (tscan esc dbl s).
Proof. intros [_ Hr] Hs. exact (tscan_go_tok esc dbl t QOut TOut s Hr I Hs). Qed.

(* the target language's reading is a function of quoted_split's tokens *)
Lemma tscan_spaced esc dbl ts s : spaced (qtok esc) ts s ->
  tscan esc dbl s = fold_right (fun t => scan_app (tscan esc dbl t)) (ScanOk []) ts.
Proof. exact (reads _ (tscan esc dbl) _ (qtok esc) (tscan_ws esc dbl) (tscan_tok esc dbl) ts s). Qed.

Theorem tscan_factors esc dbl line ts : quoted_split esc line = LexOk ts ->
  tscan esc dbl line = tscan esc dbl (join_sp ts).
Proof.
  intros H. apply qlex_spaced in H. rewrite (tscan_spaced esc dbl ts line H). symmetry.
  apply tscan_spaced, spaced_join_sp. eapply spaced_Forall, H.
Qed.

Definition tok_of (k : lexkind) : str -> Prop :=
  match k with LexShlex => shtok | LexQuoted e => qtok e end.

Lemma lex_of_skip_ws k w s : all_ws w -> lex_of k (w ++ s) = lex_of k s.
Proof. destruct k; [apply shlex_skip_ws|apply qlex_skip_ws]. Qed.

Lemma lex_of_nil k : lex_of k [] = LexOk [].
Proof. destruct k; reflexivity. Qed.

Lemma lex_of_tok k t s : tok_of k t -> at_break s -> lex_of k (t ++ s) = cons_tok t (lex_of k s).
Proof. destruct k; [apply shlex_tok|apply qlex_tok]. Qed.

Lemma lex_of_sound k line ts : lex_of k line = LexOk ts -> Forall (tok_of k) ts.
Proof. destruct k; [apply shlex_sound|apply qlex_sound]. Qed.

Lemma lex_of_spaced k : reads_spaced (lex_of k) (tok_of k).
Proof. exact (reader_spaced _ _ (lex_of_skip_ws k) (lex_of_nil k) (lex_of_tok k)). Qed.

(* boolean side conditions, so that props/ can discharge them by computation *)
Definition ws_indent (ind : str) : bool := forallb is_ws ind && negb (is_nil ind).

Lemma forallb_all_ws ind : forallb is_ws ind = true -> all_ws ind.
Proof. apply forallb_Forall. Qed.

Lemma ws_indent_ws ind : ws_indent ind = true -> forallb is_ws ind = true.
Proof. intros H. apply andb_true_iff in H. apply H. Qed.

Lemma ws_indent_spec ind : ws_indent ind = true -> all_ws ind /\ ind <> [].
Proof.
  unfold ws_indent. intros H. apply andb_true_iff in H as [A B].
  split; [apply forallb_all_ws, A|]. destruct ind; [discriminate|congruence].
Qed.

Theorem wrap_line_tokens k m line level width ind lines :
  ws_indent ind = true ->
  wrap_line_base (lex_of k) (pad_with m) line level width ind = WrapOk lines ->
  lex_of k (joined lines) = lex_of k line.
Proof.
  intros Hind H. apply ws_indent_spec in Hind as [Hws Hne].
  apply wrap_line_inv in H as (ts & E & ->). rewrite E.
  apply lex_of_spaced, wrap_spaced; eauto using lex_of_sound.
Qed.

Theorem wrap_line_tokens_lines k m line level width ind lines :
  forallb is_ws ind = true ->
  wrap_line_base (lex_of k) (pad_with m) line level width ind = WrapOk lines ->
  lex_all (lex_of k) (unmark lines) = lex_of k line.
Proof.
  intros Hind H. apply forallb_all_ws in Hind.
  apply wrap_line_inv in H as (ts & E & ->). rewrite E.
  rewrite <- (layout_of_concat ind level width ts) at 2.
  apply (lex_all_groups _ _ _ _ (lex_of_spaced k)), wrap_spaced_lines; eauto using lex_of_sound.
Qed.

Theorem lex_relex k line ts : lex_of k line = LexOk ts -> lex_of k (join_sp ts) = LexOk ts.
Proof. intros H. eapply lex_of_spaced, spaced_join_sp, lex_of_sound, H. Qed.

Definition target_ok (k : lexkind) (m : ascii) (ind : str) (esc dbl : bool) : Prop :=
  forall line level width lines,
    wrap_line_base (lex_of k) (pad_with m) line level width ind = WrapOk lines ->
    tscan esc dbl (joined lines) = tscan esc dbl line.

(* For any tokenizer, on the lines where it returns quoted_split's tokens. *)
Theorem wrap_layout_only (lexf : str -> lexres) m esc dbl line ind level width lines :
  all_ws ind -> ind <> [] ->
  quoted_split esc line = lexf line ->
  wrap_line_base lexf (pad_with m) line level width ind = WrapOk lines ->
  tscan esc dbl (joined lines) = tscan esc dbl line.
Proof.
  intros Hws Hne Hagree Hwrap. apply wrap_line_inv in Hwrap as (ts & Hlex & ->).
  rewrite <- Hagree in Hlex. apply qlex_spaced in Hlex.
  rewrite (tscan_spaced esc dbl ts line Hlex).
  apply tscan_spaced, wrap_spaced; [assumption|eapply spaced_Forall, Hlex|assumption].
Qed.

Theorem layout_partial k m esc dbl line level width ind lines :
  ws_indent ind = true ->
  quoted_split esc line = lex_of k line ->
  wrap_line_base (lex_of k) (pad_with m) line level width ind = WrapOk lines ->
  tscan esc dbl (joined lines) = tscan esc dbl line.
Proof.
  intros Hind Hag H. apply ws_indent_spec in Hind as [Hws Hne].
  exact (wrap_layout_only (lex_of k) m esc dbl line ind level width lines Hws Hne Hag H).
Qed.

Theorem layout_repaired m esc dbl ind : ws_indent ind = true -> target_ok (LexQuoted esc) m ind esc dbl.
Proof.
  intros Hind line level width lines H.
  exact (layout_partial (LexQuoted esc) m esc dbl line level width ind lines Hind eq_refl H).
Qed.

(* shlex: a literal that does not start a shlex token loses a blank *)
Definition wit_midtoken : str := Str "g('a  b')".

Theorem layout_refuted_shlex m ind esc dbl : ~ target_ok LexShlex m ind esc dbl.
Proof.
  intros H. specialize (H wit_midtoken 0%nat 80 _ eq_refl).
  destruct esc, dbl; vm_compute in H; discriminate.
Qed.

(* shlex: a doubled quote inside a Fortran literal becomes two literals *)
Definition wit_doubled : str := Str "x = 'it''s'".

Lemma layout_refuted_doubled m ind :
  exists lines, wrap_line_base shlex_split (pad_with m) wit_doubled 0 80 ind = WrapOk lines /\
                joined lines = Str "x = 'it' 's'" /\
                tscan false true (joined lines) <> tscan false true wit_doubled.
Proof. eexists. split; [reflexivity|]. split; [reflexivity|]. vm_compute. discriminate. Qed.

(* Per tokenizer a generator can use: refuted for shlex_split; claimed for quoted_split e when
   its escape rule e is the target language's esc; for any other e nothing is claimed (True). *)
Definition layout_claim (k : lexkind) (m : ascii) (ind : str) (esc dbl : bool) : Prop :=
  match k with
  | LexShlex => ~ target_ok k m ind esc dbl
  | LexQuoted e => if Bool.eqb e esc then target_ok k m ind esc dbl else True
  end.

Theorem layout_claim_holds k m ind esc dbl : ws_indent ind = true -> layout_claim k m ind esc dbl.
Proof.
  intros Hind. destruct k as [|e]; simpl.
  - apply layout_refuted_shlex.
  - destruct (Bool.eqb e esc) eqn:E; [|exact I].
    apply Bool.eqb_prop in E. subst. apply layout_repaired. assumption.
Qed.

(* Examples: the hypotheses are satisfiable on non-trivial inputs. *)

Local Open Scope string_scope.

Definition ex_line : str := Str "x = f(a) + 'b c' // ""d  e""".

Example ex_lex : shlex_split ex_line = LexOk (map Str ["x"; "="; "f(a)"; "+"; "'b c'"; "//"; """d  e"""]).
Proof. reflexivity. Qed.

Example ex_wrap :
  wrap_line_base shlex_split (pad_with "\") ex_line 1 20 (Str "    ") =
  WrapOk (map Str ["x = f(a) +     \"; "    'b c' //   \"; "    ""d  e"""]).
Proof. reflexivity. Qed.

Example ex_tokens : lex_of LexShlex (joined (map Str ["x = f(a) +     \"; "    'b c' //   \"; "    ""d  e"""]))
                    = lex_of LexShlex ex_line.
Proof. exact (wrap_line_tokens LexShlex "\" ex_line 1 20 (Str "    ") _ eq_refl ex_wrap). Qed.

Example ex_relex : shlex_split (join_sp (map Str ["x"; "="; "f(a)"; "+"; "'b c'"; "//"; """d  e"""]))
                   = LexOk (map Str ["x"; "="; "f(a)"; "+"; "'b c'"; "//"; """d  e"""]).
Proof. exact (lex_relex LexShlex ex_line _ ex_lex). Qed.

Example ex_width_line2 :
  map (fun pg => List.length (snd pg)) (layout_of (Str "    ") 1 20 (map Str ["x"; "="; "f(a)"; "+"; "'b c'"; "//"; """d  e"""]))
  = [4; 2; 1]%nat.
Proof. reflexivity. Qed.

(* the agreement hypothesis of layout_partial holds on ex_line (all literals start a token) *)
Example ex_agree : quoted_split true ex_line = lex_of LexShlex ex_line.
Proof. reflexivity. Qed.

Example ex_layout : tscan true false (joined (map Str ["x = f(a) +     \"; "    'b c' //   \"; "    ""d  e"""]))
                    = tscan true false ex_line.
Proof. exact (layout_partial LexShlex "\" true false ex_line 1 20 (Str "    ") _ eq_refl ex_agree ex_wrap). Qed.

Example ex_disagree : quoted_split true wit_midtoken <> lex_of LexShlex wit_midtoken.
Proof. vm_compute. discriminate. Qed.

(* quoted_split keeps the literal whole *)
Example ex_repaired :
  wrap_line_base (quoted_split true) (pad_with "\") wit_midtoken 0 80 (Str "    ") = WrapOk [wit_midtoken].
Proof. reflexivity. Qed.

Example ex_unterminated : wrap_line_base shlex_split (pad_with "&") (Str "print *, 'a") 0 80 (Str " ") = WrapValueError.
Proof. reflexivity. Qed.
