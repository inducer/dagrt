(* What a run of an expression mapper produces.

   hoist p cond a a' ns N I is a derivation on syntax: a' with the statements ns, which use the names N and the
   ids I, comes from a under the guard cond by the rules of pass p.  It mentions neither a generator state nor a
   user function.  It over-approximates the mappers (h_id may leave any expression alone), which is all that is
   asked of it: whatever holds of every derivation holds of every run.  The pass modes say which rules a pass has
   beside the ones that rebuild a node from its mapped operands: Pfai h_args (the arguments of a call, keywords in
   sorted order, each in mode Parg), Parg h_arg (a variable stays, anything else becomes an assignment of its own),
   Pfci h_call, Pite h_ite in place of h_if.

   Apart from the one-statement summary wspec at the end of the file, runs m R is the only place where the generator
   occurs: every run of m that returns took names N and ids I from the generators (ext), added dependencies among I
   only, and its result, statements, N and I stand in R; it has the rules of the monad (runs_ret, runs_bind,
   runs_fmap).  rspec is runs with R a derivation.  Everything else is an
   induction over the derivation. *)
From Coq Require Import List ZArith NArith String Ascii Bool Arith Lia Permutation.
Import ListNotations.
From Dagrt Require Import Lang LangProofs Sched Transform TransformSem TransformSide TransformBasics TransformHoist
     ListFacts.

Definition swr (n : tstmt) : list var := kind_writes (tkd n).

(* a statement emitted by a mapper: its guard extends the base guard, it writes generated names only *)
Definition emitted (cond : expr) (N : list string) (n : tstmt) : Prop :=
  gext cond (tcond n) /\ incl (swr n) N.

(* the ids of the emitted statements are exactly the generated ids (as multisets) *)
Definition idcount (ns : list tstmt) (I : list string) : Prop :=
  forall x, count_occ string_dec (map tid ns) x = count_occ string_dec I x.

Lemma emitted_weaken cond N N' n : incl N N' -> emitted cond N n -> emitted cond N' n.
Proof. intros HN (A & B). split; [exact A|]. intros x Hx. apply HN, B, Hx. Qed.

Lemma idcount_nil : idcount [] [].
Proof. intros x. reflexivity. Qed.

Lemma idcount_app ns1 ns2 I1 I2 : idcount ns1 I1 -> idcount ns2 I2 -> idcount (ns1 ++ ns2) (I2 ++ I1).
Proof. intros H1 H2 x. rewrite map_app, !count_occ_app, H1, H2. lia. Qed.

Lemma idcount_nodup ns I : idcount ns I -> NoDup I -> NoDup (map tid ns).
Proof.
  intros H HI. apply (NoDup_count_occ string_dec). intros x. rewrite H.
  now apply (NoDup_count_occ string_dec).
Qed.

Lemma bindw_inv {A B} (m : MW A) (f : A -> MW B) st b ns xs st' :
  bindw m f st = TOk (b, ns, xs, st') ->
  exists a ns1 xs1 st1 ns2 xs2,
    m st = TOk (a, ns1, xs1, st1) /\ f a st1 = TOk (b, ns2, xs2, st') /\
    ns = ns1 ++ ns2 /\ xs = xs1 ++ xs2.
Proof.
  unfold bindw. destruct (m st) as [[[[a ns1] xs1] st1]|e] eqn:E1; [|discriminate].
  destruct (f a st1) as [[[[b' ns2] xs2] st2]|e] eqn:E2; [|discriminate].
  intros H. inversion H; subst. exists a, ns1, xs1, st1, ns2, xs2. repeat split; assumption || reflexivity.
Qed.

Lemma retw_inv {A} (a b : A) st ns xs st' :
  retw a st = TOk (b, ns, xs, st') -> b = a /\ ns = [] /\ xs = [] /\ st' = st.
Proof. unfold retw. intros H. inversion H; subst. repeat split; reflexivity. Qed.

Lemma bind_ret_inv {A B} (m : MW A) (f : A -> B) st b ns xs st' :
  bindw m (fun a => retw (f a)) st = TOk (b, ns, xs, st') ->
  exists a, m st = TOk (a, ns, xs, st') /\ b = f a.
Proof.
  intros H. apply bindw_inv in H. destruct H as (a & ns1 & xs1 & st1 & ns2 & xs2 & H1 & H2 & -> & ->).
  apply retw_inv in H2. destruct H2 as (-> & -> & -> & ->). rewrite !app_nil_r. eauto.
Qed.

Inductive pass := Pfai | Parg | Pfci | Pite.

(* the pass keeps a conditional expression and maps its three operands (rule h_if): all but the expander *)
Definition lazy_if (p : pass) : bool := match p with Pite => false | _ => true end.
(* an argument is a variable and stays, or is isolated as a whole (h_arg) *)
Definition structural (p : pass) : bool := match p with Parg => false | _ => true end.

Inductive hoist : pass -> expr -> expr -> expr -> list tstmt -> list var -> list string -> Prop :=
| h_id p cond a : hoist p cond a a [] [] []
| h_not p cond a a' ns N I :
    structural p = true -> hoist p cond a a' ns N I -> hoist p cond (ENot a) (ENot a') ns N I
| h_bin p cond o a b a' b' ns N I :
    structural p = true -> hoists p cond [a; b] [a'; b'] ns N I -> hoist p cond (EBin o a b) (EBin o a' b') ns N I
| h_if p cond c t f c' t' f' ns N I :
    structural p = true -> lazy_if p = true -> hoists p cond [c; t; f] [c'; t'; f'] ns N I ->
    hoist p cond (EIf c t f) (EIf c' t' f') ns N I
| h_nary p cond o l l' ns N I :
    structural p = true -> hoists p cond l l' ns N I -> hoist p cond (ENary o l) (ENary o l') ns N I
| h_arg cond a a' ns N I name id deps :
    is_var a = false -> hoist Pfai cond a a' ns N I ->
    hoist Parg cond a (EVar name) (ns ++ [mkT id deps cond (KAssign name None a' [])]) (N ++ [name]) (I ++ [id])
| h_args cond f kw l lp lk l' ns N I :
    split_at (List.length l - List.length kw) l = (lp, lk) ->
    hoists Parg cond (lp ++ map snd (kw_sort (combine kw lk))) l' ns N I ->
    hoist Pfai cond (ENary (NCall f kw) l) (ENary (NCall f (map fst (kw_sort (combine kw lk)))) l') ns N I
| h_call cond f kw l l' ns N I name id deps pos kv :
    hoists Pfci cond l l' ns N I -> split_at (List.length l' - List.length kw) l' = (pos, kv) ->
    hoist Pfci cond (ENary (NCall f kw) l) (EVar name)
          (ns ++ [mkT id deps cond (KCall [name] f pos (combine kw kv))]) (N ++ [name]) (I ++ [id])
| h_ite cond c t f c' t' f' nc nt nf Nc Nt Nf Ic It If flag res i1 i2 i3 d1 d2 d3 :
    hoist Pite cond c c' nc Nc Ic ->
    hoist Pite (flat_and cond (EVar flag)) t t' nt Nt It ->
    hoist Pite (flat_and cond (ENot (EVar flag))) f f' nf Nf If ->
    hoist Pite cond (EIf c t f) (EVar res)
          (nc ++ [mkT i1 d1 cond (KAssign flag None c' [])] ++ nt ++ nf
              ++ [mkT i2 d2 (flat_and cond (EVar flag)) (KAssign res None t' []);
                  mkT i3 d3 (flat_and cond (ENot (EVar flag))) (KAssign res None f' [])])
          (Nf ++ Nt ++ Nc ++ [res; flag]) (If ++ It ++ Ic ++ [i3; i2; i1])
with hoists : pass -> expr -> list expr -> list expr -> list tstmt -> list var -> list string -> Prop :=
| hs_nil p cond : hoists p cond [] [] [] [] []
| hs_cons p cond a a' l l' ns1 ns2 N1 N2 I1 I2 :
    hoist p cond a a' ns1 N1 I1 -> hoists p cond l l' ns2 N2 I2 ->
    hoists p cond (a :: l) (a' :: l') (ns1 ++ ns2) (N2 ++ N1) (I2 ++ I1).

Scheme hoist_mind := Minimality for hoist Sort Prop
  with hoists_mind := Minimality for hoists Sort Prop.
Combined Scheme hoist_both from hoist_mind, hoists_mind.

Definition runs {A} (m : MW A) (R : A -> list tstmt -> list var -> list string -> Prop) : Prop :=
  forall st a ns xs st', m st = TOk (a, ns, xs, st') -> exists N I, ext st st' N I /\ incl xs I /\ R a ns N I.

Lemma runs_ret {A} (a : A) (R : A -> list tstmt -> list var -> list string -> Prop) : R a [] [] [] -> runs (retw a) R.
Proof.
  intros H st a' ns xs st' E. apply retw_inv in E. destruct E as (-> & -> & -> & ->).
  exists [], []. split; [apply ext_refl|split; [apply incl_refl|exact H]].
Qed.

(* the statements in the order of the run, the names and ids newest first, as ext yields them: the lists of hs_cons *)
Lemma runs_bind {A B} (m : MW A) (f : A -> MW B) R1 (R : B -> list tstmt -> list var -> list string -> Prop) :
  runs m R1 ->
  (forall a ns1 N1 I1, R1 a ns1 N1 I1 -> runs (f a) (fun b ns2 N2 I2 => R b (ns1 ++ ns2) (N2 ++ N1) (I2 ++ I1))) ->
  runs (bindw m f) R.
Proof.
  intros H1 H2 st b ns xs st' E. apply bindw_inv in E.
  destruct E as (a & ns1 & xs1 & st1 & ns2 & xs2 & E1 & E2 & -> & ->).
  destruct (H1 _ _ _ _ _ E1) as (N1 & I1 & X1 & S1 & D1). destruct (H2 _ _ _ _ D1 _ _ _ _ _ E2) as (N2 & I2 & X2 & S2 & D2).
  exists (N2 ++ N1), (I2 ++ I1). split; [exact (ext_trans _ _ _ _ _ _ _ X1 X2)|split; [|exact D2]].
  apply incl_app; [now apply incl_appr|now apply incl_appl].
Qed.

Lemma runs_fmap {A B} (m : MW A) (g : A -> B) R1 (R : B -> list tstmt -> list var -> list string -> Prop) :
  runs m R1 -> (forall a ns N I, R1 a ns N I -> R (g a) ns N I) -> runs (bindw m (fun a => retw (g a))) R.
Proof.
  intros H Hg st b ns xs st' E. apply bind_ret_inv in E. destruct E as (a & E & ->).
  destruct (H _ _ _ _ _ E) as (N & I & X & S & D). exists N, I. split; [exact X|split; [exact S|now apply Hg]].
Qed.

Definition rspec (p : pass) (cond a : expr) (m : MW expr) : Prop := runs m (hoist p cond a).

Definition rspecs (p : pass) (cond : expr) (l : list expr) (m : MW (list expr)) : Prop := runs m (hoists p cond l).

Lemma rspec_ret p cond a : rspec p cond a (retw a).
Proof. apply runs_ret. constructor. Qed.

Lemma rspecs_seqw p cond l ms : Forall2 (rspec p cond) l ms -> rspecs p cond l (seqw ms).
Proof.
  induction 1 as [|a m l ms Ha _ IH]; [apply runs_ret; constructor|].
  apply (runs_bind _ _ _ _ Ha). intros a' ns1 N1 I1 D1. apply (runs_fmap _ _ _ _ IH). intros r' ns2 N2 I2 D2.
  now constructor.
Qed.

Lemma rspecs_map p cond (f : expr -> MW expr) l :
  Forall (fun a => rspec p cond a (f a)) l -> rspecs p cond l (seqw (map f l)).
Proof. intros H. now apply rspecs_seqw, Forall2_map_r. Qed.

(* a node whose operands are mapped from left to right and which is built again from the results *)
Lemma rspec_node p q cond l ms (g : list expr -> expr) e :
  (forall l' ns N I, hoists q cond l l' ns N I -> hoist p cond e (g l') ns N I) ->
  rspecs q cond l (seqw ms) -> rspec p cond e (bindw (seqw ms) (fun l' => retw (g l'))).
Proof. intros Hg H. exact (runs_fmap _ _ _ _ H Hg). Qed.

Lemma rspec_not p cond a m :
  structural p = true -> rspec p cond a m -> rspec p cond (ENot a) (bindw m (fun a' => retw (ENot a'))).
Proof. intros Hp H. apply (runs_fmap _ _ _ _ H). intros a' ns N I D. now constructor. Qed.

Lemma rspec_bin p cond o a b m1 m2 :
  structural p = true -> rspec p cond a m1 -> rspec p cond b m2 ->
  rspec p cond (EBin o a b) (bindw m1 (fun a' => bindw m2 (fun b' => retw (EBin o a' b')))).
Proof.
  intros Hp H1 H2. apply (runs_bind _ _ _ _ H1). intros a' ns1 N1 I1 D1. apply (runs_bind _ _ _ _ H2).
  intros b' ns2 N2 I2 D2. apply runs_ret. apply h_bin; [exact Hp|].
  exact (hs_cons _ _ _ _ _ _ _ _ _ _ _ _ D1 (hs_cons _ _ _ _ _ _ _ _ _ _ _ _ D2 (hs_nil _ _))).
Qed.

Lemma rspec_if p cond c t f mc mt mf :
  structural p = true -> lazy_if p = true -> rspec p cond c mc -> rspec p cond t mt -> rspec p cond f mf ->
  rspec p cond (EIf c t f) (bindw mc (fun c' => bindw mt (fun t' => bindw mf (fun f' => retw (EIf c' t' f'))))).
Proof.
  intros Hs Hp H1 H2 H3. apply (runs_bind _ _ _ _ H1). intros c' ns1 N1 I1 D1. apply (runs_bind _ _ _ _ H2).
  intros t' ns2 N2 I2 D2. apply (runs_bind _ _ _ _ H3). intros f' ns3 N3 I3 D3. apply runs_ret.
  apply h_if; [exact Hs|exact Hp|].
  exact (hs_cons _ _ _ _ _ _ _ _ _ _ _ _ D1 (hs_cons _ _ _ _ _ _ _ _ _ _ _ _ D2 (hs_cons _ _ _ _ _ _ _ _ _ _ _ _ D3 (hs_nil _ _)))).
Qed.

(* V, V': the variables of what was mapped and of what stands for it *)
Definition shape (cond : expr) (V V' : list var) (ns : list tstmt) (N : list var) (I : list string) : Prop :=
  Forall (emitted cond N) ns /\ idcount ns I /\ incl V' (V ++ N).

Lemma emitted_mono c g N N' ns : gext c g -> incl N N' -> Forall (emitted g N) ns -> Forall (emitted c N') ns.
Proof.
  intros Hg Hi. apply Forall_impl. intros n H. destruct (emitted_weaken _ _ _ _ Hi H) as [A B].
  split; [exact (gext_trans _ _ _ Hg A)|exact B].
Qed.

Lemma emitted_guarded cond N ns : Forall (emitted cond N) ns -> guarded cond ns.
Proof. apply Forall_impl. now intros n [A _]. Qed.

Lemma emitted_one cond N n : tcond n = cond -> incl (swr n) N -> emitted cond N n.
Proof. intros <- H. split; [apply gext_refl|exact H]. Qed.

Lemma shape_nil cond V : shape cond V V [] [] [].
Proof. split; [constructor|split; [apply idcount_nil|now apply incl_appl]]. Qed.

Lemma shape_app cond V1 V1' ns1 N1 I1 V2 V2' ns2 N2 I2 :
  shape cond V1 V1' ns1 N1 I1 -> shape cond V2 V2' ns2 N2 I2 ->
  shape cond (V1 ++ V2) (V1' ++ V2') (ns1 ++ ns2) (N2 ++ N1) (I2 ++ I1).
Proof.
  intros (G1 & D1 & W1) (G2 & D2 & W2). split; [|split].
  - apply Forall_app. split; [refine (emitted_mono _ _ _ _ _ (gext_refl cond) _ G1); now apply incl_appr|].
    refine (emitted_mono _ _ _ _ _ (gext_refl cond) _ G2). now apply incl_appl.
  - now apply idcount_app.
  - intros x Hx. rewrite !in_app_iff in *. destruct Hx as [Hx|Hx]; [apply W1 in Hx|apply W2 in Hx];
      rewrite in_app_iff in Hx; tauto.
Qed.

Lemma shape_snoc cond V V' ns N I n name :
  shape cond V V' ns N I -> tcond n = cond -> swr n = [name] ->
  shape cond V [name] (ns ++ [n]) (N ++ [name]) (I ++ [tid n]).
Proof.
  intros (G & D & _) Hc Hw. split; [|split].
  - apply Forall_app. split; [exact (emitted_mono _ _ _ _ _ (gext_refl cond) (incl_appl _ (incl_refl N)) G)|].
    constructor; [|constructor]. apply emitted_one; [exact Hc|]. rewrite Hw. now apply incl_appr.
  - intros x. rewrite map_app, !count_occ_app, D. reflexivity.
  - now apply incl_appr, incl_appr.
Qed.

Lemma shape_ite cond V Vc Vc' Vt Vt' Vf Vf' flag res nc nt nf Nc Nt Nf Ic It If s1 s2 s3 :
  let tcnd := flat_and cond (EVar flag) in
  let fcnd := flat_and cond (ENot (EVar flag)) in
  shape cond Vc Vc' nc Nc Ic -> shape tcnd Vt Vt' nt Nt It -> shape fcnd Vf Vf' nf Nf If ->
  tcond s1 = cond -> swr s1 = [flag] -> tcond s2 = tcnd -> swr s2 = [res] -> tcond s3 = fcnd -> swr s3 = [res] ->
  shape cond V [res] (nc ++ [s1] ++ nt ++ nf ++ [s2; s3]) (Nf ++ Nt ++ Nc ++ [res; flag])
        (If ++ It ++ Ic ++ [tid s3; tid s2; tid s1]).
Proof.
  intros tcnd fcnd (Gc & Dc & _) (Gt & Dt & _) (Gf & Df & _) C1 W1 C2 W2 C3 W3.
  pose proof (gext_flat_and cond (EVar flag)) as Wt. pose proof (gext_flat_and cond (ENot (EVar flag))) as Wf.
  set (Nall := Nf ++ Nt ++ Nc ++ [res; flag]).
  assert (Hres : incl [res] Nall) by (intros x [<-|[]]; unfold Nall; rewrite !in_app_iff; cbn; tauto).
  assert (Hflag : incl [flag] Nall) by (intros x [<-|[]]; unfold Nall; rewrite !in_app_iff; cbn; tauto).
  split; [|split; [|exact (incl_appr _ Hres)]].
  - apply Forall_app. split.
    { refine (emitted_mono _ _ _ _ _ (gext_refl cond) _ Gc). now apply incl_appr, incl_appr, incl_appl. }
    constructor; [apply emitted_one; [exact C1|now rewrite W1]|].
    apply Forall_app. split; [refine (emitted_mono _ _ _ _ _ Wt _ Gt); now apply incl_appr, incl_appl|].
    apply Forall_app. split; [refine (emitted_mono _ _ _ _ _ Wf _ Gf); now apply incl_appl|].
    constructor; [split; [now rewrite C2|now rewrite W2]|constructor; [split; [now rewrite C3|now rewrite W3]|constructor]].
  - intros x. rewrite !map_app, !count_occ_app. cbn [count_occ map]. rewrite ?count_occ_app, Dc, Dt, Df.
    cbn [count_occ]. destruct (string_dec (tid s1) x), (string_dec (tid s2) x), (string_dec (tid s3) x); lia.
Qed.

Lemma hoist_shape :
  (forall p cond a a' ns N I, hoist p cond a a' ns N I -> shape cond (vars a) (vars a') ns N I) /\
  (forall p cond l l' ns N I, hoists p cond l l' ns N I ->
     shape cond (flat_map vars l) (flat_map vars l') ns N I /\ List.length l' = List.length l).
Proof.
  apply hoist_both; cbn [vars flat_map]; try (intros; assumption).
  - intros p cond a. apply shape_nil.
  - intros p cond o a b a' b' ns N I _ _ [H _]. now rewrite !app_nil_r in H.
  - intros p cond c t f c' t' f' ns N I _ _ _ [H _]. now rewrite !app_nil_r in H.
  - intros p cond o l l' ns N I _ _ [H _]. exact H.
  - intros cond a a' ns N I name id deps _ _ H.
    now apply (shape_snoc cond _ _ ns N I (mkT id deps cond _) name H).
  - intros cond f kw l lp lk l' ns N I Es _ [(G & D & V) _]. split; [exact G|split; [exact D|]].
    apply (incl_tran V), incl_app; [apply incl_appl|now apply incl_appr].
    exact (flat_map_incl vars _ _ (args_incl kw l lp lk _ Es)).
  - intros cond f kw l l' ns N I name id deps p kv _ [H _] _.
    now apply (shape_snoc cond _ _ ns N I (mkT id deps cond _) name H).
  - intros cond c t f c' t' f' nc nt nf Nc Nt Nf Ic It If flag res i1 i2 i3 d1 d2 d3 _ Hc _ Ht _ Hf.
    now apply (shape_ite cond _ _ _ _ _ _ _ flag res nc nt nf Nc Nt Nf Ic It If (mkT i1 d1 _ _) (mkT i2 d2 _ _)
                         (mkT i3 d3 _ _) Hc Ht Hf).
  - intros p cond. split; [apply shape_nil|reflexivity].
  - intros p cond a a' l l' ns1 ns2 N1 N2 I1 I2 _ H1 _ [H2 Len]. split; [now apply shape_app|cbn; now rewrite Len].
Qed.

Lemma hoist_emitted {p cond a a' ns N I} : hoist p cond a a' ns N I -> Forall (emitted cond N) ns.
Proof. apply hoist_shape. Qed.
Lemma hoist_idcount {p cond a a' ns N I} : hoist p cond a a' ns N I -> idcount ns I.
Proof. apply hoist_shape. Qed.
Lemma hoist_vars {p cond a a' ns N I} : hoist p cond a a' ns N I -> incl (vars a') (vars a ++ N).
Proof. apply hoist_shape. Qed.
Lemma hoist_guarded {p cond a a' ns N I} : hoist p cond a a' ns N I -> guarded cond ns.
Proof. intros H. exact (emitted_guarded _ _ _ (hoist_emitted H)). Qed.
Lemma hoists_emitted {p cond l l' ns N I} : hoists p cond l l' ns N I -> Forall (emitted cond N) ns.
Proof. apply hoist_shape. Qed.
Lemma hoists_idcount {p cond l l' ns N I} : hoists p cond l l' ns N I -> idcount ns I.
Proof. apply hoist_shape. Qed.
Lemma hoists_vars {p cond l l' ns N I} :
  hoists p cond l l' ns N I -> incl (flat_map vars l') (flat_map vars l ++ N).
Proof. apply hoist_shape. Qed.
Lemma hoists_length {p cond l l' ns N I} : hoists p cond l l' ns N I -> List.length l' = List.length l.
Proof. apply hoist_shape. Qed.

(* pass p leaves e alone *)
Definition cleanp (p : pass) (e : expr) : bool :=
  match p with
  | Pfai => fai_clean e && kw_sorted e && arity_ok e
  | Parg => is_var e
  | Pfci => negb (has_call e)
  | Pite => negb (has_if e)
  end.

Lemma forallb_and {A} (f g : A -> bool) l : forallb (fun x => f x && g x) l = forallb f l && forallb g l.
Proof.
  induction l as [|x l IH]; [reflexivity|]. cbn. rewrite IH.
  destruct (f x), (g x), (forallb f l), (forallb g l); reflexivity.
Qed.

Lemma negb_existsb {A} (f : A -> bool) l : negb (existsb f l) = forallb (fun x => negb (f x)) l.
Proof. induction l as [|x l IH]; [reflexivity|]. cbn. now rewrite negb_orb, IH. Qed.

(* a hypothesis b1 && ... && bn = true is taken apart into its conjuncts, a goal of that form is put together from
   them *)
Ltac bools :=
  intros; repeat match goal with H : _ && _ = true |- _ => apply andb_prop in H; destruct H end;
  repeat split; repeat (apply andb_true_intro; split); solve [assumption | reflexivity].

Lemma cleanp_not p a : structural p = true -> cleanp p (ENot a) = cleanp p a.
Proof. destruct p; try discriminate; reflexivity. Qed.

Lemma cleanp_bin p o a b : structural p = true -> cleanp p (EBin o a b) = true -> forallb (cleanp p) [a; b] = true.
Proof.
  destruct p; try discriminate; intros _; cbn [cleanp fai_clean kw_sorted arity_ok has_call has_if forallb];
    rewrite ?negb_orb; bools.
Qed.

Lemma cleanp_if p c t f :
  structural p = true -> lazy_if p = true -> cleanp p (EIf c t f) = true -> forallb (cleanp p) [c; t; f] = true.
Proof.
  destruct p; try discriminate; intros _ _; cbn [cleanp fai_clean kw_sorted arity_ok has_call forallb];
    rewrite ?negb_orb; bools.
Qed.

Lemma cleanp_nary p o l : structural p = true -> cleanp p (ENary o l) = true -> forallb (cleanp p) l = true.
Proof.
  destruct p; try discriminate; intros _; cbn [cleanp fai_clean kw_sorted arity_ok has_call has_if].
  - change (cleanp Pfai) with (fun e => fai_clean e && kw_sorted e && arity_ok e).
    rewrite !forallb_and. bools.
  - change (cleanp Pfci) with (fun e => negb (has_call e)). destruct o; try discriminate; now rewrite negb_existsb.
  - change (cleanp Pite) with (fun e => negb (has_if e)). now rewrite negb_existsb.
Qed.

Lemma cleanp_args f kw l :
  cleanp Pfai (ENary (NCall f kw) l) = true ->
  forallb (cleanp Parg) l = true /\ sorted_keys kw = true /\ (List.length kw <= List.length l)%nat.
Proof.
  cbn [cleanp fai_clean kw_sorted arity_ok]. intros H. rewrite <- Nat.leb_le. revert H. bools.
Qed.

Lemma hoist_clean :
  (forall p cond a a' ns N I, hoist p cond a a' ns N I ->
     cleanp p a = true -> a' = a /\ ns = [] /\ N = [] /\ I = []) /\
  (forall p cond l l' ns N I, hoists p cond l l' ns N I ->
     forallb (cleanp p) l = true -> l' = l /\ ns = [] /\ N = [] /\ I = []).
Proof.
  apply hoist_both; try (intros; discriminate); try (intros; repeat split; reflexivity).
  - intros p cond a a' ns N I Hp _ IH H. rewrite cleanp_not in H by exact Hp. now destruct (IH H) as (-> & R).
  - intros p cond o a b a' b' ns N I Hp _ IH H. destruct (IH (cleanp_bin p o a b Hp H)) as (E & R). now inversion E.
  - intros p cond c t f c' t' f' ns N I Hp Hl _ IH H. destruct (IH (cleanp_if p c t f Hp Hl H)) as (E & R). now inversion E.
  - intros p cond o l l' ns N I Hp _ IH H. now destruct (IH (cleanp_nary p o l Hp H)) as (-> & R).
  - intros cond a a' ns N I name id deps Hv _ _ H. cbn in H. congruence.
  - intros cond f kw l lp lk l' ns N I Es _ IH H. destruct (cleanp_args f kw l H) as (Hv & Hk & Ha).
    destruct (args_sorted kw l lp lk Hk Ha Es) as [E1 E2]. rewrite E1, E2 in *. now destruct (IH Hv) as (-> & R).
  - intros p cond a a' l l' ns1 ns2 N1 N2 I1 I2 _ IH1 _ IH2 H. cbn [forallb] in H. apply andb_prop in H.
    destruct H as [H1 H2]. destruct (IH1 H1) as (-> & -> & -> & ->). now destruct (IH2 H2) as (-> & -> & -> & ->).
Qed.

Lemma hoists_clean {p cond l l' ns N I} :
  hoists p cond l l' ns N I -> forallb (cleanp p) l = true -> l' = l /\ ns = [] /\ N = [] /\ I = [].
Proof. apply hoist_clean. Qed.

(* the side conditions of the semantic theorem: what fai_leaf, fci_leaf, ite_leaf (model/TransformSide.v) ask of
   every expression of a statement *)
Definition okp (p : pass) (e : expr) : bool :=
  match p with
  | Pfai | Parg => fai_ok e && kw_sorted e && arity_ok e
  | Pfci => fci_ok e && arity_ok e
  | Pite => ite_ok e
  end.

Lemma okp_not p a : structural p = true -> okp p (ENot a) = okp p a.
Proof. destruct p; try discriminate; reflexivity. Qed.

Lemma okp_bin p o a b : structural p = true -> okp p (EBin o a b) = true -> forallb (okp p) [a; b] = true.
Proof.
  destruct p; try discriminate; intros _; unfold okp, fai_ok, fci_ok, ite_ok; cbn [strict_ok kw_sorted arity_ok forallb];
    bools.
Qed.

Lemma okp_if p c t f :
  structural p = true -> lazy_if p = true -> okp p (EIf c t f) = true ->
  okp p c = true /\ forallb (cleanp p) [t; f] = true.
Proof.
  destruct p; try discriminate; intros _ _; unfold okp, fai_ok, fci_ok; cbn [strict_ok kw_sorted arity_ok forallb cleanp];
    bools.
Qed.

Lemma okp_strict p o l :
  structural p = true -> is_lazy o = false -> okp p (ENary o l) = true -> forallb (okp p) l = true.
Proof.
  destruct p; try discriminate; intros _ Ho; unfold okp, fai_ok, fci_ok, ite_ok; cbn [strict_ok kw_sorted arity_ok];
    rewrite Ho.
  - change (okp Pfai) with (fun e => strict_ok fai_clean true e && kw_sorted e && arity_ok e).
    rewrite !forallb_and. bools.
  - change (okp Pfci) with (fun e => strict_ok (fun e => negb (has_call e)) true e && arity_ok e).
    rewrite !forallb_and. bools.
  - auto.
Qed.

Lemma okp_lazy p o a r :
  structural p = true -> is_lazy o = true -> okp p (ENary o (a :: r)) = true ->
  okp p a = true /\ forallb (cleanp p) r = true.
Proof.
  destruct p; try discriminate; intros _ Ho; unfold okp, fai_ok, fci_ok, ite_ok;
    cbn [strict_ok kw_sorted arity_ok forallb]; rewrite Ho.
  - change (cleanp Pfai) with (fun e => fai_clean e && kw_sorted e && arity_ok e).
    rewrite !forallb_and. bools.
  - bools.
  - bools.
Qed.

Lemma okp_args f kw l :
  okp Pfai (ENary (NCall f kw) l) = true ->
  forallb (okp Parg) l = true /\ sorted_keys kw = true /\ (List.length kw <= List.length l)%nat.
Proof.
  intros H. split; [exact (okp_strict Pfai (NCall f kw) l eq_refl eq_refl H)|]. rewrite <- Nat.leb_le. revert H.
  unfold okp. cbn [kw_sorted arity_ok]. bools.
Qed.

Lemma okp_call f kw l :
  okp Pfci (ENary (NCall f kw) l) = true -> forallb (okp Pfci) l = true /\ (List.length kw <= List.length l)%nat.
Proof.
  intros H. split; [exact (okp_strict Pfci (NCall f kw) l eq_refl eq_refl H)|]. rewrite <- Nat.leb_le. revert H.
  unfold okp. cbn [arity_ok]. bools.
Qed.

Lemma okp_ite c t f : okp Pite (EIf c t f) = true -> okp Pite c = true /\ okp Pite t = true /\ okp Pite f = true.
Proof. unfold okp, ite_ok. cbn [strict_ok]. bools. Qed.

Section Sem.
  Variable F : string -> list val -> list (string * val) -> option (list val).
  Variable dg : bool.

  (* K stands for the names the generator knew before the run *)
  Definition sem (p : pass) (cond a a' : expr) (ns : list tstmt) (N : list var) : Prop :=
    okp p a = true -> forall K, incl (vars a) K -> incl (vars cond) K -> fresh_for K N ->
    hoisted F dg cond a a' ns N.

  (* the second half is for a node that evaluates its later operands only when needed: they must be left alone,
     and then the first operand alone is hoisted *)
  Definition sems (p : pass) (cond : expr) (l l' : list expr) (ns : list tstmt) (N : list var) : Prop :=
    forall K, incl (flat_map vars l) K -> incl (vars cond) K -> fresh_for K N ->
    (forallb (okp p) l = true -> hoisted_list F dg cond l l' ns N) /\
    (forall a r, l = a :: r -> okp p a = true -> forallb (cleanp p) r = true ->
                 exists a', l' = a' :: r /\ hoisted F dg cond a a' ns N).

  Lemma sem_not p cond a a' ns N : structural p = true -> sem p cond a a' ns N -> sem p cond (ENot a) (ENot a') ns N.
  Proof. intros Hp IH Hok K Ha Hc Fr. rewrite okp_not in Hok by exact Hp. apply hoisted_not. now apply (IH Hok K). Qed.

  Lemma sem_bin p cond o a b a' b' ns N :
    structural p = true -> sems p cond [a; b] [a'; b'] ns N -> sem p cond (EBin o a b) (EBin o a' b') ns N.
  Proof.
    intros Hp IH Hok K Ha Hc Fr. cbn [vars] in Ha. apply hoisted_bin.
    apply (IH K); [cbn [flat_map]; now rewrite app_nil_r|exact Hc|exact Fr|]. now apply (okp_bin p o).
  Qed.

  Lemma sem_if p cond c t f c' t' f' ns N :
    structural p = true -> lazy_if p = true -> sems p cond [c; t; f] [c'; t'; f'] ns N ->
    sem p cond (EIf c t f) (EIf c' t' f') ns N.
  Proof.
    intros Hp Hl IH Hok K Ha Hc Fr. cbn [vars] in Ha. destruct (okp_if p c t f Hp Hl Hok) as [Hc0 Hcl].
    destruct (IH K) as [_ IH2]; [cbn [flat_map]; now rewrite app_nil_r|exact Hc|exact Fr|].
    destruct (IH2 c [t; f] eq_refl Hc0 Hcl) as (c'' & E & Hh). inversion E; subst c'' t' f'.
    apply hoisted_if_head; [exact Hh|]. apply (fresh_off K _ N Fr). intros x Hx. apply Ha, in_app_iff. now right.
  Qed.

  Lemma sem_nary p cond o l l' ns N I :
    structural p = true -> hoists p cond l l' ns N I -> sems p cond l l' ns N ->
    sem p cond (ENary o l) (ENary o l') ns N.
  Proof.
    intros Hp Hd IH Hok K Ha Hc Fr. cbn [vars] in Ha. destruct (IH K Ha Hc Fr) as [IH1 IH2].
    destruct (is_lazy o) eqn:Ho; [|apply hoisted_strict; [exact Ho|]; apply IH1; now apply (okp_strict p o)].
    destruct l as [|a r]; [destruct (hoists_clean Hd eq_refl) as (-> & -> & -> & _); apply hoisted_id|].
    destruct (okp_lazy p o a r Hp Ho Hok) as [Ha0 Hcl]. destruct (IH2 a r eq_refl Ha0 Hcl) as (a' & -> & Hh).
    assert (Dj : forall x, In x N -> ~ In x (flat_map vars r)).
    { apply (fresh_off K _ N Fr). intros x Hx. apply Ha. cbn. apply in_app_iff. now right. }
    now apply hoisted_lazy_head.
  Qed.

  Lemma sem_arg cond a a' ns N name id deps :
    sem Pfai cond a a' ns N ->
    sem Parg cond a (EVar name) (ns ++ [mkT id deps cond (KAssign name None a' [])]) (N ++ [name]).
  Proof.
    intros IH Hok K Ha Hc Fr. apply fresh_for_app_inv in Fr. destruct Fr as [_ Fr]. apply hoisted_assign.
    - apply (IH Hok ([name] ++ K)); [now apply incl_appr|now apply incl_appr|exact Fr].
    - apply (fresh_off _ _ N Fr). now apply incl_appr.
  Qed.

  Lemma sem_args cond f kw l lp lk l' ns N :
    split_at (List.length l - List.length kw) l = (lp, lk) ->
    sems Parg cond (lp ++ map snd (kw_sort (combine kw lk))) l' ns N ->
    sem Pfai cond (ENary (NCall f kw) l) (ENary (NCall f (map fst (kw_sort (combine kw lk)))) l') ns N.
  Proof.
    intros Es IH Hok K Ha Hc Fr. cbn [vars] in Ha. destruct (okp_args f kw l Hok) as (Hl & Hk & Har).
    destruct (args_sorted kw l lp lk Hk Har Es) as [E1 E2]. rewrite E1, E2 in *.
    apply hoisted_strict; [reflexivity|]. now apply (IH K).
  Qed.

  Lemma sem_call cond f kw l l' ns N I name id deps pos kv :
    hoists Pfci cond l l' ns N I -> sems Pfci cond l l' ns N ->
    split_at (List.length l' - List.length kw) l' = (pos, kv) ->
    sem Pfci cond (ENary (NCall f kw) l) (EVar name)
        (ns ++ [mkT id deps cond (KCall [name] f pos (combine kw kv))]) (N ++ [name]).
  Proof.
    intros Hd IH Es Hok K Ha Hc Fr. cbn [vars] in Ha. destruct (okp_call f kw l Hok) as [Hl Har].
    apply fresh_for_app_inv in Fr. destruct Fr as [_ Fr].
    apply (hoisted_call F dg cond f kw l l' ns N name id deps pos kv).
    - apply (IH ([name] ++ K)); [now apply incl_appr|now apply incl_appr|exact Fr|exact Hl].
    - exact Es.
    - now rewrite (hoists_length Hd).
    - apply (fresh_off _ _ N Fr). now apply incl_appr.
  Qed.

  (* every name is new to K, which holds cond, c, t and f; the flag is known from its generation on *)
  Lemma sem_ite cond c t f c' t' f' nc nt nf Nc Nt Nf flag res i1 i2 i3 d1 d2 d3 :
    let tcnd := flat_and cond (EVar flag) in
    let fcnd := flat_and cond (ENot (EVar flag)) in
    sem Pite cond c c' nc Nc -> sem Pite tcnd t t' nt Nt -> sem Pite fcnd f f' nf Nf ->
    guarded tcnd nt -> guarded fcnd nf ->
    sem Pite cond (EIf c t f) (EVar res)
        (nc ++ [mkT i1 d1 cond (KAssign flag None c' [])] ++ nt ++ nf
            ++ [mkT i2 d2 tcnd (KAssign res None t' []); mkT i3 d3 fcnd (KAssign res None f' [])])
        (Nf ++ Nt ++ Nc ++ [res; flag]).
  Proof.
    intros tcnd fcnd IHc IHt IHf Gt Gf Hok K Ha Hc Fr. cbn [vars] in Ha.
    destruct (okp_ite c t f Hok) as (Hoc & Hot & Hof).
    apply incl_app_inv in Ha. destruct Ha as [Hvc Ha]. apply incl_app_inv in Ha. destruct Ha as [Hvt Hvf].
    pose proof Fr as Fr0.
    apply fresh_for_app_inv in Fr. destruct Fr as [Fr Ff]. apply fresh_for_app_inv in Fr. destruct Fr as [Fr Ft].
    apply fresh_for_app_inv in Fr. destruct Fr as [_ Fc].
    assert (Fl : forall A, incl [flag] ((A ++ [res; flag]) ++ K))
      by (intros A x [<-|[]]; rewrite !in_app_iff; cbn; tauto).
    apply hoisted_ite_fresh; [| | |exact Gt|exact Gf|].
    - apply (IHc Hoc ([res; flag] ++ K)); [now apply incl_appr|now apply incl_appr|exact Fc].
    - apply (IHt Hot ((Nc ++ [res; flag]) ++ K)); [now apply incl_appr| |exact Ft].
      apply incl_vars_flat_and; [now apply incl_appr|apply Fl].
    - apply (IHf Hof ((Nt ++ Nc ++ [res; flag]) ++ K)); [now apply incl_appr| |exact Ff].
      apply incl_vars_flat_and; [now apply incl_appr|rewrite app_assoc; apply Fl].
    - exact (fresh_for_incl _ _ _ (incl_app Hc (incl_app Hvt Hvf)) Fr0).
  Qed.

  Lemma sems_cons p cond a a' l l' ns1 ns2 N1 N2 I1 I2 :
    hoist p cond a a' ns1 N1 I1 -> sem p cond a a' ns1 N1 -> hoists p cond l l' ns2 N2 I2 -> sems p cond l l' ns2 N2 ->
    sems p cond (a :: l) (a' :: l') (ns1 ++ ns2) (N2 ++ N1).
  Proof.
    intros D1 IH1 D2 IH2 K Ha Hc Fr. cbn [flat_map] in Ha. apply incl_app_inv in Ha. destruct Ha as [Hva Hvl].
    apply fresh_for_app_inv in Fr. destruct Fr as [F1 F2].
    destruct (IH2 (N1 ++ K)) as [IH2a _]; [now apply incl_appr|now apply incl_appr|exact F2|].
    split.
    - intros Hok. cbn [forallb] in Hok. apply andb_prop in Hok. destruct Hok as [Hoa Hol].
      apply hoisted_cons; [now apply (IH1 Hoa K)|now apply IH2a| |].
      + intros x Hx. split; [exact (fresh_off K _ N1 F1 Hvl x Hx)|exact (fresh_off K _ N1 F1 Hc x Hx)].
      + apply (fresh_off _ _ N2 F2). apply (incl_tran (hoist_vars D1)), incl_app; [now apply incl_appr|now apply incl_appl].
    - intros a0 r E Hoa Hcl. inversion E; subst a0 r. destruct (hoists_clean D2 Hcl) as (-> & -> & -> & _).
      exists a'. split; [reflexivity|]. rewrite app_nil_r. now apply (IH1 Hoa K).
  Qed.

  Lemma hoist_sem :
    (forall p cond a a' ns N I, hoist p cond a a' ns N I -> sem p cond a a' ns N) /\
    (forall p cond l l' ns N I, hoists p cond l l' ns N I -> sems p cond l l' ns N).
  Proof.
    apply hoist_both.
    - intros p cond a _ K _ _ _. apply hoisted_id.
    - intros p cond a a' ns N I Hp _. now apply sem_not.
    - intros p cond o a b a' b' ns N I Hp _. now apply sem_bin.
    - intros p cond c t f c' t' f' ns N I Hp Hl _. now apply sem_if.
    - intros p cond o l l' ns N I Hp Hd. now apply (sem_nary p cond o l l' ns N I).
    - intros cond a a' ns N I name id deps _ _. apply sem_arg.
    - intros cond f kw l lp lk l' ns N I Es _. now apply sem_args.
    - intros cond f kw l l' ns N I name id deps p kv Hd IH Es. now apply (sem_call cond f kw l l' ns N I).
    - intros cond c t f c' t' f' nc nt nf Nc Nt Nf Ic It If flag res i1 i2 i3 d1 d2 d3 _ IHc Dt IHt Df IHf.
      exact (sem_ite cond c t f c' t' f' nc nt nf Nc Nt Nf flag res i1 i2 i3 d1 d2 d3 IHc IHt IHf
                     (hoist_guarded Dt) (hoist_guarded Df)).
    - intros p cond K _ _ _. split; [intros _; apply hoisted_list_nil|intros a r E; discriminate].
    - intros p cond a a' l l' ns1 ns2 N1 N2 I1 I2 D1 IH1 D2 IH2. exact (sems_cons _ _ _ _ _ _ _ _ _ _ _ _ D1 IH1 D2 IH2).
  Qed.

  Lemma hoist_hoisted {p cond a a' ns N I} :
    hoist p cond a a' ns N I -> okp p a = true ->
    forall K, incl (vars a) K -> incl (vars cond) K -> fresh_for K N -> hoisted F dg cond a a' ns N.
  Proof. apply hoist_sem. Qed.

  Lemma hoists_sems {p cond l l' ns N I} : hoists p cond l l' ns N I -> sems p cond l l' ns N.
  Proof. apply hoist_sem. Qed.

  Lemma hoists_hoisted {p cond l l' ns N I} :
    hoists p cond l l' ns N I -> forallb (okp p) l = true ->
    forall K, incl (flat_map vars l) K -> incl (vars cond) K -> fresh_for K N -> hoisted_list F dg cond l l' ns N.
  Proof. intros H Hok K Ha Hc Fr. now apply (hoists_sems H K). Qed.
End Sem.

Definition cid (a : expr) (m : MW expr) : Prop := forall st, m st = TOk (a, [], [], st).

Lemma retw_cid a : cid a (retw a).
Proof. intros st. reflexivity. Qed.

Lemma seqw_cid l ms : Forall2 cid l ms -> forall st, seqw ms st = TOk (l, [], [], st).
Proof.
  induction 1 as [|a m l ms Ha _ IH]; intros st; [reflexivity|].
  cbn [seqw]. unfold bindw at 1. rewrite Ha. unfold bindw at 1. rewrite IH. reflexivity.
Qed.

Lemma cid_not a m : cid a m -> cid (ENot a) (bindw m (fun a' => retw (ENot a'))).
Proof. intros H st. unfold bindw. now rewrite H. Qed.

Lemma cid_bin o a b m1 m2 :
  cid a m1 -> cid b m2 -> cid (EBin o a b) (bindw m1 (fun a' => bindw m2 (fun b' => retw (EBin o a' b')))).
Proof. intros H1 H2 st. unfold bindw. now rewrite H1, H2. Qed.

Lemma cid_if c t e mc mt me :
  cid c mc -> cid t mt -> cid e me ->
  cid (EIf c t e) (bindw mc (fun c' => bindw mt (fun t' => bindw me (fun e' => retw (EIf c' t' e'))))).
Proof. intros H1 H2 H3 st. unfold bindw. now rewrite H1, H2, H3. Qed.

Lemma cid_nary o l ms : Forall2 cid l ms -> cid (ENary o l) (bindw (seqw ms) (fun l' => retw (ENary o l'))).
Proof. intros H st. unfold bindw. now rewrite (seqw_cid l ms H). Qed.

Section OneCall.
  Variable F : string -> list val -> list (string * val) -> option (list val).
  Variable dg : bool.

  (* One call of a mapper on a, in one statement: a' with the statements ns stands for a.  That the generated names
     N occur neither in a nor in cond follows from ext only if the generator knows the variables of both, hence the
     two inclusions in front of hoisted.  Nothing rests on wspec / cspec (nor on kspec, TransformStmt, and yspec,
     TransformSyn): the theorems go through rspec. *)
  Definition wspec (cond a : expr) (st : gst) (a' : expr) (ns : list tstmt) (xs : list string) (st' : gst)
    : Prop :=
    exists N I,
      ext st st' N I /\
      incl (vars a') (vars a ++ N) /\
      Forall (emitted cond N) ns /\
      idcount ns I /\
      incl xs I /\
      (incl (vars a) (ex (gvars st)) -> incl (vars cond) (ex (gvars st)) -> hoisted F dg cond a a' ns N).

  Definition cspec (cond a : expr) (m : MW expr) : Prop :=
    forall st a' ns xs st', m st = TOk (a', ns, xs, st') -> wspec cond a st a' ns xs st'.

  Lemma rspec_cspec p cond a m : rspec p cond a m -> okp p a = true -> cspec cond a m.
  Proof.
    intros H Hok st a' ns xs st' E. destruct (H _ _ _ _ _ E) as (N & I & X & S & Hh).
    exists N, I. split; [exact X|split; [exact (hoist_vars Hh)|split; [exact (hoist_emitted Hh)|]]].
    split; [exact (hoist_idcount Hh)|split; [exact S|]].
    intros Ha Hc. exact (hoist_hoisted F dg Hh Hok _ Ha Hc (ext_fresh_vars _ _ _ _ X)).
  Qed.
End OneCall.
