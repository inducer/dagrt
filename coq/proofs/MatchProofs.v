From Coq Require Import ZArith String List Bool Arith Permutation Lia.
Import ListNotations.
From Dagrt Require Import Match ListFacts MatchACProofs.

Lemma lookup_In {A} (m : list (string * A)) k v : lookup m k = Some v -> In (k, v) m.
Proof.
  induction m as [|[k' v'] m IH]; cbn [lookup In]; [discriminate|].
  destruct (String.eqb k' k) eqn:E.
  - intros H. injection H as <-. apply String.eqb_eq in E. subst. now left.
  - intros H. right. now apply IH.
Qed.

Lemma lookup_None_notin {A} (m : list (string * A)) k : lookup m k = None -> ~ In k (map fst m).
Proof.
  induction m as [|[k' v'] m IH]; cbn [lookup map fst In]; [tauto|].
  destruct (String.eqb k' k) eqn:E; [discriminate|].
  intros H [H1|H1]; [subst; rewrite String.eqb_refl in E; discriminate|now apply IH].
Qed.

Lemma lookup_some_of_in {A} (m : list (string * A)) x v : In (x, v) m -> exists v', lookup m x = Some v'.
Proof.
  intros H. destruct (lookup m x) eqn:E; [eauto|]. apply lookup_None_notin in E.
  destruct E. now apply (in_map fst) in H.
Qed.

Lemma lookup_dict_set {A} (m : list (string * A)) k v k' :
  lookup (dict_set m k v) k' = if String.eqb k k' then Some v else lookup m k'.
Proof.
  induction m as [|[k0 v0] m IH]; cbn [dict_set lookup].
  - reflexivity.
  - destruct (String.eqb k0 k) eqn:E; cbn [lookup].
    + apply String.eqb_eq in E. subst k0. destruct (String.eqb k k'); reflexivity.
    + rewrite IH. destruct (String.eqb k0 k') eqn:E2; [|reflexivity].
      apply String.eqb_eq in E2. subst k0. rewrite String.eqb_sym in E. now rewrite E.
Qed.

Lemma dict_set_keys_in {A} (m : list (string * A)) k v x :
  In x (map fst (dict_set m k v)) -> x = k \/ In x (map fst m).
Proof.
  induction m as [|[k0 v0] m IH]; cbn [dict_set map fst In].
  - intros [H|[]]. now left.
  - destruct (String.eqb k0 k) eqn:E; cbn [map fst In].
    + apply String.eqb_eq in E. subst. intros [H|H]; auto.
    + intros [H|H]; auto. destruct (IH H); auto.
Qed.

Lemma dict_set_nodup {A} (m : list (string * A)) k v :
  NoDup (map fst m) -> NoDup (map fst (dict_set m k v)).
Proof.
  induction m as [|[k0 v0] m IH]; cbn [dict_set map fst]; intros H.
  - constructor; [intros []|constructor].
  - inversion H as [|? ? Hn Hd]; subst.
    destruct (String.eqb k0 k) eqn:E; cbn [map fst].
    + apply String.eqb_eq in E. subst. now constructor.
    + constructor; [|now apply IH].
      intros Hin. apply dict_set_keys_in in Hin. destruct Hin as [->|Hin]; [|contradiction].
      rewrite String.eqb_refl in E. discriminate.
Qed.

(* what the loop of unify_map returns: distinct keys, the bindings of res under the keys m1 has (or m2 lacks), and for
   each binding of m2 either an equal one in m1 or the binding itself *)
Lemma unify_map_go_spec {A} (veqb : A -> A -> bool) m1 : forall m2 res l,
  unify_map_go veqb m1 m2 res = Some l ->
  (NoDup (map fst res) -> NoDup (map fst l)) /\
  (forall x, (forall v, In (x, v) m2 -> lookup m1 x <> None) -> lookup l x = lookup res x) /\
  (NoDup (map fst m2) -> forall x v, In (x, v) m2 ->
     (exists v1, lookup m1 x = Some v1 /\ veqb v1 v = true) \/ (lookup m1 x = None /\ lookup l x = Some v)).
Proof.
  induction m2 as [|[n v] m2 IH]; intros res l H; cbn [unify_map_go] in H.
  - injection H as <-. repeat split; [auto | intros _ x v []].
  - assert (Htl : forall x, (forall w, In (x, w) ((n, v) :: m2) -> lookup m1 x <> None) ->
                            forall w, In (x, w) m2 -> lookup m1 x <> None)
      by (intros x Hx w Hw; apply (Hx w); now right).
    destruct (lookup m1 n) as [v1|] eqn:E.
    + destruct (veqb v1 v) eqn:Ev; [|discriminate]. destruct (IH _ _ H) as (N & O & W).
      repeat split; [exact N | intros x Hx; exact (O x (Htl x Hx)) |].
      intros Hn x w [[= -> ->]|Hin]; [left; eauto | apply W; [now inversion Hn | exact Hin]].
    + destruct (IH _ _ H) as (N & O & W). repeat split.
      * intros Hr. now apply N, dict_set_nodup.
      * intros x Hx. rewrite (O x (Htl x Hx)), lookup_dict_set. destruct (String.eqb n x) eqn:En; [|reflexivity].
        apply String.eqb_eq in En. subst x. now destruct (Hx v (or_introl eq_refl)).
      * intros Hn. inversion Hn as [|? ? Hnot Hn']; subst.
        intros x w [[= -> ->]|Hin]; [right; split; [exact E|] | now apply W].
        rewrite O, lookup_dict_set, String.eqb_refl; [reflexivity|].
        intros w' Hw. destruct Hnot. now apply (in_map fst) in Hw.
Qed.

Lemma unify_map_go_other {A} (veqb : A -> A -> bool) m1 : forall m2 res l x,
  unify_map_go veqb m1 m2 res = Some l ->
  (forall v, In (x, v) m2 -> lookup m1 x <> None) ->
  lookup l x = lookup res x.
Proof. intros m2 res l x H. apply (unify_map_go_spec veqb m1 m2 res l H). Qed.

Lemma unify_map_go_nodup {A} (veqb : A -> A -> bool) m1 : forall m2 res l,
  unify_map_go veqb m1 m2 res = Some l -> NoDup (map fst res) -> NoDup (map fst l).
Proof. intros m2 res l H. apply (unify_map_go_spec veqb m1 m2 res l H). Qed.

Lemma unify_map_go_new {A} (veqb : A -> A -> bool) m1 : forall m2 res l x v,
  unify_map_go veqb m1 m2 res = Some l ->
  NoDup (map fst m2) -> In (x, v) m2 ->
  (exists v1, lookup m1 x = Some v1 /\ veqb v1 v = true) \/ (lookup m1 x = None /\ lookup l x = Some v).
Proof. intros m2 res l x v H Hn. now apply (unify_map_go_spec veqb m1 m2 res l H). Qed.

(* UnificationRecord.__init__ fills lmap by the loop of unify_map run against an empty first map *)
Lemma fold_set_go {A} (l : list (string * A)) : forall acc,
  unify_map_go (fun _ _ => true) [] l acc = Some (fold_left (fun m p => dict_set m (fst p) (snd p)) l acc).
Proof. induction l as [|[k v] l IH]; intros acc; [reflexivity|apply IH]. Qed.

Lemma fold_set_other {A} (l : list (string * A)) : forall acc x,
  ~ In x (map fst l) -> lookup (fold_left (fun m p => dict_set m (fst p) (snd p)) l acc) x = lookup acc x.
Proof.
  intros acc x H. apply (unify_map_go_other _ _ _ _ _ x (fold_set_go l acc)).
  intros v Hv. destruct H. now apply (in_map fst) in Hv.
Qed.

Lemma fold_set_nodup {A} (l : list (string * A)) : forall acc,
  NoDup (map fst acc) -> NoDup (map fst (fold_left (fun m p => dict_set m (fst p) (snd p)) l acc)).
Proof. intros acc. exact (unify_map_go_nodup _ _ _ _ _ (fold_set_go l acc)). Qed.

Lemma fold_set_lookup {A} (l : list (string * A)) : forall acc x v,
  NoDup (map fst l) -> In (x, v) l ->
  lookup (fold_left (fun m p => dict_set m (fst p) (snd p)) l acc) x = Some v.
Proof.
  intros acc x v Hn Hin.
  now destruct (unify_map_go_new _ _ _ _ _ x v (fold_set_go l acc) Hn Hin) as [(v1 & [=] & _)|[_ E]].
Qed.

Lemma eq_pair_eqb_spec p q : eq_pair_eqb p q = true -> fst p = fst q /\ keq (snd p) (snd q).
Proof.
  unfold eq_pair_eqb. intros H. apply andb_true_iff in H. destruct H as [H1 H2].
  apply String.eqb_eq in H1. apply expr_eqb_keq in H2. auto.
Qed.

Lemma eqs_add_in acc q p : In p (eqs_add acc q) -> In p acc \/ p = q.
Proof.
  unfold eqs_add. destruct (existsb (eq_pair_eqb q) acc); [auto|].
  intros H. apply in_app_or in H. destruct H as [H|[H|[]]]; auto.
Qed.

Lemma eqs_add_keep acc q p : In p acc -> In p (eqs_add acc q).
Proof. unfold eqs_add. destruct (existsb (eq_pair_eqb q) acc); [auto|]. intros H. apply in_or_app. now left. Qed.

Lemma eqs_add_new acc x e : exists e', In (x, e') (eqs_add acc (x, e)) /\ keq e' e.
Proof.
  unfold eqs_add. destruct (existsb (eq_pair_eqb (x, e)) acc) eqn:E.
  - apply existsb_exists in E. destruct E as ([y e'] & Hin & Hq). apply eq_pair_eqb_spec in Hq.
    cbn in Hq. destruct Hq as [<- Hk]. exists e'. split; [exact Hin|now apply keq_sym].
  - exists e. split; [apply in_or_app; right; now left|apply keq_refl].
Qed.

Lemma fold_eqs_add_in b : forall acc p, In p (fold_left eqs_add b acc) -> In p acc \/ In p b.
Proof.
  induction b as [|q b IH]; intros acc p H; cbn [fold_left] in H; [now left|].
  apply IH in H. destruct H as [H|H]; [|right; now right].
  apply eqs_add_in in H. destruct H as [H| ->]; [now left|right; now left].
Qed.

Lemma fold_eqs_add_keep b : forall acc p, In p acc -> In p (fold_left eqs_add b acc).
Proof. induction b as [|q b IH]; intros acc p H; cbn [fold_left]; [exact H|]. apply IH. now apply eqs_add_keep. Qed.

Lemma fold_eqs_add_new b : forall acc x e, In (x, e) b -> exists e', In (x, e') (fold_left eqs_add b acc) /\ keq e' e.
Proof.
  induction b as [|q b IH]; intros acc x e H; [contradiction|]. cbn [fold_left].
  destruct H as [->|H]; [|now apply IH].
  destruct (eqs_add_new acc x e) as (e' & Hin & Hk). exists e'. split; [|exact Hk].
  now apply fold_eqs_add_keep.
Qed.

Lemma eqs_union_in a b p : In p (eqs_union a b) -> In p a \/ In p b.
Proof.
  unfold eqs_union. intros H. apply fold_eqs_add_in in H. destruct H as [H|H]; [|now right].
  apply fold_eqs_add_in in H. destruct H as [[]|H]. now left.
Qed.

Lemma eqs_union_l a b x e : In (x, e) a -> exists e', In (x, e') (eqs_union a b) /\ keq e' e.
Proof.
  unfold eqs_union. intros H. destruct (fold_eqs_add_new a [] x e H) as (e' & Hin & Hk).
  exists e'. split; [|exact Hk]. now apply fold_eqs_add_keep.
Qed.

Lemma eqs_union_r a b x e : In (x, e) b -> exists e', In (x, e') (eqs_union a b) /\ keq e' e.
Proof. unfold eqs_union. intros H. now apply fold_eqs_add_new. Qed.

Section Records.
  Variable free : list string.

  Definition sub := string -> option expr.

  Definition sat (s : sub) (r : urec) : Prop :=
    forall x e, In (x, e) (eqs r) -> exists e', s x = Some e' /\ keq e' e.

  Definition dom_ok (s : sub) : Prop := forall x e, s x = Some e -> mem x free = true.

  Definition wf (r : urec) : Prop :=
    NoDup (map fst (lmap r)) /\
    (forall x e, In (x, e) (eqs r) -> exists e', lookup (lmap r) x = Some e' /\ keq e' e) /\
    (forall x e, In (x, e) (eqs r) -> mem x free = true).

  Lemma wf_lmap r x e : wf r -> In (x, e) (eqs r) -> exists e', lookup (lmap r) x = Some e' /\ keq e' e.
  Proof. intros H. apply H. Qed.
  Lemma wf_free r x e : wf r -> In (x, e) (eqs r) -> mem x free = true.
  Proof. intros H. apply H. Qed.

  Definition incl_eqs (u r : urec) : Prop :=
    forall x e, In (x, e) (eqs u) -> exists e', In (x, e') (eqs r) /\ keq e' e.

  Lemma incl_eqs_refl u : incl_eqs u u.
  Proof. intros x e H. exists e. split; [exact H|apply keq_refl]. Qed.

  Lemma incl_eqs_trans a b c : incl_eqs a b -> incl_eqs b c -> incl_eqs a c.
  Proof.
    intros H1 H2 x e H. destruct (H1 x e H) as (e1 & Hin1 & K1). destruct (H2 x e1 Hin1) as (e2 & Hin2 & K2).
    exists e2. split; [exact Hin2|]. eapply keq_trans; eauto.
  Qed.

  Lemma sat_mono s u r : incl_eqs u r -> sat s r -> sat s u.
  Proof.
    intros Hi Hs x e H. destruct (Hi x e H) as (e1 & Hin & K). destruct (Hs x e1 Hin) as (e' & E & K').
    exists e'. split; [exact E|]. eapply keq_trans; eauto.
  Qed.

  Lemma rec_unify_spec r1 r2 r :
    rec_unify r1 r2 = Some r -> wf r1 -> wf r2 ->
    wf r /\ incl_eqs r1 r /\ incl_eqs r2 r.
  Proof.
    unfold rec_unify. intros H (N1 & L1 & F1) (N2 & L2 & F2).
    destruct (unify_map expr_eqb (lmap r1) (lmap r2)) as [l|] eqn:El; [|discriminate].
    destruct (unify_map String.eqb (rmap r1) (rmap r2)) as [rm|]; [|discriminate].
    injection H as <-. unfold unify_map in El.
    assert (K1 : forall x v, lookup (lmap r1) x = Some v -> lookup l x = Some v).
    { intros x v E. rewrite (unify_map_go_other _ _ _ _ _ x El); [exact E|]. intros; congruence. }
    split; [|split].
    - unfold wf. cbn [eqs lmap]. split; [|split].
      + eapply unify_map_go_nodup; eauto.
      + intros x e Hin. apply eqs_union_in in Hin. destruct Hin as [Hin|Hin].
        * destruct (L1 x e Hin) as (e' & E & K). exists e'. split; [now apply K1|exact K].
        * destruct (L2 x e Hin) as (e2 & E2 & K2).
          destruct (unify_map_go_new _ _ _ _ _ x e2 El N2 (lookup_In _ _ _ E2)) as [(v1 & E1 & Q)|(E1 & Q)].
          -- exists v1. split; [now apply K1|]. apply expr_eqb_keq in Q. eapply keq_trans; eauto.
          -- exists e2. split; [exact Q|exact K2].
      + intros x e Hin. apply eqs_union_in in Hin. destruct Hin as [Hin|Hin]; eauto.
    - intros x e Hin. cbn [eqs]. now apply eqs_union_l.
    - intros x e Hin. cbn [eqs]. now apply eqs_union_r.
  Qed.

  Lemma unify_many_in us r2 r : In r (unify_many us r2) -> exists u, In u us /\ rec_unify u r2 = Some r.
  Proof.
    unfold unify_many. intros H. apply in_flat_map in H. destruct H as (u & Hu & H).
    exists u. split; [exact Hu|]. destruct (rec_unify u r2); [|contradiction].
    destruct H as [->|[]]. reflexivity.
  Qed.

  Lemma wf_single x o : mem x free = true -> wf (single x o).
  Proof.
    intros Hx. unfold single, urec_of_eqs, wf. cbn.
    split; [constructor; [intros []|constructor]|]. split.
    - intros y e [H|[]]. injection H as <- <-. exists o. rewrite String.eqb_refl. split; [reflexivity|apply keq_refl].
    - intros y e [H|[]]. injection H as <- <-. exact Hx.
  Qed.

  Lemma wf_empty : wf empty_rec.
  Proof. unfold empty_rec, urec_of_eqs, wf. cbn. split; [constructor|]. split; intros x e []. Qed.

  Lemma wf_of_eqs p :
    NoDup (map fst p) -> (forall x e, In (x, e) p -> mem x free = true) -> wf (urec_of_eqs p).
  Proof.
    intros Hn Hf. unfold urec_of_eqs, wf. cbn [eqs lmap]. split; [|split].
    - apply fold_set_nodup. constructor.
    - intros x e Hin. exists e. split; [now apply fold_set_lookup|apply keq_refl].
    - exact Hf.
  Qed.

  Lemma sat_self r : wf r -> sat (lookup (eqs r)) r.
  Proof.
    intros W x e Hin.
    destruct (lookup_some_of_in _ _ _ Hin) as (e' & E). exists e'. split; [exact E|].
    destruct (wf_lmap r x e W Hin) as (v & Ev & Kv).
    destruct (wf_lmap r x e' W (lookup_In _ _ _ E)) as (v' & Ev' & Kv').
    rewrite Ev in Ev'. injection Ev' as <-. eapply keq_trans; [apply keq_sym; exact Kv'|exact Kv].
  Qed.

  Lemma dom_self r : wf r -> dom_ok (lookup (eqs r)).
  Proof. intros W x e E. apply (wf_free r x e W). now apply lookup_In. Qed.

  (* What a mapper method owes: each record it returns is well formed, extends one of us and entails Q, the
     fact about the pair being unified.  Nothing is said when rs is empty, so a failed unification is always
     within the invariant. *)
  Definition out_ok (us : list urec) (Q : sub -> Prop) (rs : list urec) : Prop :=
    forall r, In r rs ->
      wf r /\ (exists u, In u us /\ incl_eqs u r) /\ (forall s, dom_ok s -> sat s r -> Q s).

  Definition ext (us : list urec) (r : urec) : Prop := exists u, In u us /\ incl_eqs u r.

  Lemma out_ok_ext us Q rs r : out_ok us Q rs -> In r rs -> ext us r.
  Proof. intros H Hr. apply (H r Hr). Qed.

  Lemma out_ok_ent us Q rs r : out_ok us Q rs -> In r rs -> forall s, dom_ok s -> sat s r -> Q s.
  Proof. intros H Hr. apply (H r Hr). Qed.

  Lemma out_ok_wf us Q rs : out_ok us Q rs -> Forall wf rs.
  Proof. intros H. apply Forall_forall. intros r Hr. now destruct (H r Hr). Qed.

  Lemma out_ok_nil us Q : out_ok us Q [].
  Proof. intros r []. Qed.

  Lemma out_ok_app us Q a b : out_ok us Q a -> out_ok us Q b -> out_ok us Q (a ++ b).
  Proof. intros Ha Hb r Hr. apply in_app_or in Hr. destruct Hr; auto. Qed.

  Lemma out_ok_flat_map {A} us Q (g : A -> list urec) l :
    (forall v, In v l -> out_ok us Q (g v)) -> out_ok us Q (flat_map g l).
  Proof. intros H r Hr. apply in_flat_map in Hr. destruct Hr as (v & Hv & Hr). exact (H v Hv r Hr). Qed.

  Lemma out_ok_weaken us (Q Q' : sub -> Prop) rs :
    out_ok us Q rs -> (forall s, dom_ok s -> Q s -> Q' s) -> out_ok us Q' rs.
  Proof.
    intros H HQ r Hr. destruct (H r Hr) as (W & U & E). split; [exact W|]. split; [exact U|].
    intros s Hd Hs. apply HQ; auto.
  Qed.

  Lemma out_ok_self us (Q : sub -> Prop) :
    Forall wf us -> (forall s, dom_ok s -> Q s) -> out_ok us Q us.
  Proof.
    intros Hw HQ r Hr. rewrite Forall_forall in Hw. split; [auto|]. split.
    - exists r. split; [exact Hr|apply incl_eqs_refl].
    - intros s Hd _. now apply HQ.
  Qed.

  (* the way the unifier threads its records: rs1 from us, then rs2 from rs1 *)
  Lemma out_ok_then us Q1 rs1 Q2 rs2 (Q : sub -> Prop) :
    out_ok us Q1 rs1 -> (Forall wf rs1 -> out_ok rs1 Q2 rs2) ->
    (forall s, dom_ok s -> Q1 s -> Q2 s -> Q s) -> out_ok us Q rs2.
  Proof.
    intros H1 H2 HQ r Hr. destruct (H2 (out_ok_wf _ _ _ H1) r Hr) as (W & (u1 & Hu1 & I1) & E2).
    destruct (H1 u1 Hu1) as (_ & (u & Hu & I) & E1).
    split; [exact W|]. split.
    - exists u. split; [exact Hu|]. eapply incl_eqs_trans; eauto.
    - intros s Hd Hs. apply HQ; [exact Hd| |now apply E2]. apply E1; [exact Hd|]. eapply sat_mono; eauto.
  Qed.

  (* rs1 from us, then for each record cu of rs1 the records g cu, which entail cu *)
  Lemma out_ok_bind us Q1 rs1 Q2 (g : urec -> list urec) (Q : sub -> Prop) :
    out_ok us Q1 rs1 ->
    (forall cu, wf cu -> ext us cu -> out_ok us (fun s => sat s cu /\ Q2 s) (g cu)) ->
    (forall s, dom_ok s -> Q1 s -> Q2 s -> Q s) ->
    out_ok us Q (flat_map g rs1).
  Proof.
    intros H1 H2 HQ r Hr. apply in_flat_map in Hr. destruct Hr as (cu & Hcu & Hr).
    destruct (H1 cu Hcu) as (Wcu & Ecu & E1). destruct (H2 cu Wcu Ecu r Hr) as (W & U & E2).
    split; [exact W|]. split; [exact U|].
    intros s Hd Hs. destruct (E2 s Hd Hs) as [Hc HQ2]. apply HQ; auto.
  Qed.

  Lemma out_ok_unify_many us r2 :
    Forall wf us -> wf r2 -> out_ok us (fun s => sat s r2) (unify_many us r2).
  Proof.
    intros Hw W2 r Hr. apply unify_many_in in Hr. destruct Hr as (u & Hu & E).
    rewrite Forall_forall in Hw. destruct (rec_unify_spec _ _ _ E (Hw u Hu) W2) as (W & I1 & I2).
    split; [exact W|]. split; [exists u; auto|].
    intros s _ Hs. eapply sat_mono; eauto.
  Qed.

  Lemma sat_single s x o : sat s (single x o) -> exists e', s x = Some e' /\ keq e' o.
  Proof. intros H. apply (H x o). now left. Qed.
End Records.

Arguments out_ok_then {free us Q1 rs1 Q2 rs2 Q}.

Lemma combinations_incl {A} (s : list A) : forall n cmb, In cmb (combinations n s) -> incl cmb s.
Proof.
  induction s as [|x s IH]; intros [|n] cmb H; cbn [combinations] in H.
  - destruct H as [<-|[]]. intros y [].
  - contradiction.
  - destruct H as [<-|[]]. intros y [].
  - apply in_app_or in H. destruct H as [H|H].
    + apply in_map_iff in H. destruct H as (cmb' & <- & H). apply IH in H.
      intros y [->|Hy]; [now left|right; now apply H].
    + apply IH in H. intros y Hy. right. now apply H.
Qed.

Lemma diffn_nil s : diffn s [] = s.
Proof. unfold diffn. induction s as [|x s IH]; cbn in *; congruence. Qed.

Lemma memn_cons y x l : memn y (x :: l) = Nat.eqb y x || memn y l.
Proof. reflexivity. Qed.

Lemma diffn_comb (s : list nat) : forall n cmb,
  NoDup s -> In cmb (combinations n s) -> Permutation (cmb ++ diffn s cmb) s.
Proof.
  induction s as [|x s IH]; intros [|n] cmb Hn H; cbn [combinations] in H.
  - destruct H as [<-|[]]. constructor.
  - contradiction.
  - destruct H as [<-|[]]. rewrite diffn_nil. reflexivity.
  - inversion Hn as [|? ? Hx Hn']; subst. apply in_app_or in H. destruct H as [H|H].
    + apply in_map_iff in H. destruct H as (cmb' & <- & H).
      assert (E : diffn (x :: s) (x :: cmb') = diffn s cmb').
      { unfold diffn. cbn [filter]. rewrite memn_cons, Nat.eqb_refl. cbn [orb negb].
        apply filter_ext_in. intros y Hy. rewrite memn_cons.
        destruct (Nat.eqb y x) eqn:E; [|reflexivity]. apply Nat.eqb_eq in E. subst. contradiction. }
      rewrite E. cbn [app]. constructor. now apply (IH n).
    + assert (Hnx : memn x cmb = false).
      { destruct (memn x cmb) eqn:E; [|reflexivity]. apply existsb_nat_In in E.
        apply combinations_incl in H. apply H in E. contradiction. }
      assert (E : diffn (x :: s) cmb = x :: diffn s cmb).
      { unfold diffn. cbn [filter]. now rewrite Hnx. }
      rewrite E. rewrite <- Permutation_middle. constructor. now apply (IH (S n)).
Qed.

Lemma subsets_in {A} (s : list A) m cmb : In cmb (subsets s m) -> exists n, In cmb (combinations n s).
Proof. unfold subsets. intros H. apply in_flat_map in H. destruct H as (n & _ & H). eauto. Qed.

Lemma partitions_spec k : forall s p,
  NoDup s -> In p (partitions k s) -> length p = k /\ Permutation (concat p) s.
Proof.
  induction k as [|k IH]; intros s p Hn H; cbn [partitions] in H; [contradiction|].
  destruct k as [|k'].
  - destruct H as [<-|[]]. cbn. rewrite app_nil_r. split; reflexivity.
  - apply in_flat_map in H. destruct H as (cmb & Hcmb & H).
    apply in_map_iff in H. destruct H as (p' & <- & Hp').
    destruct (IH _ _ (NoDup_filter _ Hn) Hp') as (L & P).
    split; [cbn; now rewrite L|].
    cbn [concat]. rewrite P. apply subsets_in in Hcmb. destruct Hcmb as (n & Hc).
    now apply (diffn_comb s n).
Qed.

Lemma select_app a b ocs : select (a ++ b) ocs = select a ocs ++ select b ocs.
Proof. unfold select. apply map_app. Qed.

Lemma select_concat p ocs : select (concat p) ocs = concat (map (fun pk => select pk ocs) p).
Proof. unfold select. apply concat_map. Qed.

Lemma select_seq ocs : select (seq 0 (length ocs)) ocs = ocs.
Proof.
  unfold select. induction ocs as [|o ocs IH]; [reflexivity|].
  cbn [length seq map nth]. f_equal. rewrite <- seq_shift, map_map. exact IH.
Qed.

Lemma removen_notin j l : ~ In j l -> removen j l = l.
Proof.
  unfold removen. induction l as [|y l IH]; intros H; cbn [filter]; [reflexivity|].
  destruct (Nat.eqb j y) eqn:E.
  - apply Nat.eqb_eq in E. subst. exfalso. apply H. now left.
  - cbn [negb]. rewrite IH; [reflexivity|]. intros Hin. apply H. now right.
Qed.

Lemma removen_perm j l : NoDup l -> In j l -> Permutation (j :: removen j l) l.
Proof.
  induction l as [|y l IH]; intros Hn Hin; [contradiction|].
  inversion Hn as [|? ? Hy Hn']; subst. unfold removen. cbn [filter].
  destruct (Nat.eqb j y) eqn:E.
  - apply Nat.eqb_eq in E. subst y. cbn [negb]. fold (removen j l). now rewrite removen_notin.
  - cbn [negb]. fold (removen j l). destruct Hin as [->|Hin]; [rewrite Nat.eqb_refl in E; discriminate|].
    rewrite perm_swap. constructor. now apply IH.
Qed.

(* map_commut_assoc.  The template's children are split into the non-variable children nvs, each with a row of
   candidates (the target indices j whose unification succeeded and the records it gave), and the plain free
   variables plain.  A result record comes from one index per non-variable child, all distinct (js), and a
   partition p of the remaining indices into one block per plain variable; it entails nvfact for each child and
   its index and plainfact for each block and its variable.  Since js ++ concat p is a permutation of 0..n-1,
   commut_assoc_spec can regroup the target's children into the template's (AC_perm, AC_concat, mk_ac_equiv).
   nvne is Python's `non_var_children` test.  It is a variable and not negb (is_nil cands) because match_children
   recurses on the tail of cands while the test stays about the whole list.  If it holds, match_plain returns the
   record of a partition as it is ("urecs was merged in", through the rows); if not, there is no row and
   match_plain merges us in itself.  Hence the premise of the three lemmas before commut_assoc_spec: the result
   extends a record of us because acc does, or because a row is still to be consumed, or because nvne = false. *)
Section CA.
  Variable free : list string.
  Variable op : acop.
  Variable ocs : list expr.
  Variable us : list urec.
  Variable plain : list string.
  Variable nvne : bool.
  Hypothesis us_wf : Forall (wf free) us.
  Hypothesis plain_free : Forall (fun x => mem x free = true) plain.
  (* the template node has a child *)
  Hypothesis nonempty : plain <> [] \/ nvne = true.

  Notation mk := (mk_ac op).

  Definition plainfact (s : sub) (p : list nat) (x : string) : Prop :=
    exists e', s x = Some e' /\ keq e' (mk (select p ocs)).

  Definition nvfact (s : sub) (c : expr) (j : nat) : Prop := subst s c ~~ nth j ocs (EInt 0).

  Definition rowok (c : expr) (row : list (nat * list urec)) : Prop :=
    forall j prs, In (j, prs) row -> out_ok free us (fun s => nvfact s c j) prs.

  Lemma try_partition_spec : forall parts vars acc r,
    try_partition mk ocs acc parts vars = Some r ->
    length parts = length vars -> wf free acc -> Forall (fun x => mem x free = true) vars ->
    wf free r /\ incl_eqs acc r /\ forall s, sat s r -> Forall2 (plainfact s) parts vars.
  Proof.
    induction parts as [|p parts IH]; intros [|x vars] acc r H L W Fv; cbn [try_partition] in H;
      try discriminate L.
    - injection H as <-. split; [exact W|]. split; [apply incl_eqs_refl|]. intros; constructor.
    - destruct (rec_unify acc (single x (mk (select p ocs)))) as [r1|] eqn:E; [|discriminate].
      inversion Fv as [|? ? Hx Fv']; subst.
      destruct (rec_unify_spec free _ _ _ E W (wf_single free x _ Hx)) as (W1 & I1 & I2).
      injection L as L.
      destruct (IH vars r1 r H L W1 Fv') as (Wr & Ir & Fr).
      split; [exact Wr|]. split; [eapply incl_eqs_trans; eauto|].
      intros s Hs. constructor; [|now apply Fr].
      apply sat_single. eapply sat_mono; [|exact Hs]. eapply incl_eqs_trans; eauto.
  Qed.

  (* what a result of match_children for nvs, started at acc with the indices left, entails: acc (all that "the
     result extends acc" is needed for), and the facts of a choice js, p that uses up left *)
  Definition childQ (nvs : list expr) (acc : urec) (left : list nat) (s : sub) : Prop :=
    sat s acc /\ exists js p, Permutation (js ++ concat p) left /\
                              Forall2 (nvfact s) nvs js /\ Forall2 (plainfact s) p plain.

  Lemma plain_go_spec left : forall parts acc,
    wf free acc -> ext us acc \/ nvne = false ->
    (forall p, In p parts -> length p = length plain /\ Permutation (concat p) left) ->
    out_ok free us (childQ [] acc left) (plain_go mk ocs us plain nvne acc parts).
  Proof.
    induction parts as [|p ps IH]; intros acc W A Hp; cbn [plain_go]; [apply out_ok_nil|].
    assert (Hps : forall q, In q ps -> length q = length plain /\ Permutation (concat q) left)
      by (intros q Hq; apply Hp; now right).
    destruct (try_partition mk ocs acc p plain) as [r0|] eqn:E; [|now apply IH].
    destruct (Hp p (or_introl eq_refl)) as (Lp & Pp).
    destruct (try_partition_spec _ _ _ _ E Lp W plain_free) as (W0 & I0 & F0).
    assert (Q0 : forall s, dom_ok free s -> sat s r0 -> childQ [] acc left s)
      by (intros s _ Hs; split; [eapply sat_mono; eauto|exists [], p; auto]).
    (* nvne is a section variable that childQ and nonempty depend on, so it cannot be destructed: split on its
       value and rewrite the occurrence the `if` tests *)
    assert (Hb : nvne = true \/ nvne = false) by (destruct nvne; auto).
    destruct Hb as [Env|Env]; rewrite Env at 1.
    - destruct A as [(u & Hu & Iu)|A]; [|congruence]. intros r [<-|[]].
      split; [exact W0|]. split; [exists u; split; [exact Hu|eapply incl_eqs_trans; eauto]|exact Q0].
    - apply out_ok_app; [|now apply IH].
      exact (out_ok_weaken free _ _ _ _ (out_ok_unify_many free us r0 us_wf W0) Q0).
  Qed.

  Lemma match_plain_spec acc left :
    wf free acc -> ext us acc \/ nvne = false -> NoDup left ->
    out_ok free us (childQ [] acc left) (match_plain mk ocs us plain nvne acc left).
  Proof.
    intros W A Hn. unfold match_plain. destruct (is_nil plain && is_nil left) eqn:E.
    - apply andb_true_iff in E. destruct E as [E1 E2].
      assert (Pl : plain = []) by (revert E1; destruct plain; [reflexivity|discriminate]).
      assert (Ll : left = []) by (destruct left; [reflexivity|discriminate]).
      destruct A as [A|A]; [|destruct nonempty; congruence].
      intros r [<-|[]]. split; [exact W|]. split; [exact A|]. intros s _ Hs. split; [exact Hs|].
      exists [], []. rewrite Pl, Ll. repeat constructor.
    - apply plain_go_spec; auto. intros p Hp. now apply partitions_spec.
  Qed.

  Lemma match_children_spec : forall nvs cands,
    Forall2 rowok nvs cands ->
    forall acc left, wf free acc -> NoDup left -> ext us acc \/ cands <> [] \/ nvne = false ->
    out_ok free us (childQ nvs acc left) (match_children mk ocs us plain nvne cands acc left).
  Proof.
    induction 1 as [|c row nvs cands Hrow _ IH]; intros acc left W Hn A; cbn [match_children].
    - apply (match_plain_spec acc left W); [|exact Hn].
      destruct A as [A|[A|A]]; [now left|now contradiction A|now right].
    - apply out_ok_flat_map. intros [j prs] Hjc. cbn [fst snd].
      destruct (memn j left) eqn:Ej; [|apply out_ok_nil]. apply existsb_nat_In in Ej.
      (* the records of the row merged with acc, then the rest of the rows from each of them *)
      eapply out_ok_bind.
      + exact (out_ok_then (Hrow j prs Hjc) (fun Wp => out_ok_unify_many free prs acc Wp W)
                           (fun s _ Q1 Q2 => conj Q1 Q2)).
      + intros cu Wcu Ecu. exact (IH cu (removen j left) Wcu (NoDup_filter _ Hn) (or_introl Ecu)).
      + intros s _ [Q1 Hs] (js & p & Pp & F1 & F2). split; [exact Hs|]. exists (j :: js), p.
        split; [|split; [constructor|]; assumption].
        cbn [app]. rewrite <- (removen_perm j left Hn Ej). now constructor.
  Qed.

  Lemma commut_assoc_spec nvs cands :
    Forall2 rowok nvs cands -> nvne = negb (is_nil cands) ->
    out_ok free us
           (fun s => EAC op (map (subst s) nvs ++ map (subst s) (map EVar plain)) ~~ EAC op ocs)
           (commut_assoc mk ocs us plain nvne cands).
  Proof.
    intros Hrows Hne. unfold commut_assoc.
    eapply out_ok_weaken;
      [apply (match_children_spec nvs cands Hrows empty_rec _ (wf_empty free) (seq_NoDup _ _))|].
    - right. destruct cands; [right; exact Hne|left; discriminate].
    - intros s _ (_ & js & p & Pp & F1 & F2).
      assert (A1 : Forall2 AC1_equiv (map (subst s) nvs) (select js ocs)).
      { clear -F1. induction F1; cbn; constructor; auto. }
      assert (A2 : Forall2 AC1_equiv (map (subst s) (map EVar plain))
                           (map (EAC op) (map (fun pk => select pk ocs) p))).
      { clear -F2. induction F2 as [|pk x p' plain' (e' & E & K) _ IHF]; cbn [map]; constructor; [|exact IHF].
        cbn [subst]. rewrite E. eapply AC_trans; [apply keq_AC; exact K|apply mk_ac_equiv]. }
      eapply AC_trans; [apply AC_cong_all, Forall2_app; [exact A1|exact A2]|].
      eapply AC_trans; [apply AC_app; [apply AC_refl|apply AC_concat]|].
      rewrite <- select_concat, <- select_app.
      eapply AC_trans; [apply AC_perm; unfold select; apply Permutation_map; exact Pp|].
      change (EAC op (select (seq 0 (length ocs)) ocs) ~~ EAC op ocs).
      rewrite select_seq. apply AC_refl.
  Qed.
End CA.

Lemma list_eqb_string_eq l : forall m, list_eqb String.eqb l m = true -> l = m.
Proof.
  induction l as [|x l IH]; intros [|y m] H; cbn [list_eqb] in H; try discriminate; [reflexivity|].
  apply andb_true_iff in H. destruct H as [H1 H2]. apply String.eqb_eq in H1. subst. f_equal. now apply IH.
Qed.

Lemma Forall2_app_split {A B} (R : A -> B -> Prop) : forall a a' b b',
  length a = length a' -> Forall2 R (a ++ b) (a' ++ b') -> Forall2 R a a' /\ Forall2 R b b'.
Proof.
  induction a as [|x a IH]; intros [|y a'] b b' L H; try discriminate L.
  - split; [constructor|exact H].
  - cbn [app] in H. inversion H as [|? ? ? ? Hxy Ht]; subst. injection L as L. destruct (IH _ _ _ L Ht).
    split; [constructor|]; auto.
Qed.

Lemma kw_insert_Forall2 {A B} (R : A -> B -> Prop) p q l l' :
  kf_rel R p q -> Forall2 (kf_rel R) l l' -> Forall2 (kf_rel R) (kw_insert p l) (kw_insert q l').
Proof.
  intros Hpq H. induction H as [|p' q' l l' Hpq' Htl IH]; cbn [kw_insert]; [constructor; [exact Hpq|constructor]|].
  destruct Hpq as [K1 R1]. destruct Hpq' as [K2 R2]. rewrite <- K1, <- K2.
  destruct (String.leb (fst p) (fst p')).
  - constructor; [split; auto|]. constructor; [split; auto|]. assumption.
  - constructor; [split; auto|exact IH].
Qed.

Lemma sort_kw_Forall2 {A B} (R : A -> B -> Prop) l l' :
  Forall2 (kf_rel R) l l' -> Forall2 (kf_rel R) (sort_kw l) (sort_kw l').
Proof. induction 1; cbn [sort_kw]; [constructor|]. now apply kw_insert_Forall2. Qed.

Lemma kf_rel_fst {A B} (R : A -> B -> Prop) l l' : Forall2 (kf_rel R) l l' -> map fst l = map fst l'.
Proof. induction 1 as [|p q l l' [K _] _ IH]; cbn; [reflexivity|]. now rewrite K, IH. Qed.

Lemma kf_rel_snd {A B} (R : A -> B -> Prop) l l' : Forall2 (kf_rel R) l l' -> Forall2 R (map snd l) (map snd l').
Proof. induction 1 as [|p q l l' [_ Hr] _ IH]; cbn; constructor; auto. Qed.

Lemma subst_call s f args kw :
  subst s (ECall f args kw) = ECall (subst s f) (map (subst s) args) (kwmap (subst s) kw).
Proof. reflexivity. Qed.

Section Unif.
  Variable free : list string.
  Variable swap : string -> string -> bool.
  Variable idel : acop -> Z.

  Notation wf := (wf free).
  Notation out_ok := (out_ok free).
  Notation dom_ok := (dom_ok free).

  Definition fspec (c : expr) (f : ufun) : Prop :=
    forall o us, Forall wf us -> out_ok us (fun s => subst s c ~~ o) (f o us).

  (* the same with Python's == for AC1-equality: what the function position of a call needs (AC_call_fn), and what
     map_variable delivers *)
  Definition fspec_k (c : expr) (f : ufun) : Prop :=
    forall o us, Forall wf us -> out_ok us (fun s => keq (subst s c) o) (f o us).

  Lemma fspec_of_k c f : fspec_k c f -> fspec c f.
  Proof. intros H o us Hw. eapply out_ok_weaken; [apply H; exact Hw|]. intros s _ K. now apply keq_AC. Qed.

  Lemma map_variable_spec x : fspec_k (EVar x) (map_variable free x).
  Proof.
    intros o us Hw. unfold map_variable. destruct (mem x free) eqn:Ex.
    - eapply out_ok_weaken; [apply out_ok_unify_many; [exact Hw|now apply wf_single]|].
      intros s _ Hs. apply sat_single in Hs. destruct Hs as (e' & E & K). cbn [subst]. now rewrite E.
    - destruct o as [y| | | | |]; try apply out_ok_nil.
      destruct (String.eqb x y) eqn:Exy; [|apply out_ok_nil]. apply String.eqb_eq in Exy. subst y.
      apply out_ok_self; [exact Hw|]. intros s Hd. cbn [subst].
      destruct (s x) as [e|] eqn:E; [|apply keq_refl]. apply Hd in E. congruence.
  Qed.

  Lemma map_constant_spec z : fspec (EInt z) (map_constant z).
  Proof.
    intros o us Hw. unfold map_constant. destruct o as [|z'| | | |]; try apply out_ok_nil.
    destruct (Z.eqb z z') eqn:E; [|apply out_ok_nil]. apply Z.eqb_eq in E. subst z'.
    apply out_ok_self; [exact Hw|]. intros s _. apply AC_refl.
  Qed.

  Lemma bin_spec (q : bool) a b fa fb : fspec a fa -> fspec b fb ->
    fspec (if q then EQuot a b else EPow a b) (bin_node q fa fb).
  Proof.
    intros Ha Hb o us Hw. destruct q, o as [| | |a' b'|a' b'|]; try apply out_ok_nil.
    all: apply (out_ok_then (Hb b' us Hw) (Ha a' _)); intros s _ Q1 Q2; cbn [subst].
    - eapply AC_trans; [apply AC_quot_l; exact Q2|apply AC_quot_r; exact Q1].
    - eapply AC_trans; [apply AC_pow_l; exact Q2|apply AC_pow_r; exact Q1].
  Qed.

  Lemma thread_spec : forall cs fs, Forall2 fspec cs fs ->
    forall os us, length os = length cs -> Forall wf us ->
    out_ok us (fun s => Forall2 AC1_equiv (map (subst s) cs) os) (thread fs os us).
  Proof.
    induction 1 as [|c f cs fs Hc _ IH]; intros [|o os] us L Hw; try discriminate L; cbn [thread].
    - apply out_ok_self; [exact Hw|]. intros; constructor.
    - injection L as L. apply (out_ok_then (Hc o us Hw) (IH os _ L)).
      intros s _ Q1 Q2. now constructor.
  Qed.

  Lemma call_node_spec x args kw fargs fkw :
    Forall2 fspec args fargs -> Forall2 (kf_rel fspec) kw fkw ->
    fspec (ECall (EVar x) args kw) (call_node (map_variable free x) fargs fkw).
  Proof.
    intros HA HK o us Hw. unfold call_node. destruct o as [| | | | |f' args' kw']; try apply out_ok_nil.
    destruct (negb (Nat.eqb (length fargs) (length args'))) eqn:EL; [apply out_ok_nil|].
    destruct (negb (list_eqb String.eqb (map fst (sort_kw fkw)) (map fst (sort_kw kw')))) eqn:EK;
      [apply out_ok_nil|].
    apply negb_false_iff in EL, EK. apply Nat.eqb_eq in EL. apply list_eqb_string_eq in EK.
    pose proof (sort_kw_Forall2 _ _ _ HK) as HKs.
    pose proof (kf_rel_fst _ _ _ HKs) as Kfst. pose proof (kf_rel_snd _ _ _ HKs) as Ksnd.
    assert (La : length args' = length args) by (rewrite <- EL; symmetry; eapply Forall2_length; eauto).
    assert (Lk : length (map snd (sort_kw kw')) = length (map snd (sort_kw kw))).
    { rewrite !map_length. rewrite <- (map_length fst (sort_kw kw')), <- EK, <- Kfst. now rewrite map_length. }
    apply (out_ok_then
             (thread_spec _ _ (Forall2_app HA Ksnd) (args' ++ map snd (sort_kw kw')) us
                          ltac:(rewrite !app_length; congruence) Hw)
             (map_variable_spec x f' _)).
    intros s _ Q1 Q2. rewrite subst_call.
    rewrite map_app in Q1. apply Forall2_app_split in Q1; [|rewrite map_length; congruence].
    destruct Q1 as [Qa Qk].
    apply AC_call_sorted; [exact Q2 | exact Qa | |]; rewrite sort_kw_map.
    - rewrite kwmap_fst. congruence.
    - rewrite kwmap_snd. exact Qk.
  Qed.

  Definition plains (cs : list expr) : list string :=
    flat_map (fun c => match plain_name free c with Some x => [x] | None => [] end) cs.
  Definition nonvars (cs : list expr) : list expr :=
    flat_map (fun c => match plain_name free c with Some _ => [] | None => [c] end) cs.

  Lemma plain_name_some c x : plain_name free c = Some x -> c = EVar x /\ mem x free = true.
  Proof.
    destruct c as [y| | | | |]; cbn [plain_name]; try discriminate.
    destruct (mem y free) eqn:E; [|discriminate]. intros H. injection H as <-. auto.
  Qed.

  Lemma plain_of_map (g : expr -> ufun) cs : plain_of free (map (fun c => (c, g c)) cs) = plains cs.
  Proof. unfold plain_of, plains. induction cs as [|c cs IH]; cbn [map flat_map fst]; [reflexivity|]. now rewrite IH. Qed.

  Lemma nonvar_of_map (g : expr -> ufun) cs : nonvar_of free (map (fun c => (c, g c)) cs) = map g (nonvars cs).
  Proof.
    unfold nonvar_of, nonvars. induction cs as [|c cs IH]; cbn [map flat_map fst snd]; [reflexivity|].
    rewrite IH, map_app. destruct (plain_name free c); reflexivity.
  Qed.

  Lemma plains_free cs : Forall (fun x => mem x free = true) (plains cs).
  Proof.
    unfold plains. induction cs as [|c cs IH]; cbn [flat_map]; [constructor|].
    destruct (plain_name free c) as [x|] eqn:E; [|exact IH].
    apply plain_name_some in E. destruct E as [_ E]. now constructor.
  Qed.

  Lemma split_perm cs : Permutation cs (nonvars cs ++ map EVar (plains cs)).
  Proof.
    unfold nonvars, plains. induction cs as [|c cs IH]; cbn [flat_map]; [constructor|].
    destruct (plain_name free c) as [x|] eqn:E.
    - apply plain_name_some in E. destruct E as [-> _]. cbn [app map]. now apply Permutation_cons_app.
    - cbn [app]. now constructor.
  Qed.

  Lemma nonvars_incl cs c : In c (nonvars cs) -> In c cs.
  Proof.
    unfold nonvars. intros H. apply in_flat_map in H. destruct H as (c' & Hc' & H).
    destruct (plain_name free c'); [contradiction|]. destruct H as [<-|[]]. exact Hc'.
  Qed.

  Lemma split_nonempty cs : cs <> [] -> plains cs <> [] \/ nonvars cs <> [].
  Proof.
    destruct cs as [|c cs]; [congruence|]. intros _. unfold plains, nonvars. cbn [flat_map].
    destruct (plain_name free c); [left|right]; discriminate.
  Qed.

  Lemma cand_row_spec f us : forall ocs j0 j prs,
    In (j, prs) (cand_row f j0 ocs us) -> j0 <= j /\ prs = f (nth (j - j0) ocs (EInt 0)) us.
  Proof.
    induction ocs as [|oc ocs IH]; intros j0 j prs H; cbn [cand_row] in H; [contradiction|].
    assert (Hrec : In (j, prs) (cand_row f (S j0) ocs us) -> j0 <= j /\ prs = f (nth (j - j0) (oc :: ocs) (EInt 0)) us).
    { intros H'. apply IH in H'. destruct H' as [L E]. split; [lia|].
      replace (j - j0) with (S (j - S j0)) by lia. exact E. }
    destruct (f oc us) as [|r0 rs] eqn:E; [now apply Hrec|].
    destruct H as [H|H]; [|now apply Hrec].
    injection H as <- <-. split; [lia|]. rewrite Nat.sub_diag. cbn [nth]. now rewrite E.
  Qed.

  Lemma rows_ok ocs us (g : expr -> ufun) nvs :
    Forall wf us -> Forall (fun c => fspec c (g c)) nvs ->
    Forall2 (rowok free ocs us) nvs (map (fun f => cand_row f 0 ocs us) (map g nvs)).
  Proof.
    intros Hw H. induction H as [|c nvs Hc _ IH]; cbn [map]; constructor; [|exact IH].
    intros j prs Hin. apply cand_row_spec in Hin. destruct Hin as [_ ->]. rewrite Nat.sub_0_r.
    unfold nvfact. apply Hc. exact Hw.
  Qed.

  Lemma ac_mapper_spec op cs (g : expr -> ufun) :
    cs <> [] -> Forall (fun c => fspec c (g c)) cs ->
    forall o us, Forall wf us ->
      out_ok us (fun s => EAC op (map (subst s) cs) ~~ o) (ac_mapper free op (map (fun c => (c, g c)) cs) o us).
  Proof.
    intros Hne Hcs o us Hw. unfold ac_mapper. destruct o as [| |op' ocs| | |]; try apply out_ok_nil.
    destruct (acop_eqb op op') eqn:Eo; [|apply out_ok_nil]. apply acop_eqb_eq in Eo. subst op'.
    rewrite plain_of_map, nonvar_of_map.
    eapply out_ok_weaken.
    - apply (commut_assoc_spec free op ocs us (plains cs) _ Hw (plains_free cs)) with (nvs := nonvars cs).
      + destruct (split_nonempty cs Hne) as [H|H]; [now left|right].
        destruct (nonvars cs); [congruence|reflexivity].
      + apply rows_ok; [exact Hw|]. rewrite Forall_forall in *. intros c Hc. apply Hcs. now apply nonvars_incl.
      + now destruct (map g (nonvars cs)).
    - intros s _ Q. eapply AC_trans; [|exact Q]. rewrite <- map_app.
      apply AC_perm, Permutation_map, split_perm.
  Qed.

  Lemma dedup_names_incl l x : In x (dedup_names l) -> In x l.
  Proof.
    induction l as [|y l IH]; cbn [dedup_names]; [auto|].
    destruct (mem y l); [intros H; right; auto|]. intros [->|H]; [now left|right; auto].
  Qed.

  Lemma var_set_incl l x : In x (var_set swap l) -> In x l.
  Proof.
    unfold var_set. destruct l as [|a [|b [|c t]]]; try apply dedup_names_incl.
    destruct (String.eqb a b); [intros [->|[]]; now left|].
    destruct (swap a b); cbn; tauto.
  Qed.

  Hypothesis idel_ok : forall op, idel op = pym_ident op.

  Lemma ac_node_spec op cs (g : expr -> ufun) :
    cs <> [] -> Forall (fun c => fspec c (g c)) cs ->
    fspec (EAC op cs) (ac_node free swap idel op (map (fun c => (c, g c)) cs)).
  Proof.
    intros Hne Hcs o us Hw. unfold ac_node. cbn [subst].
    destruct (negb (Nat.eqb (length (map (fun c => (c, g c)) cs)) 2) || is_ac o).
    - now apply ac_mapper_spec.
    - apply out_ok_flat_map. intros v Hv. apply var_set_incl in Hv. rewrite plain_of_map in Hv.
      assert (Hvf : mem v free = true).
      { pose proof (plains_free cs) as Hp. rewrite Forall_forall in Hp. now apply Hp. }
      apply (out_ok_then
               (out_ok_unify_many free us (single v (EInt (idel op))) Hw (wf_single free v _ Hvf))
               (ac_mapper_spec op cs g Hne Hcs (EAC op [EInt (idel op); o]) _)).
      intros s _ _ Q. eapply AC_trans; [exact Q|]. rewrite idel_ok.
      eapply AC_trans; [apply AC_ident|apply AC_single].
  Qed.

  Theorem unify_sound t :
    call_fn_is_symbol t = true -> no_empty_ac t = true -> fspec t (unify free swap idel t).
  Proof.
    revert t. apply (symb_ind (fun t => no_empty_ac t = true -> fspec t (unify free swap idel t)));
      [intros x|intros z|intros op cs IH|intros a b IHa IHb|intros a b IHa IHb|intros x args kw IHa IHk];
      cbn [unify no_empty_ac]; rewrite ?andb_true_iff, ?forallb_Forall; intros Hn.
    - apply fspec_of_k, map_variable_spec.
    - apply map_constant_spec.
    - destruct Hn as [Hn1 Hn2]. apply ac_node_spec; [destruct cs; [discriminate|congruence] |].
      rewrite Forall_forall in *. auto.
    - apply (bin_spec true); [apply IHa|apply IHb]; tauto.
    - apply (bin_spec false); [apply IHa|apply IHb]; tauto.
    - destruct Hn as [[_ Hna] Hnk].
      apply call_node_spec; [apply Forall2_map_r | apply Forall2_kwmap_self]; rewrite Forall_forall in *; auto.
  Qed.
End Unif.

(* flattened_sum / flattened_product keep every property of terms that holds of integer constants,
   passes from a Sum/Product to its children and back from two or more children to the node: used for
   no_empty_ac and call_fn_is_symbol, the side conditions of unify_sound on the flattened template. *)
Section MkP.
  Variable Pb : expr -> bool.
  Hypothesis HPint : forall z, Pb (EInt z) = true.
  Hypothesis HPdown : forall op l, Pb (EAC op l) = true -> forallb Pb l = true.
  Hypothesis HPup : forall op a b l, forallb Pb (a :: b :: l) = true -> Pb (EAC op (a :: b :: l)) = true.

  Lemma ac_terms_P op e : Pb e = true -> forallb Pb (ac_terms op e) = true.
  Proof.
    induction e as [x|z|op' cs IH|a b IHa IHb|a b IHa IHb|f args kw IHf IHa IHk] using expr_ind';
      intros H; cbn [ac_terms]; try (cbn [forallb]; now rewrite H).
    - destruct (Z.eqb z (pym_ident op)); cbn [forallb]; [reflexivity|now rewrite H].
    - destruct (acop_eqb op op'); [|cbn [forallb]; now rewrite H].
      apply HPdown in H. rewrite forallb_flat_map. rewrite forallb_forall in *. rewrite Forall_forall in IH.
      intros c Hc. apply IH; auto.
  Qed.

  Lemma mk_ac_P op l : forallb Pb l = true -> Pb (mk_ac op l) = true.
  Proof.
    intros H. unfold mk_ac.
    destruct (match op with OProd => existsb prod_has_zero l | OSum => false end); [apply HPint|].
    assert (HT : forallb Pb (flat_map (ac_terms op) l) = true).
    { rewrite forallb_flat_map. rewrite forallb_forall in *. intros c Hc. apply ac_terms_P. auto. }
    destruct (flat_map (ac_terms op) l) as [|a [|b r]].
    - apply HPint.
    - cbn [forallb] in HT. now apply andb_true_iff in HT.
    - now apply HPup.
  Qed.
End MkP.


Lemma no_empty_flatten e : no_empty_ac (flatten e) = true.
Proof.
  induction e as [x|z|op cs IH|a b IHa IHb|a b IHa IHb|f args kw IHf IHa IHk] using expr_ind';
    cbn [flatten]; try reflexivity.
  - apply mk_ac_P.
    + reflexivity.
    + intros o l H. cbn [no_empty_ac] in H. now apply andb_true_iff in H.
    + intros o a b l H. cbn [no_empty_ac is_nil negb]. exact H.
    + rewrite forallb_map. apply forallb_forall. rewrite Forall_forall in IH. exact IH.
  - destruct (is_int 0 (flatten a)); [reflexivity|]. destruct (is_int 1 (flatten b)); [exact IHa|].
    cbn [no_empty_ac]. now rewrite IHa, IHb.
  - destruct (is_int 1 (flatten b)); [exact IHa|]. cbn [no_empty_ac]. now rewrite IHa, IHb.
  - cbn [no_empty_ac]. rewrite IHf, !forallb_map. cbn [andb].
    apply andb_true_iff. split; apply forallb_forall.
    + rewrite Forall_forall in IHa. exact IHa.
    + rewrite Forall_forall in IHk. intros [k v] Hkv. exact (IHk _ Hkv).
Qed.

Lemma fn_symbol_flatten e : call_fn_is_symbol e = true -> call_fn_is_symbol (flatten e) = true.
Proof.
  revert e. apply symb_ind;
    [intros x|intros z|intros op cs IH|intros a b IHa IHb|intros a b IHa IHb|intros x args kw IHa IHk];
    cbn [flatten]; try reflexivity.
  - apply mk_ac_P; auto. rewrite forallb_map. now apply forallb_Forall.
  - destruct (is_int 0 (flatten a)); [reflexivity|]. destruct (is_int 1 (flatten b)); [exact IHa|].
    cbn [call_fn_is_symbol]. now rewrite IHa, IHb.
  - destruct (is_int 1 (flatten b)); [exact IHa|]. cbn [call_fn_is_symbol]. now rewrite IHa, IHb.
  - cbn [flatten call_fn_is_symbol]. rewrite !forallb_map. cbn [andb].
    rewrite andb_true_iff, !forallb_Forall. split; [exact IHa|].
    eapply Forall_impl; [|exact IHk]. now intros [k v].
Qed.

Lemma pre_check_none free pre :
  pre_check free pre = None -> forall x e, In (x, e) pre -> mem x free = true.
Proof.
  induction pre as [|[y v] pre IH]; cbn [pre_check]; intros H x e Hin; [contradiction|].
  destruct (mem y free) eqn:E; [|discriminate].
  destruct Hin as [Hin|Hin]; [injection Hin as <- <-; exact E|eauto].
Qed.

Lemma pre_check_some free pre x :
  pre_check free pre = Some x -> In x (map fst pre) /\ mem x free = false.
Proof.
  induction pre as [|[y v] pre IH]; cbn [pre_check]; intros H; [discriminate|].
  destruct (mem y free) eqn:E.
  - destruct (IH H). split; [now right|assumption].
  - injection H as <-. split; [now left|exact E].
Qed.

(* match_model (Match.v) spells this match inline *)
Definition pre_list (pre : option (list (string * expr))) : list (string * expr) :=
  match pre with Some p => p | None => [] end.

Lemma initial_urecs_eqs pre u : In u (initial_urecs pre) -> eqs u = pre_list pre.
Proof. destruct pre; intros [<-|[]]; reflexivity. Qed.

(* every record in the list `records` of match(), not only the first, which match() returns *)
Theorem match_records_sound swap idel free pre tpl tgt :
  (forall op, idel op = pym_ident op) ->
  call_fn_is_symbol tpl = true ->
  NoDup (map fst (pre_list pre)) ->
  pre_check free (pre_list pre) = None ->
  out_ok free (initial_urecs pre) (fun s => subst s (flatten tpl) ~~ flatten tgt)
         (match_records swap idel free pre tpl tgt).
Proof.
  intros Hid Hsym Hnd Epc.
  apply (unify_sound free swap idel Hid (flatten tpl) (fn_symbol_flatten _ Hsym) (no_empty_flatten _)).
  destruct pre as [p|]; cbn [initial_urecs]; (constructor; [|constructor]).
  - apply wf_of_eqs; [exact Hnd|]. exact (pre_check_none _ _ Epc).
  - apply wf_empty.
Qed.

Theorem match_sound swap idel free_opt bound pre tpl tgt sigma amb :
  (forall op, idel op = pym_ident op) ->
  call_fn_is_symbol tpl = true ->
  NoDup (map fst (pre_list pre)) ->
  match_model swap idel free_opt bound pre tpl tgt = MOk sigma amb ->
  (forall x e, In (x, e) sigma -> In x (free_names free_opt bound tpl)) /\
  (forall x e, In (x, e) (pre_list pre) -> exists e', lookup sigma x = Some e' /\ canon e' = canon e) /\
  subst (sigma_of sigma) (flatten tpl) ~~ flatten tgt.
Proof.
  intros Hid Hsym Hnd H. unfold match_model in H.
  set (free := free_names free_opt bound tpl) in *.
  fold (pre_list pre) in H.
  destruct (pre_check free (pre_list pre)) as [x|] eqn:Epc; [discriminate|].
  pose proof (match_records_sound swap idel free pre tpl tgt Hid Hsym Hnd Epc) as Hok.
  destruct (match_records swap idel free pre tpl tgt) as [|r rest]; [discriminate|].
  injection H as <- _.
  pose proof (Forall_inv (out_ok_wf _ _ _ _ Hok)) as Wr.
  destruct (out_ok_ext _ _ _ _ r Hok (or_introl eq_refl)) as (u & Hu & Iu).
  split; [|split].
  - intros x e Hin. apply existsb_str_In. exact (wf_free free r x e Wr Hin).
  - intros x e Hin. rewrite <- (initial_urecs_eqs pre u Hu) in Hin.
    exact (sat_mono _ _ _ Iu (sat_self free r Wr) x e Hin).
  - apply (out_ok_ent _ _ _ _ r Hok (or_introl eq_refl)); [exact (dom_self free r Wr)|exact (sat_self free r Wr)].
Qed.

Theorem match_genuine swap idel free_opt bound pre tpl tgt sigma amb :
  (forall op, idel op = pym_ident op) ->
  call_fn_is_symbol tpl = true ->
  NoDup (map fst (pre_list pre)) ->
  match_model swap idel free_opt bound pre tpl tgt = MOk sigma amb ->
  forall rho F Q P,
    eval rho F Q P (subst (sigma_of sigma) (flatten tpl)) = eval rho F Q P (flatten tgt).
Proof.
  intros Hid Hsym Hnd H rho F Q P. apply AC1_sem.
  now destruct (match_sound _ _ _ _ _ _ _ _ _ Hid Hsym Hnd H) as (_ & _ & E).
Qed.

(* failure is one of the two documented ValueErrors, for the documented reason *)
Theorem match_error swap idel free_opt bound pre tpl tgt k :
  match_model swap idel free_opt bound pre tpl tgt = MErr k ->
  let free := free_names free_opt bound tpl in
  (k = ValueError_cannot_unify /\ pre_check free (pre_list pre) = None /\
   match_records swap idel free pre tpl tgt = [])
  \/ (exists x, k = ValueError_pre_match_not_candidate x /\
                In x (map fst (pre_list pre)) /\ mem x free = false).
Proof.
  intros H free. unfold match_model in H. fold free in H. fold (pre_list pre) in H.
  destruct (pre_check free (pre_list pre)) as [x|] eqn:Epc.
  - injection H as <-. right. exists x. split; [reflexivity|]. now apply pre_check_some.
  - destruct (match_records swap idel free pre tpl tgt) as [|r rest] eqn:ER; [|discriminate].
    injection H as <-. left. auto.
Qed.

Theorem match_full idel :
  (forall op, idel op = pym_ident op) ->
  forall swap free_opt bound pre tpl tgt,
    call_fn_is_symbol tpl = true ->
    NoDup (map fst (pre_list pre)) ->
    match match_model swap idel free_opt bound pre tpl tgt with
    | MOk sigma _ =>
        (forall x e, In (x, e) sigma -> In x (free_names free_opt bound tpl)) /\
        (forall x e, In (x, e) (pre_list pre) -> exists e', lookup sigma x = Some e' /\ canon e' = canon e) /\
        (forall rho F Q P, eval rho F Q P (subst (sigma_of sigma) (flatten tpl)) = eval rho F Q P (flatten tgt))
    | MErr k =>
        (k = ValueError_cannot_unify /\
         match_records swap idel (free_names free_opt bound tpl) pre tpl tgt = nil)
        \/ (exists x, k = ValueError_pre_match_not_candidate x /\ In x (map fst (pre_list pre)) /\
                      mem x (free_names free_opt bound tpl) = false)
    end.
Proof.
  intros Hid swap free_opt bound pre tpl tgt Hsym Hnd.
  destruct (match_model swap idel free_opt bound pre tpl tgt) as [sigma amb|k] eqn:E.
  - destruct (match_sound _ _ _ _ _ _ _ _ _ Hid Hsym Hnd E) as (H1 & H2 & _).
    exact (conj H1 (conj H2 (match_genuine _ _ _ _ _ _ _ _ _ Hid Hsym Hnd E))).
  - destruct (match_error _ _ _ _ _ _ _ _ E) as [(H1 & _ & H3)|H]; [left; auto|right; exact H].
Qed.

Open Scope string_scope.

(* f(x + a, k = y*c) + z  against  d + f(a + (p*q), k = c)  with free x y z:
   needs commutativity, x := p*q, y := 1 (identity), z := d *)
Definition ex_tpl : expr :=
  ESum [ECall (EVar "f") [ESum [EVar "x"; EVar "a"]] [("k", EProd [EVar "y"; EVar "c"])]; EVar "z"].
Definition ex_tgt : expr :=
  ESum [EVar "d"; ECall (EVar "f") [ESum [EVar "a"; EProd [EVar "p"; EVar "q"]]] [("k", EVar "c")]].

Example ex_match_ok :
  call_fn_is_symbol ex_tpl = true /\ call_fn_is_symbol ex_tgt = true /\
  NoDup (map fst (pre_list (Some [("z", EVar "d")]))) /\
  match_model (fun _ _ => false) pym_ident (Some ["x"; "y"; "z"]) [] (Some [("z", EVar "d")]) ex_tpl ex_tgt
  = MOk [("z", EVar "d"); ("x", EProd [EVar "p"; EVar "q"]); ("y", EInt 1)] false.
Proof.
  split; [reflexivity|]. split; [reflexivity|]. split; [repeat constructor; intros []|].
  vm_compute. reflexivity.
Qed.

Example ex_match_err_unify :
  match_model (fun _ _ => false) pym_ident (Some ["x"; "y"]) [] None
              (ECall (EVar "f") [EVar "x"; EVar "y"] []) (ECall (EVar "f") [EVar "a"; EVar "a"] [])
  = MErr ValueError_cannot_unify.
Proof. vm_compute. reflexivity. Qed.

Example ex_match_err_pre :
  match_model (fun _ _ => false) pym_ident (Some ["x"]) [] (Some [("b", EVar "c")])
              (ESum [EVar "x"; EVar "b"]) (ESum [EVar "c"; EVar "d"])
  = MErr (ValueError_pre_match_not_candidate "b").
Proof. vm_compute. reflexivity. Qed.

Example ex_AC1 : ESum [EVar "a"; ESum [EInt 0; EVar "b"]] ~~ ESum [EVar "b"; EVar "a"].
Proof.
  eapply AC_trans; [exact (AC_assoc OSum [EVar "a"] [EInt 0; EVar "b"] [])|]. cbn [app].
  eapply AC_trans; [apply AC_perm; apply perm_swap|].
  eapply AC_trans; [apply AC_ident|]. apply AC_perm, perm_swap.
Qed.

(* The hypothesis on the function position is not redundant: with a compound
   expression in function position the unifier returns bindings under which
   the function expressions are only AC-equal, not equal. *)
Example fn_symbol_needed :
  let tpl := ECall (ESum [EVar "a"; EVar "x"]) [] [] in
  let tgt := ECall (ESum [EVar "b"; EVar "a"]) [] [] in
  exists sigma amb,
    match_model (fun _ _ => false) pym_ident (Some ["x"]) [] None tpl tgt = MOk sigma amb /\
    ~ (subst (sigma_of sigma) (flatten tpl) ~~ flatten tgt).
Proof.
  eexists _, _. split; [vm_compute; reflexivity|].
  intros H.
  pose (F := fun (f : expr) (_ : list Z) (_ : list (string * Z)) =>
               if expr_seqb f (ESum [EVar "a"; EVar "b"]) then 1%Z else 0%Z).
  apply (AC1_sem (fun _ => 0%Z) F Z.add Z.add) in H. vm_compute in H. discriminate.
Qed.
