(* Order independence at full strength (error outcomes included) for the shape in which unify accepts Integer
   in both asserts, SymbolKindTable.set flags insertions and re-raises failing unifications, the loop starts
   another pass instead of giving up when the table changed (c_restart), and the registry is monotone
   (c_arr_only).  A run that returns a table returns the least closed table T above the forced kinds
   (KindFinderProofs.run_least), and T does not depend on the order.  A run in any order stays between the
   forced kinds and T, so no unification fails; it cannot end in "no progress" either (never_stuck), and the
   closing loop sees T (pass_tracks, outer_no_err).  The pre-pass over the loop variables is not needed for
   this (order_independent_restart).  Also: dagrt.data.infer_kinds does not depend on the order of the phases
   dict. *)
From Coq Require Import List String Bool Permutation.
Import ListNotations.
From Dagrt Require Import Unify UnifyProofs KindOrder KindInfer KindRegistryProofs KindInferProofs
  KindTableProofs KindFinderProofs.
(* the imports leave string_scope open, in which ++ is string append *)
Close Scope string_scope.
Open Scope list_scope.

Section Full.
  Variable c : cfg.
  Hypothesis Hut : c_ut_int c = true.
  Hypothesis Harr : c_arr_int c = true.
  Hypothesis Hins : c_ins_changed c = true.
  Hypothesis Hraise : c_set_raises c = true.
  Hypothesis Hrestart : c_restart c = true.
  Hypothesis Hao : c_arr_only c = true.

  (* with the re-raise, nothing the finder does sets the swallowed flag *)
  Definition same_swallowed (st st' : tstate) : Prop := swallowed st' = swallowed st.

  Lemma same_swallowed_trans : forall a b d, same_swallowed a b -> same_swallowed b d -> same_swallowed a d.
  Proof. unfold same_swallowed. congruence. Qed.

  Lemma tset_same_swallowed : forall st p x k st', tset c st p x k = Ok st' -> same_swallowed st st'.
  Proof. intros st p x k st'. apply (tset_swallowed c Hut Harr). exact Hraise. Qed.

  Lemma set_many_swallowed : forall xs ks st p st', set_many c st p xs ks = Ok st' -> swallowed st' = swallowed st.
  Proof.
    intros xs ks st p st'.
    apply (set_many_rel c (fun _ => True) same_swallowed (fun _ => eq_refl) same_swallowed_trans
             (fun st p x k st' _ => tset_same_swallowed st p x k st')).
    apply Forall_forall. auto.
  Qed.

  Lemma set_loops_swallowed : forall l st p st', set_loops c st p l = Ok st' -> swallowed st' = swallowed st.
  Proof.
    exact (set_loops_rel c (fun _ => True) same_swallowed (fun _ => eq_refl) same_swallowed_trans
             (fun st p x k st' _ => tset_same_swallowed st p x k st') I).
  Qed.

  Lemma set_forced_swallowed : forall l st st', set_forced c st l = Ok st' -> swallowed st' = swallowed st.
  Proof.
    intros l st st'.
    apply (set_forced_rel c (fun _ => True) same_swallowed (fun _ => eq_refl) same_swallowed_trans
             (fun st p x k st' _ => tset_same_swallowed st p x k st')). auto.
  Qed.

  Lemma prepass_swallowed : forall l st st', prepass c st l = Ok st' -> swallowed st' = swallowed st.
  Proof.
    exact (prepass_rel c (fun _ => True) same_swallowed (fun _ => eq_refl) same_swallowed_trans
             (fun st p x k st' _ => tset_same_swallowed st p x k st') I).
  Qed.

  Lemma start_swallowed : forall l st st', start c st l = Ok st' -> swallowed st' = swallowed st.
  Proof.
    unfold start. intros l st st'.
    destruct (c_loops_prepass c); [apply prepass_swallowed|intros [= <-]; reflexivity].
  Qed.

  Lemma pstep_swallowed : forall st it st', pstep c st it st' -> swallowed st' = swallowed st.
  Proof.
    intros st it st' H. destruct (pstep_sets c _ _ _ H) as (st1 & E1 & [->|(ks & _ & E2)]).
    - exact (set_loops_swallowed _ _ _ _ E1).
    - rewrite (set_many_swallowed _ _ _ _ _ E2). exact (set_loops_swallowed _ _ _ _ E1).
  Qed.

  Lemma set_loops_closed_after : forall l st p st', good c st -> set_loops c st p l = Ok st' ->
    loops_closed c (tbl st') p l.
  Proof.
    induction l as [|i r IH]; intros st p st' Hg; cbn.
    - intros _ j [].
    - destruct (tset c st p i (Some KInt)) as [st1|e] eqn:E; [|discriminate].
      intro H.
      assert (Hne : Some KInt <> None) by discriminate.
      destruct (tset_ext c Hut Harr _ _ _ _ _ Hne E Hg) as [Hg1 _].
      intros j [<-|Hj]; [|eapply IH; eassumption].
      destruct (tset_closed_after c Hut Harr _ _ _ _ _ Hraise Hne E) as [v [Ev Hv]].
      destruct (set_loops_ext c Hut Harr _ _ _ _ H Hg1) as [_ [Hle _]].
      destruct (Hle _ _ Ev) as [v' [Ev' Hv']].
      exists v'. split; [assumption|eapply kle_trans; eassumption].
  Qed.

  Lemma final_check_none : forall T l, final_check c T l = None <->
    forall it, In it l -> check_item c T it = None.
  Proof.
    intros T. induction l as [|it r IH]; cbn.
    - split; [intros _ x []|reflexivity].
    - destruct (check_item c T it) as [e|] eqn:E.
      + split; [discriminate|]. intro H. rewrite (H it (or_introl eq_refl)) in E. discriminate.
      + rewrite IH. split.
        * intros H x [<-|Hx]; [assumption|apply H; assumption].
        * intros H x Hx. apply H. right; assumption.
  Qed.

  Lemma lookup_equiv : forall T T' p x, table_equiv T T' -> lookup T p x = lookup T' p x.
  Proof. intros T T' p x H. unfold lookup. rewrite !H. reflexivity. Qed.

  Lemma check_item_equiv : forall T T' it, table_equiv T T' -> check_item c T it = check_item c T' it.
  Proof.
    intros T T' it H. unfold check_item.
    rewrite (eval_check_ext c _ _ (snd it) (fun x => lookup_equiv T T' (fst it) x H)). reflexivity.
  Qed.

  Lemma unable_not_closed : forall T T' it, table_equiv T T' -> stmt_unable c T it -> stmt_closed c T' it -> False.
  Proof.
    intros T T' it Heq [_ [Esub Eun]] [_ Hrhs]. destruct (Hrhs Esub) as [ks [Ei _]].
    rewrite (eval_work_ext c _ _ (snd it) (fun y => lookup_equiv _ _ (fst it) y Heq)) in Eun. congruence.
  Qed.

  (* needs none of the switches and nothing about st1 *)
  Lemma run1_final : forall st1 all T sw1 fuel1, outer c fuel1 st1 all = OTable T sw1 -> final_check c T all = None.
  Proof.
    intros st1 all T sw1 fuel1 H.
    destruct (outer_last c (fun _ => True) all) with (fuel := fuel1) (st := st1) (T := T) (sw := sw1)
      as (st0 & st' & _ & _ & (_ & _ & Hf & _) & -> & _); auto.
  Qed.

  Lemma run1_sw : forall st1 all T sw1 fuel1,
    outer c fuel1 st1 all = OTable T sw1 -> swallowed st1 = false -> sw1 = false.
  Proof.
    intros st1 all T sw1 fuel1 H Hs1.
    destruct (outer_last c (fun s => swallowed s = false) all) with (fuel := fuel1) (st := st1) (T := T) (sw := sw1)
      as [st0 [st' [_ [Hp [_ [_ ->]]]]]]; try assumption.
    - intros s Hs; exact Hs.
    - intros s it s' _ Hs Hps. rewrite (pstep_swallowed _ _ _ Hps). exact Hs.
  Qed.

  Lemma run_checked : forall fuel forced all T sw,
    run_queue c fuel forced all = OTable T sw -> final_check c T all = None.
  Proof.
    intros fuel forced all T sw. rewrite (run_queue_unfold c).
    destruct (set_forced c (init_state c) forced) as [stf|e]; [|discriminate].
    destruct (start c stf all) as [st1|e]; [|discriminate]. apply run1_final.
  Qed.

  (* A run over `all` from a state between the forced kinds T0 and the least closed table T. *)
  Section AgainstLeast.
    Variables (T0 : table) (all : list qitem) (T : table).
    Hypothesis Hwf : forall it, In it all -> wf_item it.
    Hypothesis HT : least_closed c T0 all T.

    (* below T, so that no unification can fail (process_below); above the forced kinds, so that T, being
       least, is below every weakly closed table of the run *)
    Definition tracks (s : tstate) : Prop :=
      good c s /\ tle (tbl s) T /\ tle T0 (tbl s) /\ swallowed s = false.

    Lemma tracks_step : forall s it, In it all -> tracks s ->
      exists s', pstep c s it s' /\ tracks s'.
    Proof.
      intros s it Hin (Hg & HleT & Hle0 & Hsw).
      destruct (process_below c Hut Harr Hao s it T Hg (least_closed_canon c _ _ _ HT) HleT
                  (least_closed_wclosed c _ _ _ HT it Hin)) as (s' & Hps & Hle' & Hsw').
      destruct (pstep_ext c Hut Harr _ _ _ (Hwf it Hin) Hps Hg) as [Hg' [Hgrow _]].
      exists s'. split; [assumption|]. split; [assumption|]. split; [assumption|].
      split; [eapply tle_trans; eassumption|]. rewrite Hsw'. assumption.
    Qed.

    Lemma tracks_wclosed_equiv_T : forall s, tracks s -> (forall it, In it all -> stmt_wclosed c (tbl s) it) ->
      table_equiv (tbl s) T.
    Proof.
      intros s (Hg & HleT & Hle0 & _) Hw. apply tle_antisym; [assumption|].
      apply (least_closed_least c _ _ _ HT); [exact (good_canon c _ Hg)|assumption..].
    Qed.

    Lemma tracks_reset : forall s, tracks s -> tracks (reset s).
    Proof. intros s H; exact H. Qed.

    (* If every statement is closed or, in the push buffer, cannot be inferred, the table is T -- under which
       every statement can be inferred. *)
    Lemma never_stuck : forall s x b, tracks s -> incl (x :: b) all ->
      (forall y, In y (x :: b) -> stmt_unable c (tbl s) y) ->
      (forall it, In it all -> In it (x :: b) \/ stmt_closed c (tbl s) it) -> False.
    Proof.
      intros s x b Htr Hinc Hun Hcl. apply (unable_not_closed (tbl s) T x).
      - apply tracks_wclosed_equiv_T; [assumption|]. intros it Hin.
        destruct (Hcl it Hin) as [Hb|Hc]; [apply unable_wclosed, Hun, Hb|apply closed_wclosed, Hc].
      - apply Hun. left; reflexivity.
      - apply (least_closed_closed c _ _ _ HT), Hinc. left; reflexivity.
    Qed.

    (* One pass: no error; and if it ends with the change flag down, with T.  The "no progress" exit is taken
       with the change flag up (restart) or not at all (never_stuck). *)
    Lemma pass_tracks : forall fuel st0 s q b pr,
      incl q all -> incl b all -> tracks s -> all_done c all [] st0 s q b ->
      match inner c fuel s q b pr with
      | FErr _ => False
      | FOk s' => tracks s' /\ (changed s' = false -> table_equiv (tbl s') T)
      | FOutOfFuel => True
      end.
    Proof.
      intros fuel st0 s q b pr Hq Hb Htr Hdone.
      refine (inner_rule c all (fun s q b _ => tracks s /\ all_done c all [] st0 s q b)
                (fun r => match r with
                          | FErr _ => False
                          | FOk s' => tracks s' /\ (changed s' = false -> table_equiv (tbl s') T)
                          | FOutOfFuel => True
                          end) I _ _ _ _ fuel s q b pr Hq Hb (conj Htr Hdone));
        clear fuel s q b pr Hq Hb Htr Hdone.
      - intros s _ [Htr Hdone]. split; [assumption|]. intro Hc. pose proof Htr as (_ & _ & _ & Hsw).
        destruct (Hdone Hc Hsw) as (_ & _ & Hcl). apply tracks_wclosed_equiv_T; [assumption|].
        intros it Hin. apply closed_wclosed. destruct (Hcl it Hin) as [[]|]; assumption.
      - intros s x b [Htr Hdone]. split; [assumption|apply all_done_sweep, Hdone].
      - intros s x b Hinc [Htr Hdone]. rewrite Hrestart. cbn.
        destruct (changed s) eqn:Ec; [split; [assumption|discriminate]|]. pose proof Htr as (_ & _ & _ & Hsw).
        destruct (Hdone Ec Hsw) as (_ & Hun & Hcl). apply (never_stuck s x b Htr Hinc); [|exact Hcl].
        intros y Hy. destruct (Hun y Hy) as [[]|U]; exact U.
      - intros s it q b pr Hit [Htr Hdone]. pose proof Htr as (Hg & _).
        destruct (tracks_step s it Hit Htr) as [s' [Hps Htr']].
        pose proof (all_done_step c Hut Harr Hins all [] st0 s it q b Hg (Hwf it Hit) Hdone) as Hd.
        unfold pstep in Hps. destruct (process c s it); [discriminate|..]; injection Hps as ->; split; assumption.
    Qed.

    Hypothesis Hchk : final_check c T all = None.

    Lemma outer_no_err : forall fuel s e, tracks s -> outer c fuel s all = OErr e -> False.
    Proof.
      induction fuel as [|f IH]; intros s e Htr; cbn [outer]; [discriminate|].
      fold (reset s).
      pose proof (pass_tracks (S (List.length all) * S (S (List.length all))) (reset s) (reset s) (rev all) [] false
                    (incl_rev_l all) (incl_nil_l all) (tracks_reset s Htr) (all_done_start c all (reset s))) as Hp.
      destruct (inner c _ (reset s) (rev all) [] false) as [s'|e'|]; [|contradiction|discriminate].
      destruct Hp as [Htr' Heq]. destruct (changed s'); [apply IH; assumption|].
      (* the table is T, and T passed the consistency loop *)
      replace (final_check c (tbl s') all) with (@None err); [discriminate|]. symmetry.
      apply final_check_none. intros it Hin. rewrite (check_item_equiv _ _ it (Heq eq_refl)).
      revert it Hin. apply final_check_none, Hchk.
    Qed.

  End AgainstLeast.

End Full.

Section FullTheorem.
  Variable c : cfg.
  Hypothesis Hut : c_ut_int c = true.
  Hypothesis Harr : c_arr_int c = true.
  Hypothesis Hins : c_ins_changed c = true.
  Hypothesis Hraise : c_set_raises c = true.
  Hypothesis Hpre : c_loops_prepass c = true.
  Hypothesis Hrestart : c_restart c = true.
  Hypothesis Hao : c_arr_only c = true.
  Hypothesis Hinit : forall x, In x (c_init_global c) -> c_is_state c x = true.

  Lemma run_swallowed_nothing : forall fuel forced all T sw,
    run_queue c fuel forced all = OTable T sw -> sw = false.
  Proof.
    intros fuel forced all T sw. rewrite (run_queue_unfold c).
    destruct (set_forced c (init_state c) forced) as [stf|e] eqn:Ef; [|discriminate].
    destruct (start c stf all) as [st1|e] eqn:E1; [|discriminate]. intro R.
    apply (run1_sw c Hut Harr Hraise _ _ _ _ _ R).
    rewrite (start_swallowed c Hut Harr Hraise _ _ _ E1), (set_forced_swallowed c Hut Harr Hraise _ _ _ Ef). reflexivity.
  Qed.

  (* A run that returns a table returns the least closed one, and that table passed the consistency loop:
     then no order of the statements ends in an error. *)
  Lemma other_order_no_error : forall fuel fuel' forced all all' T sw e,
    Permutation all all' ->
    (forall it, In it all -> wf_item it) ->
    (forall p x k, In (p, x, k) forced -> k <> None) ->
    run_queue c fuel forced all = OTable T sw ->
    run_queue c fuel' forced all' = OErr e -> False.
  Proof.
    intros fuel fuel' forced all all' T sw e Hperm Hwf Hforced H1 H2.
    pose proof (Permutation_in_iff _ _ Hperm) as Hin.
    rewrite (run_swallowed_nothing _ _ _ _ _ H1) in H1. pose proof (run_checked c _ _ _ _ _ H1) as Hchk.
    destruct (run_least c Hut Harr Hins Hinit Hao _ _ _ _ Hwf Hforced H1) as [stf [Ef [Hgf HT]]].
    apply (least_closed_items c _ _ _ _ Hin) in HT.
    rewrite run_queue_unfold, Ef in H2.
    destruct (start_below c Hut Harr all' stf T (least_closed_above c _ _ _ HT) (least_closed_wclosed c _ _ _ HT))
      as (st2 & E2 & Hle2 & Hsw2).
    rewrite E2 in H2.
    destruct (start_ext c Hut Harr _ _ _ E2 Hgf) as [Hg2 [Hf2 _]].
    eapply (outer_no_err c Hut Harr Hins Hrestart Hao (tbl stf) all' T) with (s := st2); try eassumption.
    - intros it Hit. apply Hwf, Hin, Hit.
    - apply final_check_none. intros it Hit. apply Hin in Hit. revert it Hit. apply final_check_none, Hchk.
    - split; [assumption|]. split; [assumption|]. split; [assumption|].
      rewrite Hsw2. exact (set_forced_swallowed c Hut Harr Hraise _ _ _ Ef).
  Qed.

  (* The pre-pass over the loop variables is not needed once the finder restarts after a change.
     `order_independent` below is this theorem with the premise c_loops_prepass c = true in front: the statement
     that KindCfgProofs.gen_order_independent, and through it props/C14.v, instantiates. *)
  Theorem order_independent_restart : forall fuel fuel' forced all all',
    Permutation all all' ->
    (forall it, In it all -> wf_item it) ->
    (forall p x k, In (p, x, k) forced -> k <> None) ->
    run_queue c fuel forced all <> OOutOfFuel ->
    run_queue c fuel' forced all' <> OOutOfFuel ->
    outcome_sim (run_queue c fuel forced all) (run_queue c fuel' forced all').
  Proof.
    intros fuel fuel' forced all all' Hperm Hwf Hforced Hf1 Hf2.
    assert (Hwf' : forall it, In it all' -> wf_item it).
    { intros it Hin. apply Hwf. revert Hin. apply Permutation_in, Permutation_sym, Hperm. }
    destruct (run_queue c fuel forced all) as [T sw|e|] eqn:R1;
      destruct (run_queue c fuel' forced all') as [T' sw'|e'|] eqn:R2; cbn; try contradiction; try exact I.
    - rewrite (run_swallowed_nothing _ _ _ _ _ R1) in R1.
      rewrite (run_swallowed_nothing _ _ _ _ _ R2) in R2.
      eapply (order_independent_partial c Hut Harr Hins Hinit Hao); eassumption.
    - exfalso. eapply other_order_no_error; eassumption.
    - exfalso. eapply other_order_no_error with (all := all') (all' := all); try eassumption.
      apply Permutation_sym; assumption.
  Qed.

  Theorem order_independent : forall fuel fuel' forced all all',
    Permutation all all' ->
    (forall it, In it all -> wf_item it) ->
    (forall p x k, In (p, x, k) forced -> k <> None) ->
    run_queue c fuel forced all <> OOutOfFuel ->
    run_queue c fuel' forced all' <> OOutOfFuel ->
    outcome_sim (run_queue c fuel forced all) (run_queue c fuel' forced all').
  Proof using Hut Harr Hins Hraise Hpre Hrestart Hao Hinit. exact order_independent_restart. Qed.

  Lemma combine_fst_snd : forall {A B} (l : list (A * B)), combine (map fst l) (map snd l) = l.
  Proof. induction l as [|[a b] l IH]; cbn; [reflexivity|]. rewrite IH. reflexivity. Qed.

  Lemma queue_of_perm : forall d d', Permutation d d' -> Permutation (queue_of d) (queue_of d').
  Proof.
    intros d d' H. unfold queue_of. induction H; cbn.
    - constructor.
    - apply Permutation_app_head. assumption.
    - rewrite !app_assoc. apply Permutation_app_tail. apply Permutation_app_comm.
    - eapply Permutation_trans; eassumption.
  Qed.

  Lemma in_queue_of : forall d it, In it (queue_of d) ->
    exists ph, In ph d /\ fst it = fst ph /\ In (snd it) (snd ph).
  Proof.
    intros d it H. unfold queue_of in H. apply in_flat_map in H. destruct H as [ph [Hph Hin]].
    apply in_map_iff in Hin. destruct Hin as [s [<- Hs]]. exists ph. cbn. auto.
  Qed.

  (* the table does not depend on the order in which the phases dict lists the phases (nor on
     the order of the statements inside a phase: order_independent) *)
  Theorem infer_kinds_phase_order : forall fuel fuel' dag dag',
    Permutation dag dag' ->
    (forall ph s, In ph dag -> In s (snd ph) -> stmt_ok s = true) ->
    infer_kinds c fuel dag <> OOutOfFuel ->
    infer_kinds c fuel' dag' <> OOutOfFuel ->
    outcome_sim (infer_kinds c fuel dag) (infer_kinds c fuel' dag').
  Proof.
    intros fuel fuel' dag dag' Hperm Hok. unfold infer_kinds, find_kinds. rewrite !combine_fst_snd.
    apply order_independent.
    - apply queue_of_perm; assumption.
    - intros it Hin. destruct (in_queue_of _ _ Hin) as [ph [Hph [_ Hs]]]. exact (Hok ph (snd it) Hph Hs).
    - intros p x k [].
  Qed.

End FullTheorem.
