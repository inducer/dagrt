(* C07, top level.  pass_ok is what a pass guarantees (values, events, call log, fresh names and ids); pass_correct
   gives it for any statement-level function that meets sspec, from rewrite_sim; the per-pass theorems and the
   pipeline are instances.  guards_thm is separate: what a pass puts in the place of a leaf (derived / sdderived)
   carries the guard, lifted to trees by run_pass_derives.  The witnesses refute the full statement and the
   unrepaired shapes by computation. *)
From Coq Require Import List ZArith NArith String Ascii Bool Arith Lia Permutation.
Import ListNotations.
From Dagrt Require Import Lang LangProofs Sched Transform TransformSem TransformSide TransformBasics TransformHoist
     TransformSpec TransformMappers TransformLeaf TransformStmt TransformSd TransformTree ListFacts.

Lemma leaves_tstmts t ss : leaves t = Some ss -> ss = tstmts t.
Proof.
  revert ss. induction t as [s| |l IH|c t IHt|c t e IHt IHe|x lo hi b IHb] using tree_ind'; intros ss H;
    cbn [leaves tstmts] in *.
  - now inversion H.
  - discriminate.
  - revert ss H. induction IH as [|t l Ht _ IHl]; intros ss H.
    + now inversion H.
    + destruct (leaves t) as [a|]; [|discriminate].
      destruct ((fix go (l : list tree) : option (list tstmt) :=
                   match l with
                   | [] => Some []
                   | x :: r => match leaves x, go r with
                               | Some a, Some b => Some (a ++ b)
                               | _, _ => None
                               end
                   end) l) as [b|] eqn:Eb; [|discriminate].
      inversion H; subst. cbn [flat_map]. now rewrite (Ht a eq_refl), (IHl b eq_refl).
  - auto.
  - destruct (leaves t) as [a|]; [|discriminate]. destruct (leaves e) as [b|]; [|discriminate].
    inversion H; subst. now rewrite (IHt a eq_refl), (IHe b eq_refl).
  - auto.
Qed.

(* with the repaired get_read_variables (C08) the declared sets of a loop-free statement cover
   every variable it mentions *)
Lemma svars_declared lbr s :
  loopfree (tkd s) = true -> incl (svars s) (swrites s ++ sreads true lbr s).
Proof.
  intros Hl. unfold svars, swrites, sreads, reads, writes. destruct s as [id deps cond k]. cbn [to_stmt scond skd tcond tkd].
  intros x Hx. rewrite !in_app_iff in *. destruct Hx as [Hx|Hx]; [tauto|].
  destruct k as [y sub rhs loops|xs fn args kw|comp tid time e| | | |]; cbn [kvars kind_reads kind_writes] in *;
    try contradiction.
  - destruct loops; [|discriminate]. destruct Hx as [<-|Hx]; [left; now left|].
    rewrite !in_app_iff in Hx. right. left. rewrite !in_app_iff. cbn [flat_map In] in Hx. tauto.
  - rewrite !in_app_iff in Hx. destruct Hx as [Hx|[Hx|Hx]]; [tauto| |].
    + right. left. apply in_app_iff. now left.
    + right. left. apply in_app_iff. right. rewrite flat_map_map in Hx. exact Hx.
  - right. left. exact Hx.
Qed.

Lemma tvars_split t : forall x, In x (tvars t) -> In x (flat_map svars (tstmts t)) \/ In x (node_vars t).
Proof.
  induction t as [s| |l IH|c t IHt|c t e IHt IHe|y lo hi b IHb] using tree_ind'; intros x Hx;
    cbn [tvars tstmts node_vars flat_map] in *.
  - left. now rewrite app_nil_r.
  - contradiction.
  - induction IH as [|t l Ht _ IHl]; cbn [flat_map] in *; [contradiction|].
    rewrite flat_map_app, !in_app_iff in *. destruct Hx as [Hx|Hx]; [apply Ht in Hx|apply IHl in Hx]; tauto.
  - rewrite !in_app_iff in *. destruct Hx as [Hx|Hx]; [tauto|]. apply IHt in Hx. tauto.
  - rewrite flat_map_app, !in_app_iff in *. destruct Hx as [Hx|[Hx|Hx]]; [tauto|apply IHt in Hx|apply IHe in Hx]; tauto.
  - destruct Hx as [<-|Hx]; [right; now left|]. rewrite !in_app_iff in Hx. cbn [In]. rewrite !in_app_iff.
    destruct Hx as [Hx|[Hx|Hx]]; [tauto|tauto|]. apply IHb in Hx. tauto.
Qed.

Lemma seed_complete lbr t :
  forallb (fun s => loopfree (tkd s)) (tstmts t) = true ->
  incl (tvars t) (ex (gvars (seed true lbr true t (tstmts t)))).
Proof.
  intros Hl x Hx. cbn [seed gvars ex]. apply in_app_iff. apply tvars_split in Hx. destruct Hx as [Hx|Hx]; [left|now right].
  apply in_flat_map in Hx. destruct Hx as (s & Hs & Hx). apply in_flat_map. exists s. split; [exact Hs|].
  rewrite forallb_forall in Hl. now apply (svars_declared lbr s (Hl s Hs)).
Qed.

Lemma run_pass_inv lsr lbr snv ms t t' st' :
  run_pass lsr lbr snv ms t = TOk (t', st') ->
  rewrite_tree ms t (seed lsr lbr snv t (tstmts t)) = TOk (t', st').
Proof.
  unfold run_pass, apply_rewriter. destruct (modelled_tree t); [|discriminate].
  destruct (leaves t) as [ss|] eqn:El; [|discriminate]. apply leaves_tstmts in El. now subst ss.
Qed.

Definition seeded (lsr lbr snv : bool) (t : tree) : gst := seed lsr lbr snv t (tstmts t).

Section Pass.
  Variable F : string -> list val -> list (string * val) -> option (list val).
  Variable dg : bool.

  Definition tids (t : tree) : list string := map tid (tstmts t).

  Definition pass_ok (st0 : gst) (t t' : tree) (st' : gst) : Prop :=
    exists N I,
      ext st0 st' N I /\
      (forall x, In x N -> ~ In x (tvars t)) /\
      (forall x, In x I -> ~ In x (tids t)) /\
      (NoDup (tids t) -> NoDup (tids t')) /\
      (forall a, srel N (run F dg t a) (run F dg t' a)).

  Variable ms : tstmt -> M (list tstmt).
  Variable okl : tstmt -> bool.
  Hypothesis Hms : forall s st l st', okl s = true -> ms s st = TOk (l, st') -> sspec F dg s st l st'.
  Hypothesis Hlf : forall s, okl s = true -> loopfree (tkd s) = true.

  Theorem pass_correct lsr lbr snv t t' st' :
    run_pass lsr lbr snv ms t = TOk (t', st') ->
    forallb okl (tstmts t) = true ->
    incl (tvars t) (ex (gvars (seeded lsr lbr snv t))) ->
    pass_ok (seeded lsr lbr snv t) t t' st'.
  Proof.
    intros E Hok Hseed. apply run_pass_inv in E.
    destruct (rewrite_sim F dg ms okl Hms Hlf t Hok _ _ _ E) as (N & I & X & C & Hs).
    exists N, I. pose proof (ext_fresh_vars _ _ _ _ X) as Fv. pose proof (ext_fresh_ids _ _ _ _ X) as Fi.
    assert (Hfr : forall x, In x N -> ~ In x (tvars t)).
    { intros x Hx Hin. apply (in_fresh_not_old _ _ _ Fv Hx). now apply Hseed. }
    split; [exact X|split; [exact Hfr|split; [|split]]].
    - intros x Hx. apply (in_fresh_not_old _ _ _ Fi Hx).
    - (* the ids of t' are those of t and the generated ones *)
      intros Hnd. apply (Permutation_NoDup (l := tids t ++ I)).
      + apply Permutation_sym, (Permutation_count_occ string_dec). intros x. rewrite count_occ_app. apply C.
      + apply NoDup_app_intro; [exact Hnd|apply Fi|]. intros x Hx Hi. exact (in_fresh_not_old _ _ _ Fi Hi Hx).
    - intros a. apply Hs; [exact Hseed|apply incl_refl|intros x Hx Hn; now apply (Hfr x Hn)|apply srel_refl].
  Qed.

  (* Each pass seeds its generators from the tree it is given; with the repaired
     get_var_name_generator / get_read_variables every variable of that tree is known to it.
     The switches are premises, discharged in props/C07.v by reflexivity on the generated constants. *)
  Theorem pass_seeded lsr snv : lsr = true -> snv = true ->
    forall lbr t t' st',
      run_pass lsr lbr snv ms t = TOk (t', st') -> forallb okl (tstmts t) = true ->
      pass_ok (seeded lsr lbr snv t) t t' st'.
  Proof.
    intros -> -> lbr t t' st' E Hok. apply pass_correct; [exact E|exact Hok|].
    apply seed_complete. apply forallb_forall. intros s Hs. rewrite forallb_forall in Hok. auto.
  Qed.
End Pass.

Lemma base_loopfree s : base_leaf s = true -> loopfree (tkd s) = true.
Proof. intros H. now apply base_leaf_inv in H. Qed.

Lemma sd_leaf_lf s : sd_leaf s = true -> loopfree (tkd s) = true.
Proof. unfold sd_leaf. intros H. apply andb_true_iff in H. destruct H as [H _]. now apply base_loopfree. Qed.
Lemma fai_leaf_lf s : fai_leaf s = true -> loopfree (tkd s) = true.
Proof.
  unfold fai_leaf. intros H. apply andb_true_iff in H. destruct H as [H _]. apply andb_true_iff in H.
  destruct H as [H _]. now apply base_loopfree.
Qed.
Lemma fci_leaf_lf s : fci_leaf s = true -> loopfree (tkd s) = true.
Proof. unfold fci_leaf. intros H. apply andb_true_iff in H. destruct H as [H _]. now apply base_loopfree. Qed.
Lemma ite_leaf_lf s : ite_leaf s = true -> loopfree (tkd s) = true.
Proof. unfold ite_leaf. intros H. apply andb_true_iff in H. destruct H as [H _]. now apply base_loopfree. Qed.

(* the order of fortran.py's process_ast *)
Definition fortran_order : list string :=
  ["eliminate_self_dependencies"; "isolate_function_arguments"; "isolate_function_calls"; "expand_IfThenElse"]%string.

Section Four.
  Variable F : string -> list val -> list (string * val) -> option (list val).
  Variable dg : bool.

  (* Any shape of the switches, given that the seed covers the variables of the tree. *)
  Theorem sd_correct lsr lbr snv sds ords t t' st' :
    eliminate_self_dependencies lsr lbr snv sds ords t = TOk (t', st') ->
    forallb sd_leaf (tstmts t) = true ->
    incl (tvars t) (ex (gvars (seed lsr lbr snv t (tstmts t)))) ->
    pass_ok F dg (seed lsr lbr snv t (tstmts t)) t t' st'.
  Proof. exact (pass_correct F dg _ sd_leaf (ms_sd_ok F dg lsr lbr sds ords) sd_leaf_lf lsr lbr snv t t' st'). Qed.

  Theorem fai_correct lsr lbr snv t t' st' :
    isolate_function_arguments lsr lbr snv t = TOk (t', st') ->
    forallb fai_leaf (tstmts t) = true ->
    incl (tvars t) (ex (gvars (seed lsr lbr snv t (tstmts t)))) ->
    pass_ok F dg (seed lsr lbr snv t (tstmts t)) t t' st'.
  Proof. exact (pass_correct F dg ms_fai fai_leaf (ms_fai_ok F dg) fai_leaf_lf lsr lbr snv t t' st'). Qed.

  Theorem fci_correct lsr lbr snv fixed t t' st' :
    isolate_function_calls lsr lbr snv fixed t = TOk (t', st') ->
    forallb fci_leaf (tstmts t) = true ->
    incl (tvars t) (ex (gvars (seed lsr lbr snv t (tstmts t)))) ->
    pass_ok F dg (seed lsr lbr snv t (tstmts t)) t t' st'.
  Proof. exact (pass_correct F dg _ fci_leaf (ms_fci_ok F dg fixed) fci_leaf_lf lsr lbr snv t t' st'). Qed.

  Theorem ite_correct lsr lbr snv t t' st' :
    expand_IfThenElse lsr lbr snv true t = TOk (t', st') ->
    forallb ite_leaf (tstmts t) = true ->
    incl (tvars t) (ex (gvars (seed lsr lbr snv t (tstmts t)))) ->
    pass_ok F dg (seed lsr lbr snv t (tstmts t)) t t' st'.
  Proof. exact (pass_correct F dg _ ite_leaf (ms_ite_ok F dg) ite_leaf_lf lsr lbr snv t t' st'). Qed.

  Theorem sd_thm lsr snv : lsr = true -> snv = true ->
    forall lbr sds ords t t' st',
      eliminate_self_dependencies lsr lbr snv sds ords t = TOk (t', st') ->
      forallb sd_leaf (tstmts t) = true -> pass_ok F dg (seeded lsr lbr snv t) t t' st'.
  Proof.
    intros Hl Hs lbr sds ords.
    apply (pass_seeded F dg (ms_sd lsr lbr sds ords) sd_leaf (ms_sd_ok F dg lsr lbr sds ords) sd_leaf_lf lsr snv Hl Hs).
  Qed.

  Theorem fai_thm lsr snv : lsr = true -> snv = true ->
    forall lbr t t' st',
      isolate_function_arguments lsr lbr snv t = TOk (t', st') ->
      forallb fai_leaf (tstmts t) = true -> pass_ok F dg (seeded lsr lbr snv t) t t' st'.
  Proof. exact (pass_seeded F dg ms_fai fai_leaf (ms_fai_ok F dg) fai_leaf_lf lsr snv). Qed.

  (* both shapes of isolate_call: the unrepaired one either raises TypeError or agrees *)
  Theorem fci_thm lsr snv : lsr = true -> snv = true ->
    forall lbr fixed t t' st',
      isolate_function_calls lsr lbr snv fixed t = TOk (t', st') ->
      forallb fci_leaf (tstmts t) = true -> pass_ok F dg (seeded lsr lbr snv t) t t' st'.
  Proof.
    intros Hl Hs lbr fixed. apply (pass_seeded F dg (ms_fci fixed) fci_leaf (ms_fci_ok F dg fixed) fci_leaf_lf lsr snv Hl Hs).
  Qed.

  Theorem ite_thm lsr snv ff : lsr = true -> snv = true -> ff = true ->
    forall lbr t t' st',
      expand_IfThenElse lsr lbr snv ff t = TOk (t', st') ->
      forallb ite_leaf (tstmts t) = true -> pass_ok F dg (seeded lsr lbr snv t) t t' st'.
  Proof. intros Hl Hs ->. exact (pass_seeded F dg (ms_ite true) ite_leaf (ms_ite_ok F dg) ite_leaf_lf lsr snv Hl Hs). Qed.

  Lemma srel_chain N1 N2 S1 S2 S3 : srel N1 S1 S2 -> srel N2 S2 S3 -> srel (N1 ++ N2) S1 S3.
  Proof.
    intros H1 H2. eapply srel_trans.
    - eapply srel_incl; [|exact H1]. intros x Hx. apply in_app_iff. now left.
    - eapply srel_incl; [|exact H2]. intros x Hx. apply in_app_iff. now right.
  Qed.

  (* The side conditions on the three intermediate trees are decidable (and are evaluated on every
     case of the correspondence check); that the passes preserve them is not proved here. *)
  Theorem pipeline_correct lbr sds fixed ords t t1 t2 t3 t4 g1 g2 g3 g4 :
    eliminate_self_dependencies true lbr true sds ords t = TOk (t1, g1) ->
    isolate_function_arguments true lbr true t1 = TOk (t2, g2) ->
    isolate_function_calls true lbr true fixed t2 = TOk (t3, g3) ->
    expand_IfThenElse true lbr true true t3 = TOk (t4, g4) ->
    forallb sd_leaf (tstmts t) = true -> forallb fai_leaf (tstmts t1) = true ->
    forallb fci_leaf (tstmts t2) = true -> forallb ite_leaf (tstmts t3) = true ->
    exists N1 N2 N3 N4,
      (forall x, In x N1 -> ~ In x (tvars t)) /\ (forall x, In x N2 -> ~ In x (tvars t1)) /\
      (forall x, In x N3 -> ~ In x (tvars t2)) /\ (forall x, In x N4 -> ~ In x (tvars t3)) /\
      (NoDup (tids t) -> NoDup (tids t4)) /\
      (forall a, srel (N1 ++ N2 ++ N3 ++ N4) (run F dg t a) (run F dg t4 a)).
  Proof.
    intros E1 E2 E3 E4 H1 H2 H3 H4.
    destruct (sd_thm true true eq_refl eq_refl _ _ _ _ _ _ E1 H1) as (N1 & I1 & _ & F1 & _ & D1 & S1).
    destruct (fai_thm true true eq_refl eq_refl _ _ _ _ E2 H2) as (N2 & I2 & _ & F2 & _ & D2 & S2).
    destruct (fci_thm true true eq_refl eq_refl _ _ _ _ _ E3 H3) as (N3 & I3 & _ & F3 & _ & D3 & S3).
    destruct (ite_thm true true true eq_refl eq_refl eq_refl _ _ _ _ E4 H4) as (N4 & I4 & _ & F4 & _ & D4 & S4).
    exists N1, N2, N3, N4. repeat (split; [assumption|]). split; [auto|].
    intros a. eapply srel_chain; [apply S1|]. eapply srel_chain; [apply S2|]. eapply srel_chain; [apply S3|apply S4].
  Qed.

  Lemma run_passes_fortran lsr lbr snv sds fixed ff ords t t4 :
    run_passes lsr lbr snv sds fixed ff ords fortran_order t = TOk t4 ->
    exists t1 t2 t3 g1 g2 g3 g4,
      eliminate_self_dependencies lsr lbr snv sds ords t = TOk (t1, g1) /\
      isolate_function_arguments lsr lbr snv t1 = TOk (t2, g2) /\
      isolate_function_calls lsr lbr snv fixed t2 = TOk (t3, g3) /\
      expand_IfThenElse lsr lbr snv ff t3 = TOk (t4, g4).
  Proof.
    unfold fortran_order. cbn [run_passes]. unfold pass_named. cbn.
    destruct (eliminate_self_dependencies lsr lbr snv sds ords t) as [[t1 g1]|e] eqn:E1; [|discriminate].
    destruct (isolate_function_arguments lsr lbr snv t1) as [[t2 g2]|e] eqn:E2; [|discriminate].
    destruct (isolate_function_calls lsr lbr snv fixed t2) as [[t3 g3]|e] eqn:E3; [|discriminate].
    destruct (expand_IfThenElse lsr lbr snv ff t3) as [[t4' g4]|e] eqn:E4; [|discriminate].
    intros H. inversion H; subst. exists t1, t2, t3, g1, g2, g3, g4. repeat split; assumption.
  Qed.

  Theorem pipeline_thm lsr snv ff order :
    lsr = true -> snv = true -> ff = true -> order = fortran_order ->
    forall lbr sds fixed ords t t4,
      run_passes lsr lbr snv sds fixed ff ords order t = TOk t4 ->
      exists t1 t2 t3 g1 g2 g3 g4,
        eliminate_self_dependencies lsr lbr snv sds ords t = TOk (t1, g1) /\
        isolate_function_arguments lsr lbr snv t1 = TOk (t2, g2) /\
        isolate_function_calls lsr lbr snv fixed t2 = TOk (t3, g3) /\
        expand_IfThenElse lsr lbr snv ff t3 = TOk (t4, g4) /\
        (forallb sd_leaf (tstmts t) = true -> forallb fai_leaf (tstmts t1) = true ->
         forallb fci_leaf (tstmts t2) = true -> forallb ite_leaf (tstmts t3) = true ->
         exists N1 N2 N3 N4,
           (forall x, In x N1 -> ~ In x (tvars t)) /\ (forall x, In x N2 -> ~ In x (tvars t1)) /\
           (forall x, In x N3 -> ~ In x (tvars t2)) /\ (forall x, In x N4 -> ~ In x (tvars t3)) /\
           (NoDup (tids t) -> NoDup (tids t4)) /\
           (forall a, srel (N1 ++ N2 ++ N3 ++ N4) (run F dg t a) (run F dg t4 a))).
  Proof.
    intros -> -> -> -> lbr sds fixed ords t t4 E.
    destruct (run_passes_fortran _ _ _ _ _ _ _ _ _ E) as (t1 & t2 & t3 & g1 & g2 & g3 & g4 & E1 & E2 & E3 & E4).
    exists t1, t2, t3, g1, g2, g3, g4. repeat (split; [assumption|]).
    intros H1 H2 H3 H4. eapply pipeline_correct; eauto.
  Qed.
End Four.

(* leaves of a structured phase: no loops on statements, call-free guards, function symbols that
   are not written variables, one value per keyword in every call -- and NOTHING about where calls /
   conditional expressions occur *)
Definition plain_leaf (s : tstmt) : bool := sd_leaf s && forallb arity_ok (kexprs (tkd s)).

Definition full_statement_for
           (pass : tree -> tres (tree * gst)) (seedf : tree -> gst) : Prop :=
  forall F dg t t' st',
    pass t = TOk (t', st') -> forallb plain_leaf (tstmts t) = true -> pass_ok F dg (seedf t) t t' st'.

Definition wF (f : string) (pos : list val) (kw : list (string * val)) : option (list val) :=
  match pos with
  | [VInt z] => Some [VInt (z + 10)]
  | _ => None
  end.

Open Scope string_scope.
Definition call_f (a : expr) : expr := ENary (NCall "<func>f" []) [a].
Definition gt0 (x : string) : expr := EBin (BCmp CGt) (EVar x) (EInt 0).

(* y <- (f(x) if c > 0 else x) *)
Definition wit_hoist : tree :=
  TLeaf (mkT "s0" [] (EBool true) (KAssign "y" None (EIf (gt0 "c") (call_f (EVar "x")) (EVar "x")) [])).
Definition wit_store : store := upd (upd (upd empty "x" (VInt 1)) "c" (VInt 0)) "d" (VInt 1).

Definition log_of (r : trun) : list call := match r with TRun _ _ l | TStop _ _ l _ => l | TCrash _ => [] end.

(* For a fixed statement-level function the switches lsr, lbr, snv reach run_pass only through the seed of its
   generators (ms_sd reads lsr and lbr itself; no witness below runs it).  The seed of a tree whose one statement
   is an assignment without subscript or loops does not depend on lsr and lbr, that of a tree without loops and
   guards not on snv: each witness below is computed once. *)
Lemma run_pass_seed lsr lbr snv lsr' lbr' snv' ms t :
  seed lsr lbr snv t (tstmts t) = seed lsr' lbr' snv' t (tstmts t) ->
  run_pass lsr lbr snv ms t = run_pass lsr' lbr' snv' ms t.
Proof.
  intros H. unfold run_pass, apply_rewriter. destruct (leaves t) as [ss|] eqn:E; [|reflexivity].
  apply leaves_tstmts in E. subst ss. now rewrite H.
Qed.

Lemma run_pass_assign lsr lbr snv ms t id deps c x rhs :
  tstmts t = [mkT id deps c (KAssign x None rhs [])] ->
  run_pass lsr lbr snv ms t = run_pass true true snv ms t.
Proof. intros E. apply run_pass_seed. rewrite E. destruct lsr, lbr; reflexivity. Qed.

Lemma run_pass_no_node_vars lsr lbr snv ms t :
  node_vars t = [] -> run_pass lsr lbr snv ms t = run_pass lsr lbr true ms t.
Proof. intros E. apply run_pass_seed. unfold seed. rewrite E. destruct snv; reflexivity. Qed.

Lemma run_pass_assign_leaf lsr lbr snv ms t id deps c x rhs :
  t = TLeaf (mkT id deps c (KAssign x None rhs [])) ->
  run_pass lsr lbr snv ms t = run_pass true true true ms t.
Proof.
  intros ->. rewrite (run_pass_assign lsr lbr snv ms (TLeaf _) id deps c x rhs eq_refl). now apply run_pass_no_node_vars.
Qed.

(* A witness names the tree a pass returns by this projection: written out in normal form it
   would be checked again at every place of the statement where it occurs. *)
Definition out_tree (r : tres (tree * gst)) : tree := match r with TOk (t, _) => t | TErr _ => TNull end.

(* the call isolator calls f although the original statement does not (both shapes of every switch) *)
Lemma hoist_calls fixed :
  exists t' st', isolate_function_calls true true true fixed wit_hoist = TOk (t', st') /\
                 forall N, ~ srel N (run wF false wit_hoist wit_store) (run wF false t' wit_store).
Proof.
  destruct fixed; do 2 eexists; (split; [vm_compute; reflexivity|]); intros N S; vm_compute in S;
    destruct S as (_ & _ & P); apply Permutation_nil in P; discriminate.
Qed.

Lemma hoist_refuted lsr lbr snv fixed :
  ~ full_statement_for (isolate_function_calls lsr lbr snv fixed) (seeded lsr lbr snv).
Proof.
  intros H. destruct (hoist_calls fixed) as (t' & st' & E & X).
  unfold isolate_function_calls in E. rewrite <- (run_pass_assign_leaf lsr lbr snv _ wit_hoist _ _ _ _ _ eq_refl) in E.
  destruct (H wF false _ t' st' E eq_refl) as (N & I & _ & _ & _ & _ & S). exact (X N (S wit_store)).
Qed.

(* y <- f(f(x)) + 1: the unrepaired isolate_call raises TypeError *)
Definition wit_nested : tree :=
  TLeaf (mkT "s0" [] (EBool true) (KAssign "y" None (ENary NSum [call_f (call_f (EVar "x")); EInt 1]) [])).
Lemma arity_refuted lsr lbr snv :
  isolate_function_calls lsr lbr snv false wit_nested = TErr ETypeError /\
  forallb fci_leaf (tstmts wit_nested) = true.
Proof.
  unfold isolate_function_calls. rewrite (run_pass_assign_leaf lsr lbr snv _ wit_nested _ _ _ _ _ eq_refl). split; vm_compute; reflexivity.
Qed.
Lemma arity_repaired lsr lbr snv :
  exists r, isolate_function_calls lsr lbr snv true wit_nested = TOk r.
Proof.
  unfold isolate_function_calls. rewrite (run_pass_assign_leaf lsr lbr snv _ wit_nested _ _ _ _ _ eq_refl). eexists; vm_compute; reflexivity.
Qed.

(* for tmp in [0, 2): y <- f(5): the temporary takes the name of the loop counter *)
Definition wit_capture : tree :=
  TFor "tmp" (EInt 0) (EInt 2) (TLeaf (mkT "s0" [] (EBool true) (KAssign "y" None (call_f (EInt 5)) []))).
Definition final_of (r : trun) (x : var) : option val :=
  match r with TRun s _ _ | TStop s _ _ _ => s x | TCrash _ => None end.
Lemma capture_refuted lsr lbr :
  exists t', (exists st', isolate_function_arguments lsr lbr false wit_capture = TOk (t', st')) /\
             forallb fai_leaf (tstmts wit_capture) = true /\
             In "tmp" (tvars wit_capture) /\
             final_of (run wF false wit_capture empty) "tmp" = Some (VInt 1) /\
             final_of (run wF false t' empty) "tmp" = Some (VInt 5).
Proof.
  unfold isolate_function_arguments. rewrite (run_pass_assign lsr lbr false _ wit_capture _ _ _ _ _ eq_refl).
  exists (out_tree (run_pass true true false ms_fai wit_capture)). split; [eexists; vm_compute; reflexivity|].
  split; [vm_compute; reflexivity|split; [vm_compute; tauto|split; vm_compute; reflexivity]].
Qed.
Lemma capture_repaired lsr lbr :
  exists t' st', isolate_function_arguments lsr lbr true wit_capture = TOk (t', st') /\
                 final_of (run wF false t' empty) "tmp" = Some (VInt 1).
Proof.
  unfold isolate_function_arguments. rewrite (run_pass_assign lsr lbr true _ wit_capture _ _ _ _ _ eq_refl).
  exists (out_tree (run_pass true true true ms_fai wit_capture)). eexists. split; vm_compute; reflexivity.
Qed.

(* y <- ((1 if d > 0 else 2) if c > 0 else 3) with c = d = 1 *)
Definition wit_nested_if : tree :=
  TLeaf (mkT "s0" [] (EBool true)
             (KAssign "y" None (EIf (gt0 "c") (EIf (gt0 "d") (EInt 1) (EInt 2)) (EInt 3)) [])).
Definition wit_store2 : store := upd (upd empty "c" (VInt 1)) "d" (VInt 1).
Lemma flag_order_refuted lsr lbr snv :
  exists t', (exists st', expand_IfThenElse lsr lbr snv false wit_nested_if = TOk (t', st')) /\
             forallb ite_leaf (tstmts wit_nested_if) = true /\
             final_of (run wF false wit_nested_if wit_store2) "y" = Some (VInt 1) /\
             final_of (run wF false t' wit_store2) "y" = Some VNone.
Proof.
  unfold expand_IfThenElse. rewrite (run_pass_assign_leaf lsr lbr snv _ wit_nested_if _ _ _ _ _ eq_refl).
  exists (out_tree (run_pass true true true (ms_ite false) wit_nested_if)). split; [eexists; vm_compute; reflexivity|].
  split; [vm_compute; reflexivity|split; vm_compute; reflexivity].
Qed.
Lemma flag_order_repaired lsr lbr snv :
  exists t' st', expand_IfThenElse lsr lbr snv true wit_nested_if = TOk (t', st') /\
                 final_of (run wF false t' wit_store2) "y" = Some (VInt 1).
Proof.
  unfold expand_IfThenElse. rewrite (run_pass_assign_leaf lsr lbr snv _ wit_nested_if _ _ _ _ _ eq_refl).
  exists (out_tree (run_pass true true true (ms_ite true) wit_nested_if)). eexists. split; vm_compute; reflexivity.
Qed.

(* non-vacuity: if b: { x <- x + f(g(x + 1), k=y) ; a[i] <- (x + 2 if c > 0 else 2) under the guard c } inside a loop *)
Definition ex_tree : tree :=
  TFor "i" (EInt 0) (EVar "n")
    (TIf (EVar "<cond>b")
      (TBlock
        [TLeaf (mkT "s1" [] (EBool true)
                    (KAssign "x" None
                       (ENary NSum [EVar "x";
                                    ENary (NCall "<func>f" ["k"])
                                          [ENary (NCall "<func>g" []) [ENary NSum [EVar "x"; EInt 1]]; EVar "y"]]) []));
         TLeaf (mkT "s2" ["s1"] (EVar "<cond>c")
                    (KAssign "a" (Some (EVar "i"))
                       (EIf (gt0 "c") (ENary NSum [EVar "x"; EInt 2]) (EInt 2)) []))])).

Example ex_hyps :
  forallb sd_leaf (tstmts ex_tree) = true /\ forallb fai_leaf (tstmts ex_tree) = true /\
  forallb fci_leaf (tstmts ex_tree) = true /\ forallb ite_leaf (tstmts ex_tree) = true /\
  NoDup (tids ex_tree).
Proof.
  repeat split; try (vm_compute; reflexivity).
  vm_compute. repeat constructor; cbn; intuition discriminate.
Qed.

Example ex_pipeline :
  exists t1 t2 t3 t4 g1 g2 g3 g4,
    eliminate_self_dependencies true true true true [] ex_tree = TOk (t1, g1) /\
    isolate_function_arguments true true true t1 = TOk (t2, g2) /\
    isolate_function_calls true true true true t2 = TOk (t3, g3) /\
    expand_IfThenElse true true true true t3 = TOk (t4, g4) /\
    forallb fai_leaf (tstmts t1) = true /\ forallb fci_leaf (tstmts t2) = true /\
    forallb ite_leaf (tstmts t3) = true /\
    List.length (tstmts t4) = 10%nat.
Proof.
  (* the intermediate trees are named, not written out: a pass applied to a tree in normal form
     would have the checker load that whole tree at every conjunct *)
  pose (ok := fun r : tres (tree * gst) => match r with TOk p => p | TErr _ => (TNull, seeded true true true TNull) end).
  pose (r1 := ok (eliminate_self_dependencies true true true true [] ex_tree)).
  pose (r2 := ok (isolate_function_arguments true true true (fst r1))).
  pose (r3 := ok (isolate_function_calls true true true true (fst r2))).
  pose (r4 := ok (expand_IfThenElse true true true true (fst r3))).
  exists (fst r1), (fst r2), (fst r3), (fst r4), (snd r1), (snd r2), (snd r3), (snd r4).
  vm_compute. repeat split; reflexivity.
Qed.

Close Scope string_scope.

(* t' is t with every leaf s replaced by what a list l with R s l makes; the two leaf rules are the two cases of
   TransformTree.leaf_tree (a list of one statement stays a leaf). *)
Inductive derives (R : tstmt -> list tstmt -> Prop) : tree -> tree -> Prop :=
| DLeaf1 s x : R s [x] -> derives R (TLeaf s) (TLeaf x)
| DLeafN s l : R s l -> derives R (TLeaf s) (TBlock (map TLeaf l))
| DNull : derives R TNull TNull
| DBlock l l' : Forall2 (derives R) l l' -> derives R (TBlock l) (TBlock l')
| DIf c t t' : derives R t t' -> derives R (TIf c t) (TIf c t')
| DIfElse c t t' e e' : derives R t t' -> derives R e e' -> derives R (TIfElse c t e) (TIfElse c t' e')
| DFor x lo hi b b' : derives R b b' -> derives R (TFor x lo hi b) (TFor x lo hi b').

Definition carries_guard (s : tstmt) (l : list tstmt) : Prop :=
  exists ns s',
    l = ns ++ [s'] /\ tid s' = tid s /\ tcond s' = tcond s /\ swr s' = swr s /\
    Forall (fun n => gext (tcond s) (tcond n)) ns.

Section Derives.
  Variable ms : tstmt -> M (list tstmt).
  Variable R : tstmt -> list tstmt -> Prop.
  Variable okl : tstmt -> bool.
  Hypothesis HR : forall s st l st', okl s = true -> ms s st = TOk (l, st') -> R s l.

  Lemma rewrite_derives_gen t :
    forallb okl (tstmts t) = true ->
    forall st t' st', rewrite_tree ms t st = TOk (t', st') -> derives R t t'.
  Proof.
    revert t. apply (rewrite_tree_cases ms okl (fun t _ t' _ => derives R t t')); try (intros; now constructor).
    - intros s st l st' Hok E. pose proof (HR _ _ _ _ Hok E) as Hr.
      destruct l as [|y [|z r]]; [apply (DLeafN R s [])|apply DLeaf1|apply (DLeafN R s (y :: z :: r))]; exact Hr.
    - intros l st l' st' H. constructor. induction H; constructor; auto.
  Qed.

  Lemma run_pass_derives lsr lbr snv t t' st' :
    run_pass lsr lbr snv ms t = TOk (t', st') -> forallb okl (tstmts t) = true -> derives R t t'.
  Proof. intros E Hok. apply run_pass_inv in E. exact (rewrite_derives_gen t Hok _ _ _ E). Qed.
End Derives.

Theorem derived_guard p s l N I : derived p s l N I -> carries_guard s l.
Proof.
  intros (ns & k' & deps' & -> & Hk). exists ns, (mkT (tid s) deps' (tcond s) k'). repeat (split; [reflexivity|]).
  split; [exact (khoist_writes Hk)|exact (emitted_guarded _ _ _ (khoist_emitted Hk))].
Qed.

Lemma carries_guard_self s : carries_guard s [s].
Proof. exists [], s. repeat (split; [reflexivity|]). constructor. Qed.

Lemma sdderived_guard lsr lbr s l N I : sdderived lsr lbr s l N I -> carries_guard s l.
Proof.
  intros [|vs sb ids ns N0 I0 _ C]; [apply carries_guard_self|].
  exists ns, (mkT (tid s) (tdeps s ++ ids) (tcond s) (ksubst sb (tkd s))). repeat (split; [reflexivity|]).
  split; [apply ksubst_writes|]. eapply Forall_impl; [|exact (copies_emitted C)]. intros n [A B]. apply (emitted_one _ _ _ A B).
Qed.

Theorem guards_hoisting lsr lbr snv sds fixed ords t t' st' :
  forallb (fun s => loopfree (tkd s)) (tstmts t) = true ->
  eliminate_self_dependencies lsr lbr snv sds ords t = TOk (t', st') \/
  isolate_function_arguments lsr lbr snv t = TOk (t', st') \/
  isolate_function_calls lsr lbr snv fixed t = TOk (t', st') \/
  expand_IfThenElse lsr lbr snv true t = TOk (t', st') ->
  derives carries_guard t t'.
Proof.
  intros Hl [E|[E|[E|E]]]; (eapply run_pass_derives; [|exact E|exact Hl]); intros s st0 l st1 Hs Hm.
  - destruct (ms_sd_r _ _ _ _ _ _ _ _ Hs Hm) as (N & I & _ & D). exact (sdderived_guard _ _ _ _ _ _ D).
  - destruct (ms_fai_r s st0 l st1 Hs Hm) as (N & I & _ & D). exact (derived_guard _ _ _ _ _ D).
  - destruct (ms_fci_r fixed s st0 l st1 Hs Hm) as (N & I & _ & D). exact (derived_guard _ _ _ _ _ D).
  - destruct (ms_ite_r s st0 l st1 Hs Hm) as (N & I & _ & D). exact (derived_guard _ _ _ _ _ D).
Qed.

Theorem guards_thm lsr lbr snv sds fixed ff ords :
  ff = true ->
  forall t t' st',
    (eliminate_self_dependencies lsr lbr snv sds ords t = TOk (t', st') /\ forallb sd_leaf (tstmts t) = true) \/
    (isolate_function_arguments lsr lbr snv t = TOk (t', st') /\ forallb fai_leaf (tstmts t) = true) \/
    (isolate_function_calls lsr lbr snv fixed t = TOk (t', st') /\ forallb fci_leaf (tstmts t) = true) \/
    (expand_IfThenElse lsr lbr snv ff t = TOk (t', st') /\ forallb ite_leaf (tstmts t) = true) ->
    derives carries_guard t t'.
Proof.
  intros -> t t' st' H. apply (guards_hoisting lsr lbr snv sds fixed ords t t' st'); [|tauto].
  apply forallb_forall. intros s Hs.
  destruct H as [[_ H]|[[_ H]|[[_ H]|[_ H]]]]; rewrite forallb_forall in H; specialize (H s Hs);
    [now apply sd_leaf_lf|now apply fai_leaf_lf|now apply fci_leaf_lf|now apply ite_leaf_lf].
Qed.

Theorem guard_implied F c g s r :
  gext c g -> cond_t F s g = (r, Ok true) -> exists r', cond_t F s c = (r', Ok true).
Proof.
  intros [more Hm] Hg. rewrite <- (cond_kids F s g), Hm, cond_and_app, (cond_kids F s c) in Hg.
  destruct (cond_t F s c) as [r1 [[|]|u]]; [eauto| |]; inversion Hg.
Qed.
