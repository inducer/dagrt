(* C19 -- the parser-normal form nf of an expression and the shape of what the printer makes of
   it: one equation per node for the un-parenthesised tokens, and the two things
   dagrt.expression.parse does around the parser (blanks dropped, back-ticks removed), which
   leave the printed tokens of a normal form alone. *)
From Coq Require Import List ZArith NArith String Ascii Bool Arith Lia ZifyBool.
Import ListNotations.
From Dagrt Require Import GenC19 Print Parse ExprInd ParseRules.
Open Scope list_scope.
Open Scope nat_scope.
Notation length := List.length.

Definition is_nary (o : nop) (e : expr) : bool :=
  match e with ENary o' _ => nop_eqb o' o | _ => false end.

(* the shape in which wf_expr asks something of an operand, kept for nf *)
Definition okc (f : expr -> bool) (c : expr) : bool := f c && negb (is_tuple c).

Ltac split_and H :=
  repeat match type of H with
         | (_ && _ = true) => let H2 := fresh H in apply andb_true_iff in H as [H H2]
         end.

Lemma okc_elim f c : okc f c = true -> f c = true /\ is_tuple c = false.
Proof. unfold okc. intros H. apply andb_true_iff in H as [H1 H2]. apply negb_true_iff in H2. auto. Qed.

Lemma okc_intro f c : f c = true -> is_tuple c = false -> okc f c = true.
Proof. intros H1 H2. unfold okc. rewrite H1, H2. reflexivity. Qed.

(* what pymbolic's parser can return for a printed expression: binary nodes, + and or nested to
   the left, * to the right, none of the four defect shapes *)
Fixpoint nf (e : expr) : bool :=
  match e with
  | EInt _ | EBool _ => true
  | EVar x => no_bt x
  | ENary o l =>
    match l with
    | [a; b] =>
      okc nf a && okc nf b
      && match o with
         | NSum => negb (is_nary NSum b) && is_arith a && is_arith b
         | NProd => negb (is_nary NProd a) && is_arith a && is_arith b
         | NAnd => negb (is_nary NAnd b)
         | NOr => negb (is_nary NOr b)
         end
    | _ => false
    end
  | EBin o a b =>
    okc nf a && okc nf b
    && match o with
       | BPow => negb (is_pow a) && is_arith a && is_arith b
       | BCmp _ => negb (is_cmp b)
       | _ => is_arith a && is_arith b
       end
  | ENot a => okc nf a
  | EIf c t e => okc nf c && okc nf t && okc nf e
  | ECall f args kw =>
    okc nf f && forallb (okc nf) args && forallb (fun kv => okc nf (snd kv)) kw
    && no_dup (map fst kw)
    && all_but_last (fun c => negb (is_if c)) (args ++ map snd kw)
  | ESub a i =>
    okc nf a
    && match i with
       | ETuple l => (2 <=? length l) && forallb (okc nf) l && all_but_last (fun c => negb (is_if c)) l
       | _ => nf i
       end
  | ETuple _ => false
  end.

(* a tuple is not in normal form, so the second half of okc says nothing about a normal form *)
Lemma nf_not_tuple e : nf e = true -> is_tuple e = false.
Proof. destruct e; (reflexivity || discriminate). Qed.

Lemma okc_nf c : okc nf c = nf c.
Proof. unfold okc. destruct (nf c) eqn:E; [rewrite (nf_not_tuple c E)|]; reflexivity. Qed.

Lemma nf_nary_inv o l :
  nf (ENary o l) = true ->
  exists a b, l = [a; b] /\ nf a = true /\ nf b = true
    /\ match o with
       | NSum => negb (is_nary NSum b) && is_arith a && is_arith b
       | NProd => negb (is_nary NProd a) && is_arith a && is_arith b
       | NAnd => negb (is_nary NAnd b)
       | NOr => negb (is_nary NOr b)
       end = true.
Proof.
  destruct l as [|a [|b [|]]]; try discriminate. cbn [nf]. rewrite !okc_nf. intros H.
  apply andb_true_iff in H as [H Hop]. apply andb_true_iff in H as [Ha Hb]. exists a, b. auto.
Qed.

Lemma nf_bin_inv o a b :
  nf (EBin o a b) = true ->
  nf a = true /\ nf b = true
  /\ match o with
     | BPow => negb (is_pow a) && is_arith a && is_arith b
     | BCmp _ => negb (is_cmp b)
     | _ => is_arith a && is_arith b
     end = true.
Proof.
  cbn [nf]. rewrite !okc_nf. intros H. apply andb_true_iff in H as [H Hop]. apply andb_true_iff in H as [Ha Hb]. auto.
Qed.

Lemma nf_if_inv c t e : nf (EIf c t e) = true -> nf c = true /\ nf t = true /\ nf e = true.
Proof.
  cbn [nf]. rewrite !okc_nf. intros H. apply andb_true_iff in H as [H He]. apply andb_true_iff in H as [Hc Ht]. auto.
Qed.

Lemma forallb_okc_nf {A} (g : A -> expr) l :
  forallb (fun x => okc nf (g x)) l = true -> Forall (fun x => nf (g x) = true) l.
Proof. intros H. apply Forall_forall. intros x Hx. rewrite <- okc_nf. exact (proj1 (forallb_forall _ _) H x Hx). Qed.

Lemma nf_call_inv f args kw :
  nf (ECall f args kw) = true ->
  nf f = true /\ Forall (fun c => nf c = true) args /\ Forall (fun kv => nf (snd kv) = true) kw
  /\ no_dup (map fst kw) = true /\ all_but_last (fun c => negb (is_if c)) (args ++ map snd kw) = true.
Proof.
  cbn [nf]. rewrite okc_nf. intros H. apply andb_true_iff in H as [H Habl]. apply andb_true_iff in H as [H Hnd].
  apply andb_true_iff in H as [H Hkw]. apply andb_true_iff in H as [Hf Hargs].
  auto using (forallb_okc_nf (fun c => c)), (forallb_okc_nf snd).
Qed.

Lemma nf_sub a i :
  nf (ESub a i)
  = nf a && ((negb (is_tuple i) || (2 <=? length (items i))) && forallb (okc nf) (items i)
             && all_but_last (fun c => negb (is_if c)) (items i)).
Proof.
  rewrite <- (okc_nf a). destruct i; unfold okc; cbn [nf items is_tuple negb orb andb forallb all_but_last];
    rewrite ?andb_true_r; reflexivity.
Qed.

Lemma nf_sub_inv a i :
  nf (ESub a i) = true ->
  nf a = true /\ Forall (fun c => nf c = true) (items i)
  /\ negb (is_tuple i) || (2 <=? length (items i)) = true /\ all_but_last (fun c => negb (is_if c)) (items i) = true.
Proof.
  rewrite nf_sub. intros H. apply andb_true_iff in H as [Ha H]. apply andb_true_iff in H as [H Habl].
  apply andb_true_iff in H as [Hlen Hl]. auto using (forallb_okc_nf (fun c => c)).
Qed.

Lemma follow_nil m : follow m [] = true.
Proof. reflexivity. Qed.

Lemma ltb_0 n : (n <? 0) = false.
Proof. destruct n; reflexivity. Qed.

Lemma print_paren sp q e :
  q <= PR_CALL -> print sp q e = paren_if (prec e <? q) (print sp 0 e).
Proof.
  intros Hq.
  assert (HN : (NOPAREN <? q) = false)
    by (apply Nat.ltb_ge; transitivity PR_CALL; [exact Hq | apply Nat.leb_le; reflexivity]).
  destruct e; cbn [print prec]; rewrite ?ltb_0; cbn [paren_if]; rewrite ?HN; try reflexivity.
  destruct (z <? 0)%Z; cbn [paren_if]; rewrite ?HN, ?ltb_0; reflexivity.
Qed.

Lemma paren_app ts rest : paren ts ++ rest = TLPar :: ts ++ TRPar :: rest.
Proof. unfold paren. cbn. rewrite <- app_assoc. reflexivity. Qed.

(* The tokens of e without blanks and without parentheses of its own; by print_paren every
   `print [] q e` is B e or `(` B e `)`. *)
Definition B (e : expr) : list token := print [] 0 e.

(* pymbolic puts parentheses around the operands of / // % that are multiplicative themselves
   and around the quotients among the factors of a product.  Both give the tokens of the operand
   printed one precedence further up, at PR_UNARY; a product among the factors of a product (the
   right-nested tail in normal form) keeps PR_PRODUCT. *)
Definition nary_operand (o : nop) (c : expr) : nat :=
  match o with
  | NProd => if is_nary NProd c then PR_PRODUCT else PR_UNARY
  | _ => nary_prec o
  end.
Definition bin_operand (o : bop) : nat :=
  match o with BPow | BCmp _ => bin_prec o | _ => PR_UNARY end.

(* the cases of a table over prec (here) or top_lvl / redge0 (RoundTrip4): every kind of node, every
   operator, the sign of a constant *)
Ltac lvl_cases c :=
  destruct c as [z|bb|x|o l|o a b|a|c1 c2 c3|f args kw|a i|l];
  try (destruct o as [| | |]); try (destruct o as [| | | |cc]);
  try (destruct (z <? 0)%Z eqn:Hz).

Lemma paren_mult c : paren_if (is_mult c) (print [] PR_PRODUCT c) = print [] PR_UNARY c.
Proof.
  rewrite (print_paren [] PR_PRODUCT c), (print_paren [] PR_UNARY c) by (apply Nat.leb_le; reflexivity).
  lvl_cases c; cbn [prec]; rewrite ?Hz; reflexivity.
Qed.

Lemma paren_qfr c :
  paren_if (is_qfr c) (print [] PR_PRODUCT c) = print [] (nary_operand NProd c) c.
Proof.
  cbn [nary_operand].
  rewrite (print_paren [] PR_PRODUCT c), (print_paren [] (if is_nary NProd c then _ else _) c)
    by (destruct (is_nary NProd c); apply Nat.leb_le; reflexivity).
  lvl_cases c; cbn [prec]; rewrite ?Hz; reflexivity.
Qed.

Lemma B_nary2 o a b rest :
  B (ENary o [a; b]) ++ rest
  = print [] (nary_operand o a) a ++ nary_tok o :: (print [] (nary_operand o b) b ++ rest).
Proof.
  unfold B. cbn [print]. rewrite ltb_0. cbn [paren_if map join].
  destruct o; rewrite ?paren_qfr; cbn [nary_sep nary_tok nary_operand app]; rewrite <- ?app_assoc; reflexivity.
Qed.

Lemma B_bin o a b rest :
  B (EBin o a b) ++ rest = print [] (bin_operand o) a ++ bin_tok o :: (print [] (bin_operand o) b ++ rest).
Proof.
  unfold B. cbn [print]. rewrite ltb_0. cbn [paren_if].
  destruct o; rewrite ?paren_mult; cbn [bin_sep bin_tok bin_operand app]; rewrite <- ?app_assoc; reflexivity.
Qed.

Lemma B_not a rest : B (ENot a) ++ rest = TNot :: (print [] PR_UNARY a ++ rest).
Proof. unfold B. cbn [print]. rewrite ltb_0. reflexivity. Qed.

Lemma B_if c t e rest :
  B (EIf c t e) ++ rest
  = print [] PR_LOGICAL_OR t ++ TIf :: (print [] PR_LOGICAL_OR c ++ TElse :: (print [] PR_LOGICAL_OR e ++ rest)).
Proof.
  unfold B. cbn [print]. rewrite ltb_0. cbn [paren_if app].
  repeat (rewrite <- app_assoc; cbn [app]). reflexivity.
Qed.

Definition kw_item (kv : string * expr) : list token := TId (fst kv) :: TAssign :: print [] PR_NONE (snd kv).

Lemma B_call f args kw rest :
  B (ECall f args kw) ++ rest
  = print [] PR_CALL f ++ TLPar :: (join [TComma] (map (print [] PR_NONE) args ++ map kw_item kw) ++ TRPar :: rest).
Proof.
  unfold B. cbn [print]. repeat (rewrite <- app_assoc; cbn [app]). reflexivity.
Qed.

Lemma B_sub a i rest :
  B (ESub a i) ++ rest
  = print [] PR_CALL a ++ TLBrk :: (join [TComma] (map (print [] PR_NONE) (items i)) ++ TRBrk :: rest).
Proof.
  unfold B. rewrite print_sub, ltb_0. cbn [paren_if].
  repeat (rewrite <- app_assoc; cbn [app]). reflexivity.
Qed.

Fixpoint joinr (sep : list token) (l : list (list token)) : list token :=
  match l with [] => [] | y :: r => sep ++ y ++ joinr sep r end.

Lemma join_joinr sep x l : join sep (x :: l) = x ++ joinr sep l.
Proof.
  revert x. induction l as [|y l IH]; intros x.
  - cbn. rewrite app_nil_r. reflexivity.
  - change (join sep (x :: y :: l)) with (x ++ sep ++ join sep (y :: l)). rewrite IH. reflexivity.
Qed.

Definition tail_toks : list (list token) -> list token := joinr [TComma].

Lemma join_cons x l : join [TComma] (x :: l) = x ++ tail_toks l.
Proof. apply join_joinr. Qed.

Definition no_assign (rest : list token) : Prop :=
  match rest with TAssign :: _ => False | _ => True end.

Lemma starts_app_ok ts rest : starts_ok ts = true -> starts_ok (ts ++ rest) = true.
Proof. destruct ts; [discriminate|]. auto. Qed.

Lemma strip_app a b : strip (a ++ b) = strip a ++ strip b.
Proof. apply filter_app. Qed.

Lemma strip_paren_if b ts : strip (paren_if b ts) = paren_if b (strip ts).
Proof. destruct b; cbn [paren_if]; [|reflexivity]. unfold paren. cbn. rewrite strip_app. reflexivity. Qed.

Lemma strip_join sep l : strip (join sep l) = join (strip sep) (map strip l).
Proof.
  induction l as [|x r IH]; [reflexivity|].
  destruct r as [|y r]; [reflexivity|].
  change (join sep (x :: y :: r)) with (x ++ sep ++ join sep (y :: r)).
  change (map strip (x :: y :: r)) with (strip x :: map strip (y :: r)).
  change (map strip (y :: r)) with (strip y :: map strip r) in *.
  change (join (strip sep) (strip x :: strip y :: map strip r))
    with (strip x ++ strip sep ++ join (strip sep) (strip y :: map strip r)).
  rewrite !strip_app, IH. reflexivity.
Qed.

Lemma strip_var_toks x : strip (var_toks x) = var_toks x.
Proof.
  destruct (var_toks_cases x) as [->|(t & u & _ & ->)]; [reflexivity|]. destruct u; reflexivity.
Qed.

Lemma nary_sep_strip o : strip (nary_sep [TSp] o) = nary_sep [] o.
Proof. destruct o; reflexivity. Qed.
Lemma bin_sep_strip o : strip (bin_sep [TSp] o) = bin_sep [] o.
Proof. destruct o; reflexivity. Qed.

Theorem strip_print : forall e q, strip (print [TSp] q e) = print [] q e.
Proof.
  induction e using expr_ind'; intros q.
  - cbn [print]. destruct (z <? 0)%Z; [rewrite strip_paren_if|]; reflexivity.
  - cbn [print]. destruct b; reflexivity.
  - cbn [print]. apply strip_var_toks.
  - cbn [print]. rewrite strip_paren_if, strip_join, nary_sep_strip, map_map. f_equal. f_equal.
    apply map_ext_Forall. eapply Forall_impl; [|exact H]. intros c Hc. cbn beta.
    destruct o; rewrite ?strip_paren_if, Hc; reflexivity.
  - cbn [print]. rewrite strip_paren_if. f_equal.
    destruct o; rewrite !strip_app, ?strip_paren_if, ?IHe1, ?IHe2, ?bin_sep_strip; reflexivity.
  - cbn [print]. rewrite strip_paren_if. f_equal. cbn [strip filter is_sp negb]. rewrite strip_app, IHe. reflexivity.
  - cbn [print]. rewrite strip_paren_if. f_equal. rewrite !strip_app, IHe1, IHe2, IHe3. reflexivity.
  - cbn [print]. rewrite !strip_app, IHe, strip_join, map_app, !map_map.
    assert (EA : map (fun x => strip (print [TSp] PR_NONE x)) args = map (print [] PR_NONE) args).
    { apply map_ext_Forall. eapply Forall_impl; [|exact H]. intros c Hc. apply Hc. }
    assert (EK : map (fun x : string * expr => strip (TId (fst x) :: TAssign :: print [TSp] PR_NONE (snd x))) kw
                 = map (fun kv => TId (fst kv) :: TAssign :: print [] PR_NONE (snd kv)) kw).
    { apply map_ext_Forall. eapply Forall_impl; [|exact H0]. intros c Hc.
      change (strip (TId (fst c) :: TAssign :: print [TSp] PR_NONE (snd c)))
        with (TId (fst c) :: TAssign :: strip (print [TSp] PR_NONE (snd c))).
      rewrite Hc. reflexivity. }
    rewrite EA, EK. reflexivity.
  - rewrite !print_sub, strip_paren_if, !strip_app, IHe1, strip_join, map_map.
    rewrite (map_ext_Forall (fun c => strip (print [TSp] PR_NONE c)) (print [] PR_NONE) (l := items e2));
      [reflexivity | eapply Forall_impl; [|exact H]; intros c Hc; apply Hc].
  - cbn [print]. assert (EJ : strip (join [TComma; TSp] (map (print [TSp] PR_NONE) l))
                 = join [TComma] (map (print [] PR_NONE) l)).
    { rewrite strip_join, map_map. change (strip [TComma; TSp]) with [TComma]. f_equal. apply map_ext_Forall.
      eapply Forall_impl; [|exact H]. intros c Hc. apply Hc. }
    change (strip (TLPar :: ?x)) with (TLPar :: strip x).
    cbn [strip filter is_sp negb].
    fold (strip (join [TComma; TSp] (map (print [TSp] PR_NONE) l)
                 ++ match l with [_] => [TComma] | _ => [] end ++ [TRPar])).
    rewrite !strip_app, EJ. f_equal. f_equal. destruct l as [|? [|]]; reflexivity.
Qed.

Lemma strip_bt_id x : no_bt x = true -> strip_bt x = x.
Proof.
  unfold no_bt, strip_bt. intros H. apply negb_true_iff in H. rewrite H. reflexivity.
Qed.

Lemma map_id_F {A} (f : A -> A) l : Forall (fun x => f x = x) l -> map f l = l.
Proof. induction 1; cbn; congruence. Qed.

Theorem unbt_nf d : forall e, nf e = true -> unbt d e = e.
Proof.
  induction e using expr_ind'; intros Hnf; cbn [unbt]; try reflexivity.
  - f_equal. apply strip_bt_id. exact Hnf.
  - destruct (nf_nary_inv _ _ Hnf) as (a & b & -> & Ha & Hb & _).
    inversion H as [|? ? IHa H']; subst. inversion H' as [|? ? IHb _]; subst.
    cbn [map]. rewrite IHa, IHb by assumption. reflexivity.
  - destruct (nf_bin_inv _ _ _ Hnf) as (Ha & Hb & _). rewrite IHe1, IHe2 by assumption. reflexivity.
  - cbn [nf] in Hnf. rewrite okc_nf in Hnf. rewrite IHe by assumption. reflexivity.
  - destruct (nf_if_inv _ _ _ Hnf) as (H1 & H2 & H3). rewrite IHe1, IHe2, IHe3 by assumption. reflexivity.
  - destruct (nf_call_inv _ _ _ Hnf) as (Hf & Hargs & Hkw & _). rewrite IHe by assumption.
    rewrite (map_id_F (unbt d) args) by (eapply Forall_impl; [|exact (Forall_and H Hargs)]; intros c [Hc Hn]; auto).
    f_equal. rewrite <- (map_id kw) at 2. apply map_ext_Forall.
    eapply Forall_impl; [|exact (Forall_and H0 Hkw)]. intros [k v] [Hc Hn]. cbn [fst snd] in *. rewrite Hc by assumption. reflexivity.
  - destruct d; [|reflexivity]. destruct (nf_sub_inv _ _ Hnf) as (Ha & Hl & _).
    cbn [unbt]. rewrite IHe1 by assumption. f_equal. apply unbt_items, map_id_F.
    eapply Forall_impl; [|exact (Forall_and H Hl)]. intros c [Hc Hn]. auto.
  - discriminate.
Qed.
