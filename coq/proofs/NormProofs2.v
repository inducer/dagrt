(* C19 -- the parser's normal form `norm e` of an expression: it prints like e, is in
   parser-normal form when e is printable, mentions the same variables in the same order and
   has the same value. *)
From Coq Require Import List ZArith NArith String Ascii Bool Arith Lia ZifyBool.
Import ListNotations.
From Dagrt Require Import GenC19 Print Parse ExprInd RoundTrip.
Open Scope list_scope.
Open Scope nat_scope.
Notation length := List.length.

Lemma nop_eqb_eq a b : nop_eqb a b = true -> a = b.
Proof. destruct a, b; try discriminate; reflexivity. Qed.
Lemma nop_eqb_refl a : nop_eqb a a = true.
Proof. destruct a; reflexivity. Qed.

(* lapp and rapp descend along one spine of c and rebuild it around acc; everything about them is
   proved along that descent. *)
Lemma lapp_ind o acc (P : expr -> expr -> Prop) :
  (forall c, (forall x y, c <> ENary o [x; y]) -> P c (ENary o [acc; c])) ->
  (forall x y, P x (lapp o acc x) -> P (ENary o [x; y]) (ENary o [lapp o acc x; y])) ->
  forall c, P c (lapp o acc c).
Proof.
  intros Hbase Hstep. induction c using expr_ind'; try (apply Hbase; discriminate).
  cbn [lapp]. destruct l as [|x [|y [|]]]; try (apply Hbase; discriminate).
  destruct (nop_eqb o0 o) eqn:E.
  - apply nop_eqb_eq in E as ->. apply Hstep. inversion H; assumption.
  - apply Hbase. intros x' y' Eq. injection Eq as -> _ _. rewrite nop_eqb_refl in E. discriminate.
Qed.

Lemma rapp_ind acc (P : expr -> expr -> Prop) :
  (forall c, (forall x y, c <> ENary NProd [x; y]) -> P c (ENary NProd [c; acc])) ->
  (forall x y, P y (rapp y acc) -> P (ENary NProd [x; y]) (ENary NProd [x; rapp y acc])) ->
  forall c, P c (rapp c acc).
Proof.
  intros Hbase Hstep. induction c using expr_ind'; try (apply Hbase; discriminate).
  cbn [rapp]. destruct o; try (apply Hbase; discriminate).
  destruct l as [|x [|y [|]]]; try (apply Hbase; discriminate).
  apply Hstep. inversion H as [|? ? _ H']. inversion H'; assumption.
Qed.

Lemma lapp_shape o acc c : exists x y, lapp o acc c = ENary o [x; y].
Proof. apply (lapp_ind o acc (fun _ r => exists x y, r = ENary o [x; y])); eauto. Qed.

Lemma rapp_shape c acc : exists x y, rapp c acc = ENary NProd [x; y].
Proof. apply (rapp_ind acc (fun _ r => exists x y, r = ENary NProd [x; y])); eauto. Qed.

Lemma fold_lapp_shape o cs : forall acc, cs <> [] -> exists x y, fold_left (lapp o) cs acc = ENary o [x; y].
Proof.
  induction cs as [|c cs IH]; intros acc Hne; [congruence|].
  cbn [fold_left]. destruct cs as [|c' cs]; [apply lapp_shape|]. apply IH. discriminate.
Qed.

Lemma renest_left o c c' r : o <> NProd -> renest o (c :: c' :: r) = fold_left (lapp o) (c' :: r) c.
Proof. destruct o; try congruence; reflexivity. Qed.

Lemma renest_shape o c c' r : exists x y, renest o (c :: c' :: r) = ENary o [x; y].
Proof.
  unfold renest. destruct o; try (apply fold_lapp_shape; discriminate).
  cbn [rnest]. apply rapp_shape.
Qed.

(* renest only re-associates a chain of operands: an observation F taking binary o-nodes to an
   associative op, with n-ary form G, does not see it (variables, value, printed tokens). *)
Section Assoc.
  Context {T : Type} (o : nop) (F : expr -> T) (op : T -> T -> T) (G : list T -> T).
  Hypothesis F_node : forall a b, F (ENary o [a; b]) = op (F a) (F b).
  Hypothesis op_assoc : forall x y z, op (op x y) z = op x (op y z).
  Hypothesis G_two : forall x y, G [x; y] = op x y.
  Hypothesis G_cons : forall x y z l, G (x :: y :: z :: l) = op x (G (y :: z :: l)).

  Lemma F_lapp acc c : F (lapp o acc c) = op (F acc) (F c).
  Proof.
    apply (lapp_ind o acc (fun c r => F r = op (F acc) (F c))).
    - intros c' _. apply F_node.
    - intros x y IH. rewrite !F_node, IH. apply op_assoc.
  Qed.

  Lemma F_rapp c acc : o = NProd -> F (rapp c acc) = op (F c) (F acc).
  Proof.
    intros Ho. apply (rapp_ind acc (fun c r => F r = op (F c) (F acc))); rewrite <- Ho.
    - intros c' _. apply F_node.
    - intros x y IH. rewrite !F_node, IH. symmetry. apply op_assoc.
  Qed.

  Lemma fold_left_op l : forall x y, fold_left op l (op x y) = op x (fold_left op l y).
  Proof. induction l as [|z l IH]; intros x y; cbn [fold_left]; [reflexivity|]. rewrite op_assoc. apply IH. Qed.

  Lemma G_left : forall l x y, fold_left op l (op x y) = G (x :: y :: l).
  Proof.
    induction l as [|z l IH]; intros x y; cbn [fold_left]; [symmetry; apply G_two|].
    rewrite op_assoc, fold_left_op, G_cons, <- IH. reflexivity.
  Qed.

  Lemma F_fold_lapp l : forall acc, F (fold_left (lapp o) l acc) = fold_left op (map F l) (F acc).
  Proof. induction l as [|c l IH]; intros acc; cbn [fold_left map]; [reflexivity|]. rewrite IH, F_lapp. reflexivity. Qed.

  Lemma F_rnest : o = NProd -> forall l c d, F (rnest (c :: d :: l)) = G (map F (c :: d :: l)).
  Proof.
    intros Ho. induction l as [|e l IH]; intros c d.
    - cbn [rnest map]. rewrite F_rapp, G_two by exact Ho. reflexivity.
    - change (rnest (c :: d :: e :: l)) with (rapp c (rnest (d :: e :: l))).
      rewrite F_rapp, IH by exact Ho. cbn [map]. rewrite G_cons. reflexivity.
  Qed.

  Theorem F_renest c d l : F (renest o (c :: d :: l)) = G (map F (c :: d :: l)).
  Proof.
    destruct (nop_eqb o NProd) eqn:Eo.
    - apply nop_eqb_eq in Eo. rewrite <- (F_rnest Eo). rewrite Eo. reflexivity.
    - rewrite renest_left by (intros ->; discriminate Eo).
      rewrite F_fold_lapp. cbn [map fold_left]. apply G_left.
  Qed.
End Assoc.

(* everything the printer and the parser ask about the top of a node *)
Definition same_top (a b : expr) : Prop :=
  is_tuple a = is_tuple b /\ is_arith a = is_arith b /\ is_if a = is_if b /\ is_pow a = is_pow b
  /\ is_cmp a = is_cmp b /\ is_qfr a = is_qfr b /\ is_mult a = is_mult b
  /\ (forall o, is_nary o a = is_nary o b) /\ prec a = prec b.

Lemma same_top_nary o l l' : same_top (ENary o l) (ENary o l').
Proof. unfold same_top. cbn. repeat split; reflexivity. Qed.

Lemma norm_top e : same_top (norm e) e.
Proof.
  destruct e; try (unfold same_top; cbn; repeat split; reflexivity).
  cbn [norm]. destruct l as [|c [|c' r]]; try apply same_top_nary.
  cbn [map]. destruct (renest_shape o (norm c) (norm c') (map norm r)) as (x & y & ->).
  apply same_top_nary.
Qed.

Lemma norm_is_tuple e : is_tuple (norm e) = is_tuple e.
Proof. apply norm_top. Qed.
Lemma norm_is_arith e : is_arith (norm e) = is_arith e.
Proof. apply norm_top. Qed.
Lemma norm_is_if e : is_if (norm e) = is_if e.
Proof. apply norm_top. Qed.
Lemma norm_is_pow e : is_pow (norm e) = is_pow e.
Proof. apply norm_top. Qed.
Lemma norm_is_cmp e : is_cmp (norm e) = is_cmp e.
Proof. apply norm_top. Qed.
Lemma norm_is_qfr e : is_qfr (norm e) = is_qfr e.
Proof. apply norm_top. Qed.
Lemma norm_is_mult e : is_mult (norm e) = is_mult e.
Proof. apply norm_top. Qed.

Lemma norm_not_var_nary o l : match norm (ENary o l) with EVar _ => False | _ => True end.
Proof.
  cbn [norm]. destruct l as [|c [|c' r]]; try exact I.
  cbn [map]. destruct (renest_shape o (norm c) (norm c') (map norm r)) as (x & y & ->). exact I.
Qed.

Lemma items_norm i : items (norm i) = map norm (items i).
Proof.
  pose proof (norm_is_tuple i) as H. destruct i; try reflexivity.
  cbn [items map is_tuple] in *. destruct (norm (ENary o l)); try reflexivity. discriminate H.
Qed.

Section PrintNorm.
  Variable sp : list token.

  Lemma operand_toks_node o a b :
    operand_toks sp o (ENary o [a; b]) = operand_toks sp o a ++ nary_sep sp o ++ operand_toks sp o b.
  Proof. destruct o; reflexivity. Qed.

  Lemma print_renest o l q : print sp q (renest o l) = print sp q (ENary o l).
  Proof.
    destruct l as [|c [|d l]]; try reflexivity.
    destruct (renest_shape o c d l) as (x & y & E).
    rewrite print_nary, <- (F_renest o (operand_toks sp o) (fun a b => a ++ nary_sep sp o ++ b) (join (nary_sep sp o))).
    - rewrite E, print_nary. cbn [map join]. rewrite <- operand_toks_node. reflexivity.
    - apply operand_toks_node.
    - intros u v w. rewrite <- !app_assoc. reflexivity.
    - reflexivity.
    - reflexivity.
  Qed.

  Theorem print_norm q e : print sp q (norm e) = print sp q e.
  Proof.
    revert q. induction e using expr_ind'; intros q; try reflexivity.
    - cbn [norm]. rewrite print_renest. cbn [print]. f_equal. f_equal.
      rewrite map_map. apply map_ext_Forall. eapply Forall_impl; [|exact H].
      intros c Hc. cbn beta. rewrite norm_is_qfr. destruct o; rewrite ?Hc; reflexivity.
    - cbn [norm print]. rewrite !norm_is_mult, !IHe1, !IHe2. reflexivity.
    - cbn [norm print]. rewrite IHe. reflexivity.
    - cbn [norm print]. rewrite IHe1, IHe2, IHe3. reflexivity.
    - cbn [norm print]. rewrite IHe.
      assert (EA : map (print sp PR_NONE) (map norm args) = map (print sp PR_NONE) args).
      { rewrite map_map. apply map_ext_Forall. eapply Forall_impl; [|exact H]. intros c Hc. apply Hc. }
      assert (EK : map (fun kv => TId (fst kv) :: TAssign :: print sp PR_NONE (snd kv))
                       (map (fun kv => (fst kv, norm (snd kv))) kw)
                   = map (fun kv => TId (fst kv) :: TAssign :: print sp PR_NONE (snd kv)) kw).
      { rewrite map_map. apply map_ext_Forall. eapply Forall_impl; [|exact H0]. intros c Hc.
        cbn [fst snd]. rewrite Hc. reflexivity. }
      rewrite EA, EK. reflexivity.
    - rewrite norm_sub, !print_sub, IHe1, items_norm, map_map.
      rewrite (map_ext_Forall (fun c => print sp PR_NONE (norm c)) (print sp PR_NONE) (l := items e2));
        [reflexivity | eapply Forall_impl; [|exact H]; intros c Hc; apply Hc].
    - cbn [norm print]. f_equal. rewrite map_map.
      assert (E : map (fun x => print sp PR_NONE (norm x)) l = map (print sp PR_NONE) l).
      { apply map_ext_Forall. eapply Forall_impl; [|exact H]. intros c Hc. apply Hc. }
      rewrite E. f_equal. f_equal. destruct l as [|? [|]]; reflexivity.
  Qed.
End PrintNorm.

Lemma lapp_arith o acc c : is_arith (lapp o acc c) = true.
Proof. destruct (lapp_shape o acc c) as (x & y & ->). reflexivity. Qed.

Lemma rapp_arith c acc : is_arith (rapp c acc) = true.
Proof. destruct (rapp_shape c acc) as (x & y & ->). reflexivity. Qed.

Lemma nf_left o a b :
  o <> NProd ->
  nf a = true -> nf b = true -> is_nary o b = false ->
  (o = NSum -> is_arith a = true /\ is_arith b = true) ->
  nf (ENary o [a; b]) = true.
Proof.
  intros Ho Ha Hb Hn Har. cbn [nf]. rewrite !okc_nf, Ha, Hb. cbn [andb].
  destruct o; try congruence; cbn [is_nary] in *; rewrite ?Hn; cbn [negb andb]; try reflexivity.
  destruct (Har eq_refl) as [-> ->]. reflexivity.
Qed.

Lemma nf_left_inv o x y :
  o <> NProd -> nf (ENary o [x; y]) = true ->
  nf x = true /\ nf y = true /\ is_nary o y = false
  /\ (o = NSum -> is_arith x = true /\ is_arith y = true).
Proof.
  intros Ho H. destruct (nf_nary_inv _ _ H) as (a & b & [= <- <-] & Hx & Hy & Hs).
  repeat split; auto; destruct o; try congruence;
    split_and Hs; try apply negb_true_iff in Hs; auto; try discriminate.
Qed.

Lemma nf_not_binary o c :
  nf c = true -> (forall x y, c <> ENary o [x; y]) -> is_nary o c = false.
Proof.
  intros Hc Hn. destruct c; try reflexivity. cbn [is_nary].
  destruct l as [|x [|y [|]]]; try discriminate Hc.
  destruct (nop_eqb o0 o) eqn:E; [|reflexivity]. apply nop_eqb_eq in E as ->. destruct (Hn x y eq_refl).
Qed.

Lemma nf_lapp o : o <> NProd -> forall c acc,
  nf acc = true -> nf c = true ->
  (o = NSum -> is_arith acc = true /\ is_arith c = true) ->
  nf (lapp o acc c) = true.
Proof.
  intros Ho c acc Hacc. revert c.
  apply (lapp_ind o acc (fun c r =>
    nf c = true -> (o = NSum -> is_arith acc = true /\ is_arith c = true) -> nf r = true)).
  - intros c Hn Hc Har. apply nf_left; auto. apply nf_not_binary; assumption.
  - intros x y IH Hc Har.
    destruct (nf_left_inv o x y Ho Hc) as (Hx & Hy & Hny & Harc).
    apply nf_left; auto.
    + apply IH; auto. intros Es. destruct (Har Es) as [? _]. destruct (Harc Es) as [? _]. auto.
    + intros Es. destruct (Harc Es) as [_ ?]. split; [apply lapp_arith|assumption].
Qed.

Lemma nf_fold_lapp o : o <> NProd -> forall cs acc,
  nf acc = true -> (o = NSum -> is_arith acc = true) ->
  Forall (fun c => nf c = true /\ (o = NSum -> is_arith c = true)) cs ->
  nf (fold_left (lapp o) cs acc) = true /\ (o = NSum -> is_arith (fold_left (lapp o) cs acc) = true).
Proof.
  intros Ho. induction cs as [|c cs IH]; intros acc Hacc Har HF; cbn [fold_left]; [auto|].
  inversion HF as [|? ? [Hc Hca] HF']; subst.
  apply IH; auto.
  - apply nf_lapp; auto.
  - intros _. apply lapp_arith.
Qed.

Lemma nf_prod a b :
  nf a = true -> nf b = true -> is_nary NProd a = false ->
  is_arith a = true -> is_arith b = true -> nf (ENary NProd [a; b]) = true.
Proof.
  intros Ha Hb Hn Haa Hab. cbn [nf]. rewrite !okc_nf, Ha, Hb, Hn, Haa, Hab. reflexivity.
Qed.

Lemma nf_rapp : forall c acc,
  nf c = true -> nf acc = true -> is_arith c = true -> is_arith acc = true ->
  nf (rapp c acc) = true.
Proof.
  intros c acc Hc Hacc Hca Haa. revert c Hc Hca.
  apply (rapp_ind acc (fun c r => nf c = true -> is_arith c = true -> nf r = true)).
  - intros c Hn Hc Hca. apply nf_prod; auto. apply nf_not_binary; assumption.
  - intros x y IH Hc _. destruct (nf_nary_inv _ _ Hc) as (a & b & [= <- <-] & Hx & Hy & Hs).
    split_and Hs. apply negb_true_iff in Hs. apply nf_prod; auto using rapp_arith.
Qed.

Lemma nf_rnest : forall l,
  l <> [] -> Forall (fun c => nf c = true /\ is_arith c = true) l ->
  nf (rnest l) = true /\ is_arith (rnest l) = true.
Proof.
  induction l as [|c r IH]; intros Hne HF; [congruence|].
  inversion HF as [|? ? [Hc Hca] HF']; subst.
  destruct r as [|c' r]; [cbn; auto|].
  change (rnest (c :: c' :: r)) with (rapp c (rnest (c' :: r))).
  destruct (IH ltac:(discriminate) HF') as [Hr Hra].
  split; [|apply rapp_arith]. apply nf_rapp; auto.
Qed.

Lemma nf_renest o c c' r :
  Forall (fun x => nf x = true) (c :: c' :: r) ->
  (forall x, In x (c :: c' :: r) -> o = NSum \/ o = NProd -> is_arith x = true) ->
  nf (renest o (c :: c' :: r)) = true.
Proof.
  intros HF HA. destruct (nop_eqb o NProd) eqn:Eo.
  - apply nop_eqb_eq in Eo as ->.
    apply (nf_rnest (c :: c' :: r)); [discriminate|]. rewrite Forall_forall in *. auto.
  - assert (Ho : o <> NProd) by (intros ->; discriminate Eo). rewrite renest_left by exact Ho.
    inversion HF as [|? ? Hc HF']; subst.
    apply (nf_fold_lapp o Ho (c' :: r) c); [exact Hc | |].
    + intros ->. apply HA; [left; reflexivity | left; reflexivity].
    + rewrite Forall_forall in *. intros x Hx. split; [auto|].
      intros ->. apply HA; [right; exact Hx | left; reflexivity].
Qed.

Lemma abl_map_norm : forall l,
  all_but_last (fun c => negb (is_if c)) (map norm l) = all_but_last (fun c => negb (is_if c)) l.
Proof.
  induction l as [|x r IH]; [reflexivity|].
  destruct r as [|y r]; [reflexivity|].
  change (map norm (x :: y :: r)) with (norm x :: map norm (y :: r)).
  cbn [all_but_last] in *. change (map norm (y :: r)) with (norm y :: map norm r) in *.
  rewrite norm_is_if. f_equal. exact IH.
Qed.

(* wf_expr (like nf) is false of a tuple: the test for a tuple beside it in the model is idle *)
Lemma forallb_okc_norm l :
  Forall (fun e => wf_expr e = true -> no_defect e = true -> nf (norm e) = true) l ->
  forallb (fun c => wf_expr c && negb (is_tuple c)) l = true ->
  forallb no_defect l = true ->
  forallb (okc nf) (map norm l) = true.
Proof.
  intros HF Hw Hd. apply forallb_forall. intros c Hc. apply in_map_iff in Hc as (c0 & <- & Hin).
  rewrite Forall_forall in HF. rewrite forallb_forall in Hw, Hd.
  specialize (Hw c0 Hin). apply andb_true_iff in Hw as [Hw _]. rewrite okc_nf. auto.
Qed.

Theorem nf_norm : forall e, wf_expr e = true -> no_defect e = true -> nf (norm e) = true.
Proof.
  induction e using expr_ind'; intros Hw Hd; try reflexivity.
  - exact Hw.
  - cbn [norm].
    cbn [wf_expr] in Hw. apply andb_true_iff in Hw as [Hlen Hw].
    cbn [no_defect] in Hd. apply andb_true_iff in Hd as [Hd Har].
    destruct l as [|c [|c' r]]; try discriminate Hlen.
    assert (HF : Forall (fun c => nf c = true) (map norm (c :: c' :: r))).
    { apply (forallb_okc_nf (fun c => c)). exact (forallb_okc_norm _ H Hw Hd). }
    assert (HA : forall x, In x (map norm (c :: c' :: r)) -> (o = NSum \/ o = NProd) -> is_arith x = true).
    { intros x Hx Ho. apply in_map_iff in Hx as (x0 & <- & Hin). rewrite norm_is_arith.
      destruct Ho as [-> | ->]; rewrite forallb_forall in Har; auto. }
    exact (nf_renest o _ _ _ HF HA).
  - cbn [norm]. cbn [wf_expr] in Hw. split_and Hw. cbn [no_defect] in Hd. split_and Hd.
    cbn [nf]. rewrite !okc_nf, IHe1, IHe2 by assumption.
    cbn [andb]. rewrite ?norm_is_pow, ?norm_is_cmp, ?norm_is_arith. assumption.
  - cbn [norm].
    cbn [wf_expr] in Hw. apply andb_true_iff in Hw as [Hw _].
    cbn [no_defect] in Hd. cbn [nf]. rewrite okc_nf. auto.
  - cbn [norm]. cbn [wf_expr] in Hw. split_and Hw. cbn [no_defect] in Hd. split_and Hd.
    cbn [nf]. rewrite !okc_nf, IHe1, IHe2, IHe3 by assumption. reflexivity.
  - cbn [norm].
    cbn [wf_expr] in Hw. apply andb_true_iff in Hw as [Hw Hnd]. apply andb_true_iff in Hw as [Hw Hkw].
    apply andb_true_iff in Hw as [Hw Hargs]. apply andb_true_iff in Hw as [Hwf _].
    cbn [no_defect] in Hd. apply andb_true_iff in Hd as [Hd Habl]. apply andb_true_iff in Hd as [Hd Hdk].
    apply andb_true_iff in Hd as [Hdf Hda].
    cbn [nf]. rewrite okc_nf, IHe, (forallb_okc_norm _ H Hargs Hda) by assumption. cbn [andb].
    assert (E1 : forallb (fun kv => okc nf (snd kv)) (map (fun kv => (fst kv, norm (snd kv))) kw) = true).
    { apply forallb_forall. intros kv Hkv. apply in_map_iff in Hkv as (kv0 & <- & Hin). cbn [snd].
      rewrite Forall_forall in H0. rewrite forallb_forall in Hkw, Hdk.
      specialize (Hkw kv0 Hin). apply andb_true_iff in Hkw as [Hk1 _]. rewrite okc_nf. auto. }
    rewrite E1. cbn [andb].
    assert (E2 : map fst (map (fun kv => (fst kv, norm (snd kv))) kw) = map fst kw)
      by (rewrite map_map; apply map_ext; reflexivity).
    assert (E3 : map snd (map (fun kv => (fst kv, norm (snd kv))) kw) = map norm (map snd kw))
      by (rewrite !map_map; reflexivity).
    rewrite E2, Hnd, E3, <- map_app, abl_map_norm. exact Habl.
  - rewrite wf_expr_sub in Hw. rewrite no_defect_sub in Hd.
    apply andb_true_iff in Hw as [Hw Hwi]. apply andb_true_iff in Hw as [Hwa _].
    apply andb_true_iff in Hwi as [Hlen Hwl].
    apply andb_true_iff in Hd as [Hda Hdi]. apply andb_true_iff in Hdi as [Hdl Habl].
    rewrite norm_sub, nf_sub, items_norm, norm_is_tuple, map_length, Hlen, abl_map_norm, Habl.
    rewrite (forallb_okc_norm _ H Hwl Hdl), IHe1 by assumption. reflexivity.
  - discriminate.
Qed.

Lemma vars_renest o l : vars (renest o l) = List.concat (map vars l).
Proof.
  destruct l as [|c [|d l]]; try reflexivity.
  apply (F_renest o vars (@app string) (@List.concat string)).
  - intros a b. cbn. rewrite app_nil_r. reflexivity.
  - intros x y z. symmetry. apply app_assoc.
  - intros x y. cbn. rewrite app_nil_r. reflexivity.
  - reflexivity.
Qed.

Theorem vars_norm : forall e, vars (norm e) = vars e.
Proof.
  induction e using expr_ind'; cbn [norm]; try reflexivity.
  - rewrite vars_renest. cbn [vars]. rewrite map_map. f_equal. apply map_ext_Forall. exact H.
  - cbn [vars]. congruence.
  - cbn [vars]. congruence.
  - cbn [vars]. congruence.
  - cbn [vars]. rewrite !map_map. f_equal; f_equal; apply map_ext_Forall; assumption.
  - change (ESub (norm e1) _) with (norm (ESub e1 e2)). rewrite norm_sub. cbn [vars]. congruence.
  - cbn [vars]. rewrite map_map. f_equal. apply map_ext_Forall. exact H.
Qed.

Section EvalNorm.
  Variable rho : string -> Z.
  Variable Ffun : string -> list Z -> list (string * Z) -> option Z.
  Variable Fsub : Z -> list Z -> option Z.
  Variable Fquot : Z -> Z -> option Z.
  Variable Fnegpow : Z -> Z -> option Z.

  Notation ev := (eval rho Ffun Fsub Fquot Fnegpow).

  Definition nary2 (o : nop) (u v : option Z) : option Z := eval_nary o [u; v].

  Lemma all_opt_01 vs w : all_opt vs = Some w -> w = 0%Z \/ w = 1%Z.
  Proof.
    induction vs as [|[z|] vs IH]; cbn; intros H; try discriminate.
    - injection H as <-. auto.
    - destruct (z =? 0)%Z; [injection H as <-; auto | auto].
  Qed.
  Lemma any_opt_01 vs w : any_opt vs = Some w -> w = 0%Z \/ w = 1%Z.
  Proof.
    induction vs as [|[z|] vs IH]; cbn; intros H; try discriminate.
    - injection H as <-. auto.
    - destruct (z =? 0)%Z; [auto | injection H as <-; auto].
  Qed.

  Lemma nary_cons o u vs : eval_nary o (u :: vs) = nary2 o u (eval_nary o vs).
  Proof.
    unfold nary2. destruct o; cbn [eval_nary].
    - destruct u as [a|]; cbn; [|reflexivity].
      destruct (sequence vs) as [s|]; cbn; [f_equal; lia | reflexivity].
    - destruct u as [a|]; cbn; [|reflexivity].
      destruct (sequence vs) as [s|]; cbn; [f_equal; ring | reflexivity].
    - destruct u as [a|]; cbn; [|reflexivity].
      destruct (a =? 0)%Z; [reflexivity|].
      destruct (all_opt vs) as [w|] eqn:E; [|reflexivity].
      destruct (all_opt_01 _ _ E) as [-> | ->]; reflexivity.
    - destruct u as [a|]; cbn; [|reflexivity].
      destruct (a =? 0)%Z; [|reflexivity].
      destruct (any_opt vs) as [w|] eqn:E; [|reflexivity].
      destruct (any_opt_01 _ _ E) as [-> | ->]; reflexivity.
  Qed.

  (* + and * are associative on Z and stop at the first None; all() / any() answer 0 resp. 1 at the
     first operand that decides, None at a None before that, and otherwise the 0/1 of the last
     operand: on either side the same operand decides *)
  Lemma nary2_assoc o u v w : nary2 o (nary2 o u v) w = nary2 o u (nary2 o v w).
  Proof.
    unfold nary2. destruct o; destruct u as [a|], v as [b|], w as [c|]; cbn; try reflexivity;
      try (f_equal; lia); try (f_equal; ring);
      repeat match goal with |- context [(?x =? 0)%Z] => destruct (x =? 0)%Z; cbn end; reflexivity.
  Qed.

  Lemma ev_renest o l : ev (renest o l) = eval_nary o (map ev l).
  Proof.
    destruct l as [|c [|d l]]; try reflexivity.
    apply (F_renest o ev (nary2 o) (eval_nary o)).
    - reflexivity.
    - apply nary2_assoc.
    - reflexivity.
    - intros. apply nary_cons.
  Qed.

  Theorem eval_norm : forall e, ev (norm e) = ev e.
  Proof.
    induction e using expr_ind'; try reflexivity.
    - cbn [norm]. rewrite ev_renest. cbn [eval]. rewrite map_map. f_equal. apply map_ext_Forall. exact H.
    - cbn [norm eval]. rewrite IHe1, IHe2. reflexivity.
    - cbn [norm eval]. rewrite IHe. reflexivity.
    - cbn [norm eval]. rewrite IHe1, IHe2, IHe3. reflexivity.
    - cbn [norm].
      assert (EA : map ev (map norm args) = map ev args).
      { rewrite map_map. apply map_ext_Forall. exact H. }
      assert (EK : map (fun kv => option_map (pair (fst kv)) (ev (snd kv)))
                       (map (fun kv => (fst kv, norm (snd kv))) kw)
                   = map (fun kv => option_map (pair (fst kv)) (ev (snd kv))) kw).
      { rewrite map_map. apply map_ext_Forall. eapply Forall_impl; [|exact H0]. intros kv Hkv.
        cbn [fst snd]. rewrite Hkv. reflexivity. }
      destruct e; cbn [norm eval]; try reflexivity.
      + rewrite EA, EK. reflexivity.
      + pose proof (norm_not_var_nary o l) as Hn. cbn [norm] in Hn.
        destruct (renest o (map norm l)); try reflexivity. contradiction.
    - rewrite norm_sub, !eval_sub, IHe1, items_norm, map_map, (map_ext_Forall _ _ H). reflexivity.
  Qed.
End EvalNorm.
