(* C02: every schedule that respects the dependency edges recorded by the
   builder model gives the same result as program order. *)
From Coq Require Import List ZArith String Bool Arith Lia Relations Permutation.
Import ListNotations.
Local Open Scope nat_scope.
Local Open Scope list_scope.
From Dagrt Require Import Lang LangProofs BuilderCore BuilderInv Builder Sched SchedProofs LinExt ListFacts.
Close Scope Z_scope.

Lemma FOP_seq (Rel : nat -> nat -> Prop) : forall n a : nat,
  (forall i j : nat, a <= i -> i < j -> j < a + n -> Rel i j) -> ForallOrdPairs Rel (seq a n).
Proof.
  induction n as [|n IH]; intros a H; cbn [seq]; constructor.
  - apply Forall_forall. intros j Hj. apply in_seq in Hj. apply H; lia.
  - apply IH. intros i j H1 H2 H3. apply H; lia.
Qed.

Lemma seq_split_eq : forall l1 a n i l2, seq a n = l1 ++ i :: l2 -> l1 = seq a (i - a) /\ a <= i.
Proof.
  induction l1 as [|x l1 IH]; intros a n i l2 E.
  - destruct n as [|n]; [discriminate|]. cbn in E. injection E as -> _.
    rewrite Nat.sub_diag. auto.
  - destruct n as [|n]; [discriminate|]. cbn in E. injection E as -> E.
    destruct (IH _ _ _ _ E) as [-> Hle]. split; [|lia].
    replace (i - x) with (S (i - S x)) by lia. reflexivity.
Qed.

Lemma select_seq {A} (l : list A) :
  flat_map (fun i => match nth_error l i with Some x => [x] | None => [] end) (seq 0 (List.length l)) = l.
Proof.
  induction l as [|x l IH] using rev_ind; [reflexivity|].
  rewrite app_length, Nat.add_1_r, seq_S, flat_map_app. cbn [flat_map].
  rewrite nth_error_app2, Nat.sub_diag, app_nil_r by lia. cbn [nth_error]. f_equal.
  rewrite <- IH at 2. apply flat_map_ext_in. intros i Hi. apply in_seq in Hi.
  now rewrite nth_error_app1 by lia.
Qed.

Lemma run_ids_select F g stmts ids : forall S,
  (forall i, In i ids -> i < List.length stmts) ->
  run_ids F g stmts ids S =
  run_list F g (flat_map (fun i => match nth_error stmts i with Some st => [st] | None => [] end) ids) S.
Proof.
  induction ids as [|i r IH]; intros S H; [reflexivity|].
  cbn [run_ids fold_left flat_map]. unfold step_id at 2.
  destruct (nth_error stmts i) as [st|] eqn:E.
  - unfold run_list. rewrite fold_left_app. apply IH. intros j Hj. apply H. now right.
  - apply nth_error_None in E. specialize (H i (or_introl eq_refl)). lia.
Qed.

Lemma run_ids_seq F g stmts S :
  run_ids F g stmts (seq 0 (List.length stmts)) S = run_list F g stmts S.
Proof. rewrite run_ids_select, select_seq; [reflexivity|]. intros i Hi. apply in_seq in Hi. lia. Qed.

(* assumption A3 of DESIGN.md 2.2 *)
Definition loopvars_ok (stmts : list stmt) (s0 : store) : Prop :=
  forall a y, In a stmts -> In y (loopvars (skd a)) ->
    s0 y = None /\ forall b, In b stmts -> ~ In y (writes b).

Definition respects (stmts : list stmt) (sched : list nat) : Prop :=
  forall l1 i l2 st, sched = l1 ++ i :: l2 -> nth_error stmts i = Some st ->
    forall d, In d (sdeps st) -> In d l1.

Lemma respects_seq stmts :
  (forall i st d, nth_error stmts i = Some st -> In d (sdeps st) -> d < i) ->
  respects stmts (seq 0 (List.length stmts)).
Proof.
  intros H l1 i l2 st E Hi d Hd. destruct (seq_split_eq _ _ _ _ _ E) as [-> _].
  apply in_seq. specialize (H i st d Hi Hd). lia.
Qed.

Fixpoint respects_from (stmts : list stmt) (done : list nat) (rest : list nat) : bool :=
  match rest with
  | [] => true
  | i :: r =>
      match nth_error stmts i with
      | Some st => forallb (fun d => existsb (Nat.eqb d) done) (sdeps st)
      | None => true
      end && respects_from stmts (done ++ [i]) r
  end.
Definition respects_b (stmts : list stmt) (sched : list nat) : bool := respects_from stmts [] sched.

Lemma respects_b_ok stmts sched : respects_b stmts sched = true -> respects stmts sched.
Proof.
  unfold respects_b.
  assert (G : forall rest done, respects_from stmts done rest = true ->
            forall l1 i l2 st, rest = l1 ++ i :: l2 -> nth_error stmts i = Some st ->
            forall d, In d (sdeps st) -> In d (done ++ l1)).
  { induction rest as [|j r IH]; intros done H l1 i l2 st E Hi d Hd.
    - destruct l1; discriminate.
    - cbn [respects_from] in H. apply andb_true_iff in H. destruct H as [H1 H2].
      destruct l1 as [|j' l1]; cbn in E; injection E as -> E.
      + rewrite Hi in H1. rewrite forallb_forall in H1. specialize (H1 d Hd).
        apply existsb_exists in H1. destruct H1 as (x & Hx & Ex). apply Nat.eqb_eq in Ex. subst x.
        rewrite app_nil_r. exact Hx.
      + specialize (IH (done ++ [j']) H2 l1 i l2 st E Hi d Hd).
        rewrite <- app_assoc in IH. exact IH. }
  intros H l1 i l2 st E Hi d Hd. exact (G sched [] H l1 i l2 st E Hi d Hd).
Qed.

Definition respects_edges (o : list (list nat)) (sched : list nat) : Prop :=
  forall l1 i l2, sched = l1 ++ i :: l2 -> forall d, edge o d i -> In d l1.

Lemma respects_respects_edges stmts o sched :
  List.length o = List.length stmts ->
  (forall i st, nth_error stmts i = Some st -> sdeps st = nth i o []) ->
  respects stmts sched -> respects_edges o sched.
Proof.
  intros Hlen Hd Hr l1 i l2 E d He. unfold edge in He.
  destruct (nth_error stmts i) as [st|] eqn:Ei.
  - apply (Hr l1 i l2 st E Ei). rewrite (Hd i st Ei). exact He.
  - apply nth_error_None in Ei. rewrite nth_overflow in He by lia. destruct He.
Qed.

Lemma prec_before (o : list (list nat)) (sched : list nat) :
  respects_edges o sched ->
  forall b a, prec o b a -> forall l1 l2, sched = l1 ++ a :: l2 -> In b l1.
Proof.
  intros Hr b a Hp. induction Hp as [b a He|b c a _ IH1 _ IH2]; intros l1 l2 E.
  - eapply Hr; eassumption.
  - pose proof (IH2 l1 l2 E) as Hc. apply in_split in Hc. destruct Hc as (l1' & l1'' & ->).
    rewrite <- app_assoc in E. cbn in E.
    pose proof (IH1 l1' (l1'' ++ a :: l2) E) as Hb. rewrite in_app_iff. now left.
Qed.

Lemma respects_linext (o : list (list nat)) (sched : list nat) :
  NoDup sched ->
  respects_edges o sched ->
  linext nat (prec o) sched.
Proof.
  intros ND Hr.
  assert (G : forall suf pre, sched = pre ++ suf -> linext nat (prec o) suf).
  { induction suf as [|a l' IH]; intros pre E; constructor.
    - intros b Hb Hp. pose proof (prec_before o sched Hr b a Hp pre l' E) as Hin.
      subst sched. apply (NoDup_app_disj pre (a :: l') b ND Hin). now right.
    - apply (IH (pre ++ [a])). rewrite <- app_assoc. exact E. }
  apply (G sched []). reflexivity.
Qed.

Section Builder.
  Variable F : string -> list val -> list (string * val) -> option (list val).
  Variable g : bool.
  Variable is_state : var -> bool.
  Variable tok : var.
  Notation bstep := (bstep true true is_state tok).
  Notation add_statement := (add_statement true true is_state tok).

  (* the ghost sets b_xs are what the core was fed.  The writes of a statement are its extended writes
     exactly; its reads only contain the extended reads, since a barrier also reads every state variable
     seen so far (filter is_state seen in ext_reads), which xr does not list *)
  Definition binv (b : bstate) : Prop :=
    b_core b = BuilderCore.build var string_dec (b_xs b) /\
    List.length (b_stmts b) = List.length (b_xs b) /\
    forall i st, nth_error (b_stmts b) i = Some st ->
      sid st = i /\ sdeps st = nth i (out (b_core b)) [] /\
      exists x, nth_error (b_xs b) i = Some x /\ incl (xr tok st) (R x) /\ W x = xw tok st.

  Lemma out_length xs : List.length (out (BuilderCore.build var string_dec xs)) = List.length xs.
  Proof. exact (build_out_length var string_dec xs). Qed.

  Lemma binv_core b : binv b -> b_core b = BuilderCore.build var string_dec (b_xs b).
  Proof. intros H. apply H. Qed.

  Lemma binv_out_length b : binv b -> List.length (out (b_core b)) = List.length (b_stmts b).
  Proof. intros (Hc & Hl & _). now rewrite Hc, out_length. Qed.

  Lemma binv_sid b i st : binv b -> nth_error (b_stmts b) i = Some st -> sid st = i.
  Proof. intros (_ & _ & H) Hi. apply (H i st Hi). Qed.

  Lemma binv_sdeps b i st : binv b -> nth_error (b_stmts b) i = Some st -> sdeps st = nth i (out (b_core b)) [].
  Proof. intros (_ & _ & H) Hi. apply (H i st Hi). Qed.

  Lemma binv_sets b i st : binv b -> nth_error (b_stmts b) i = Some st ->
    exists x, nth_error (b_xs b) i = Some x /\ incl (xr tok st) (R x) /\ W x = xw tok st.
  Proof. intros (_ & _ & H) Hi. apply (H i st Hi). Qed.

  Lemma binv_add b k : binv b -> binv (add_statement b k).
  Proof.
    intros (Hc & Hl & Hs). unfold Builder.add_statement.
    set (cond := condition_of (b_stack b)).
    set (r := ext_reads true true is_state tok (b_seen b) cond k).
    set (w := ext_writes tok k).
    assert (Hlo : List.length (out (b_core b)) = List.length (b_stmts b)).
    { rewrite Hc, out_length. auto. }
    unfold binv. cbn [b_stmts b_xs b_core]. split; [rewrite build_snoc, Hc; reflexivity|].
    split; [rewrite !app_length; cbn; lia|]. cbn [out add].
    intros i st Hi. apply nth_error_snoc in Hi as [Hi|[-> ->]].
    - destruct (Hs i st Hi) as (H1 & H2 & x & H3 & H4 & H5).
      assert (i < List.length (b_stmts b)) by (apply nth_error_Some; congruence).
      split; [exact H1|]. split; [rewrite app_nth1 by lia; exact H2|].
      exists x. split; [|auto]. rewrite nth_error_app1 by lia. exact H3.
    - cbn [sid sdeps out add]. split; [reflexivity|]. split.
      + rewrite last_last, app_nth2 by lia. rewrite Hlo, Nat.sub_diag. reflexivity.
      + exists (Build_rw r w). split; [rewrite nth_error_app2 by lia; rewrite Hl, Nat.sub_diag; reflexivity|].
        cbn [R W]. split.
        * unfold xr, reads, r, ext_reads. cbn [skd scond]. repeat apply incl_app; auto 6 with datatypes.
        * unfold xw, w, ext_writes, writes, barrier. cbn [skd]. reflexivity.
  Qed.

  (* binv speaks of b_stmts, b_core and b_xs only, which fresh and set_stack copy: on their
     results it is binv of the argument by conversion *)
  Lemma binv_same b b' :
    b_stmts b' = b_stmts b -> b_core b' = b_core b -> b_xs b' = b_xs b -> binv b -> binv b'.
  Proof. unfold binv. intros -> -> ->. auto. Qed.

  Lemma fresh_fields b p nm b' :
    fresh b p = Some (nm, b') -> b_stmts b' = b_stmts b /\ b_core b' = b_core b /\ b_xs b' = b_xs b.
  Proof.
    unfold fresh. destruct (fresh_loop _ _ _ _) as [[n nx]|]; [|discriminate].
    intros H. injection H as _ <-. auto.
  Qed.

  Lemma binv_fresh b p nm b' : fresh b p = Some (nm, b') -> binv b -> binv b'.
  Proof. intros H. destruct (fresh_fields b p nm b' H) as (E1 & E2 & E3). now apply binv_same. Qed.

  (* every builder call is made of three state changes: adding a statement, taking a fresh name,
     resetting the condition stack *)
  Lemma bstep_rel (R : bstate -> bstate -> Prop) :
    (forall b k, R b (add_statement b k)) ->
    (forall b p nm b', fresh b p = Some (nm, b') -> R b b') ->
    (forall b stack last_if, R b (set_stack b stack last_if)) ->
    (forall a b c, R a b -> R b c -> R a c) ->
    forall b c b', bstep b c = BOk b' -> R b b'.
  Proof.
    intros Hadd Hfresh Hset Htrans b c b'. destruct c as [k|c| | | |p]; cbn [Builder.bstep].
    - intros H. injection H as <-. apply Hadd.
    - destruct (fresh b cond_prefix) as [[nm b1]|] eqn:Ef; [|discriminate].
      intros H. injection H as <-.
      exact (Htrans _ _ _ (Hfresh _ _ _ _ Ef) (Htrans _ _ _ (Hadd _ _) (Hset _ _ _))).
    - destruct (rev (b_stack b)); [discriminate|]. intros H. injection H as <-. apply Hset.
    - destruct (b_last_if b); [|discriminate]. intros H. injection H as <-. apply Hset.
    - destruct (rev (b_stack b)); [discriminate|]. intros H. injection H as <-. apply Hset.
    - destruct (fresh b p) as [[nm b1]|] eqn:Ef; [|discriminate]. intros H. injection H as <-.
      exact (Hfresh _ _ _ _ Ef).
  Qed.

  Lemma binv_step b c b' : binv b -> bstep b c = BOk b' -> binv b'.
  Proof.
    intros Hb H. revert Hb. apply (bstep_rel (fun b b' => binv b -> binv b')) with (5 := H).
    - exact binv_add.
    - exact binv_fresh.
    - intros b0 stack last_if Hb. exact Hb.
    - auto.
  Qed.

  Lemma binv_fold p : forall b b', binv b -> bfold true true is_state tok b p = BOk b' -> binv b'.
  Proof.
    induction p as [|c p IH]; intros b b' Hb H; cbn [bfold] in H.
    - injection H as <-. exact Hb.
    - destruct (bstep b c) as [b1| | |] eqn:E; try discriminate. eapply IH; [|exact H].
      eapply binv_step; eassumption.
  Qed.

  Lemma binv_init : binv (binit tok).
  Proof.
    split; [reflexivity|]. split; [reflexivity|]. intros i st H. destruct i; discriminate.
  Qed.

  Theorem build_inv p b : build true true is_state tok p = BOk b -> binv b.
  Proof. apply binv_fold, binv_init. Qed.

  Lemma fresh_loop_spec fuel p : forall idx seen nm nx,
    fresh_loop fuel p idx seen = Some (nm, nx) -> ~ In nm seen.
  Proof.
    induction fuel as [|f IH]; intros idx seen nm nx H; [discriminate|]. cbn [fresh_loop] in H.
    destruct (mem (candidate p idx) seen) eqn:E; [eapply IH; exact H|].
    injection H as <- _. intros Hin. apply existsb_str_In in Hin. unfold mem in E. congruence.
  Qed.

  Theorem fresh_not_seen b p nm b' :
    fresh b p = Some (nm, b') -> ~ In nm (b_seen b) /\ In nm (b_seen b') /\ incl (b_seen b) (b_seen b').
  Proof.
    unfold fresh. destruct (fresh_loop _ _ _ _) as [[n nx]|] eqn:E; [|discriminate].
    intros H. injection H as <- <-. cbn [b_seen]. split; [eapply fresh_loop_spec; exact E|].
    split; [rewrite in_app_iff; right; now left|]. intros y Hy. rewrite in_app_iff. now left.
  Qed.

  Lemma add_statement_seen b k :
    incl (b_seen b) (b_seen (add_statement b k)) /\
    forall st, last (b_stmts (add_statement b k)) st = st \/
               incl (reads true true (last (b_stmts (add_statement b k)) st) ++
                     writes (last (b_stmts (add_statement b k)) st)) (b_seen (add_statement b k)).
  Proof.
    unfold Builder.add_statement. cbn [b_seen b_stmts]. split; [apply incl_appl, incl_refl|].
    intros st. right. rewrite last_last. unfold reads, writes, ext_reads, ext_writes. cbn [skd scond].
    repeat apply incl_app; auto 8 with datatypes.
  Qed.

  Theorem seen_monotone b c b' : bstep b c = BOk b' -> incl (b_seen b) (b_seen b').
  Proof.
    apply (bstep_rel (fun b b' => incl (b_seen b) (b_seen b'))).
    - intros b0 k. apply add_statement_seen.
    - intros b0 p nm b1 Ef. apply (fresh_not_seen _ _ _ _ Ef).
    - intros b0 stack last_if. apply incl_refl.
    - intros b0 b1 b2. apply incl_tran.
  Qed.

  Theorem conflicts_ordered p b i j a c :
    build true true is_state tok p = BOk b -> i < j ->
    nth_error (b_stmts b) i = Some a -> nth_error (b_stmts b) j = Some c ->
    ~ indep tok a c -> prec (out (b_core b)) i j.
  Proof.
    intros Hb Hij Ei Ej Hni. pose proof (build_inv p b Hb) as Hinv.
    destruct (binv_sets b i a Hinv Ei) as (xa & Hxa & Ra & Wa).
    destruct (binv_sets b j c Hinv Ej) as (xc & Hxc & Rc & Wc).
    rewrite (binv_core b Hinv). apply (build_covered var string_dec (b_xs b) i j xa xc Hij Hxa Hxc).
    unfold conflict. rewrite Wa, Wc.
    (* a write of a meets a read or a write of c, or a write of c meets a read or a write of a;
       conflict is written from a's side and has the pair of writes in its first disjunct *)
    destruct (not_indep tok a c Hni) as [(x & H1 & H2)|(x & H1 & H2)]; apply in_app_or in H2 as [H2|H2].
    - left. exists x. split; [exact H1|left; exact (Rc x H2)].
    - left. exists x. split; [exact H1|right; exact H2].
    - right. exists x. split; [exact (Ra x H2)|exact H1].
    - left. exists x. split; [exact H2|right; exact H1].
  Qed.

  Theorem barrier_ordered p b i j a c :
    build true true is_state tok p = BOk b -> i < j ->
    nth_error (b_stmts b) i = Some a -> nth_error (b_stmts b) j = Some c ->
    barrier a = true \/ barrier c = true -> prec (out (b_core b)) i j.
  Proof.
    intros Hb Hij Ei Ej Hbar. eapply conflicts_ordered; eauto.
    intros Hi. destruct (indep_not_barrier tok a c Hi) as [Ha Hc].
    destruct Hbar as [H|H]; congruence.
  Qed.

  Theorem edges_backward p b i st d :
    build true true is_state tok p = BOk b ->
    nth_error (b_stmts b) i = Some st -> In d (sdeps st) -> (d < i)%nat.
  Proof.
    intros Hb Hi Hd. pose proof (build_inv p b Hb) as Hinv.
    rewrite (binv_sdeps b i st Hinv Hi), (binv_core b Hinv) in Hd.
    exact (build_edge_lt var string_dec (b_xs b) d i Hd).
  Qed.

  (* what the theorem needs of a statement list: its recorded edges (o, statement by statement) order
     every pair of statements that are not independent *)
  Theorem schedules_equiv stmts o s0 sched :
    List.length o = List.length stmts ->
    (forall i st, nth_error stmts i = Some st -> sdeps st = nth i o []) ->
    (forall i j a c, i < j -> nth_error stmts i = Some a -> nth_error stmts j = Some c ->
                     ~ indep tok a c -> prec o i j) ->
    loopvars_ok stmts s0 ->
    Permutation (seq 0 (List.length stmts)) sched ->
    respects stmts sched ->
    req (run_ids F g stmts sched (RRun s0 []))
        (run_ids F g stmts (seq 0 (List.length stmts)) (RRun s0 [])).
  Proof.
    intros Hlen Hdeps Hcov Hlv Hperm Hresp.
    set (LV := fun y => exists a, In a stmts /\ In y (loopvars (skd a))).
    set (U := fun st => In st stmts).
    set (indep_idx := fun i j => match nth_error stmts i, nth_error stmts j with
                                 | Some a, Some c => indep tok a c | _, _ => False end).
    assert (HL : forall st, U st -> forall y, In y (loopvars (skd st)) -> LV y).
    { intros st Hu y Hy. exists st. auto. }
    assert (HW : forall st, U st -> forall y, LV y -> ~ In y (writes st)).
    { intros st Hu y (a & Ha & Hy). destruct (Hlv a y Ha Hy) as [_ H]. apply H, Hu. }
    (* the hypotheses of linext_run_eq, in its order: req is reflexive, transitive and kept by a step; clean
       is kept by a step; indep_idx is symmetric, commutes on clean states and is decidable; the start is
       clean; seq has no duplicates and sched permutes it; program order has every dependent pair in prec o;
       sched is a linear extension of prec o *)
    apply (linext_run_eq nat rstate (step_id F g stmts) req (clean LV) indep_idx) with (dep := prec o);
      unfold indep_idx, step_id.
    - apply req_refl.
    - apply req_trans.
    - intros i S S' H. destruct (nth_error stmts i); [apply step_proper, H|reflexivity].
    - intros i S H. destruct (nth_error stmts i) as [st|] eqn:E; [|exact I].
      apply (step_clean F g LV U HW); [eapply nth_error_In; exact E|exact H].
    - intros i j. destruct (nth_error stmts i), (nth_error stmts j); auto. apply indep_sym.
    - intros i j S Hi Hc.
      destruct (nth_error stmts i) as [a|] eqn:Ei; [|contradiction].
      destruct (nth_error stmts j) as [c|] eqn:Ej; [|contradiction].
      apply (indep_comm F g tok LV U HL HW); auto; eapply nth_error_In; eassumption.
    - intros i j. destruct (nth_error stmts i), (nth_error stmts j); auto. apply indep_dec.
    - cbn [clean]. intros y (a & Ha & Hy). apply (Hlv a y Ha Hy).
    - apply seq_NoDup.
    - exact Hperm.
    - apply FOP_seq. intros i j _ Hij Hj Hni.
      destruct (nth_error stmts i) as [a|] eqn:Ei; [|apply nth_error_None in Ei; lia].
      destruct (nth_error stmts j) as [c|] eqn:Ej; [|apply nth_error_None in Ej; lia].
      exact (Hcov i j a c Hij Ei Ej Hni).
    - apply respects_linext; [eapply Permutation_NoDup; [exact Hperm|apply seq_NoDup]|].
      exact (respects_respects_edges stmts o sched Hlen Hdeps Hresp).
  Qed.

  Theorem all_schedules p b s0 sched :
    build true true is_state tok p = BOk b ->
    loopvars_ok (b_stmts b) s0 ->
    Permutation (seq 0 (List.length (b_stmts b))) sched ->
    respects (b_stmts b) sched ->
    req (run_ids F g (b_stmts b) sched (RRun s0 []))
        (run_ids F g (b_stmts b) (seq 0 (List.length (b_stmts b))) (RRun s0 [])).
  Proof.
    intros Hb. pose proof (build_inv p b Hb) as Hinv.
    apply (schedules_equiv (b_stmts b) (out (b_core b))).
    - exact (binv_out_length b Hinv).
    - intros i st. exact (binv_sdeps b i st Hinv).
    - intros i j a c. exact (conflicts_ordered p b i j a c Hb).
  Qed.

  Corollary all_schedules_run_list p b s0 sched :
    build true true is_state tok p = BOk b ->
    loopvars_ok (b_stmts b) s0 ->
    Permutation (seq 0 (List.length (b_stmts b))) sched ->
    respects (b_stmts b) sched ->
    req (run_ids F g (b_stmts b) sched (RRun s0 [])) (run_list F g (b_stmts b) (RRun s0 [])).
  Proof. rewrite <- run_ids_seq. apply all_schedules. Qed.
End Builder.
