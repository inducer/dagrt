(* One leaf: a statement whose kind is hoisted into ns and k' (khoisted, the counterpart of TransformHoist.hoisted for
   exec_kind_t) is simulated by the block ns ++ [the statement with k'] (leaf_block); the traced execution of a
   loop-free statement depends on the variables it mentions only (exec_frame). *)
From Coq Require Import List ZArith NArith String Ascii Bool Arith Lia Permutation.
Import ListNotations.
From Dagrt Require Import Lang LangProofs Sched Transform TransformSem TransformSide TransformBasics TransformHoist
     TransformSpec TransformMappers ListFacts.

(* The theorems speak of source runs that end without a Python exception (props/C07.v): khoisted asks nocrash of
   the source outcome, srel relates a crashed source run to anything.  orel is used on both kinds of outcome
   (exec_frame runs the same statement in two stores), so a crash is related to the same crash. *)
Definition nocrash (o : outcome) : Prop :=
  match o with OUserExn | OCrash => False | _ => True end.

Definition orel (N : list var) (o o' : outcome) : Prop :=
  match o, o' with
  | ONext a ev, ONext b ev' => same_off N a b /\ ev = ev'
  | OFail, OFail => True
  | OSwitch p, OSwitch q => p = q
  | ORaise k, ORaise j => k = j
  | OUserExn, OUserExn => True
  | OCrash, OCrash => True
  | _, _ => False
  end.

Section Leaf.
  Variable F : string -> list val -> list (string * val) -> option (list val).
  Variable dg : bool.

  Notation exec_kind_t := (exec_kind_t F dg).
  Notation exec_t := (exec_t F dg).
  Notation evalt := (evalt F).
  Notation evalt_list := (evalt_list F).

  Lemma same_off_assign_all N : forall xs vs a b,
    same_off N a b -> same_off N (snd (assign_all a xs vs)) (snd (assign_all b xs vs)).
  Proof.
    induction xs as [|x xs IH]; intros vs a b H; [exact H|].
    destruct vs as [|v vs]; [exact H|]. cbn [assign_all].
    specialize (IH vs _ _ (same_off_upd N a b x v H)).
    destruct (assign_all (upd a x v) xs vs), (assign_all (upd b x v) xs vs). exact IH.
  Qed.

  Lemma orel_of_rs N (r r' : rs store) :
    match r, r' with Ok a, Ok b => same_off N a b | Err u, Err u' => u = u' | _, _ => False end ->
    orel N (of_rs r) (of_rs r').
  Proof.
    destruct r as [a|[|]], r' as [b|[|]]; cbn; intros H; try contradiction; try discriminate; auto.
  Qed.

  (* A statement kind runs on the values of its expressions (and, for a subscripted assignment,
     of its target): k' in store b against k in store a.  The frame property is the case k' = k;
     eliminate_self_dependencies needs it with k' the kind after substitution. *)
  Definition kind_same (a b : store) (k k' : skind) : Prop :=
    match k, k' with
    | KAssign x sub rhs [], KAssign x' sub' rhs' [] =>
        x' = x /\ evalt b rhs' = evalt a rhs /\
        match sub, sub' with
        | Some ie, Some ie' => b x = a x /\ evalt b ie' = evalt a ie
        | None, None => True
        | _, _ => False
        end
    | KCall xs f args kw, KCall xs' f' args' kw' =>
        xs' = xs /\ f' = f /\ map fst kw' = map fst kw /\
        evalt_list b args' = evalt_list a args /\ evalt_list b (map snd kw') = evalt_list a (map snd kw)
    | KYield c t time e, KYield c' t' time' e' =>
        c' = c /\ t' = t /\ evalt b time' = evalt a time /\ evalt b e' = evalt a e
    | KAssign _ _ _ _, _ | KCall _ _ _ _, _ | KYield _ _ _ _, _ => False
    | _, _ => k' = k
    end.

  Lemma exec_kind_same N a b k k' :
    same_off N a b -> kind_same a b k k' ->
    fst (exec_kind_t a k) = fst (exec_kind_t b k') /\
    orel N (snd (exec_kind_t a k)) (snd (exec_kind_t b k')).
  Proof.
    intros H Hk.
    destruct k as [x sub rhs [|? ?]|xs f args kw|comp tid time e| | | |]; cbn [kind_same] in Hk;
      try contradiction; try (subst k'; split; [reflexivity|cbn; auto]).
    - destruct k' as [x' sub' rhs' [|? ?]| | | | | |]; try contradiction. destruct Hk as (-> & Er & Hs).
      cbn [exec_kind_t]. unfold assign_once_t. rewrite Er.
      destruct (evalt a rhs) as [l [v|u]]; [|split; [reflexivity|destruct u; cbn; auto]].
      destruct sub as [ie|], sub' as [ie'|]; try contradiction.
      + destruct Hs as [Ex Ei]. rewrite Ex, Ei. destruct (a x) as [agg|]; [|split; [reflexivity|cbn; auto]].
        destruct (evalt a ie) as [l2 [iv|u]]; [|split; [reflexivity|destruct u; cbn; auto]].
        destruct agg as [| | |arr]; try (split; [reflexivity|cbn; auto]).
        destruct iv as [i| | |]; try (split; [reflexivity|cbn; auto]).
        destruct (as_int v) as [z|]; [|split; [reflexivity|cbn; auto]].
        destruct (norm_index _ i) as [n|]; [|split; [reflexivity|cbn; auto]].
        split; [reflexivity|]. cbn. split; [|reflexivity]. now apply same_off_upd.
      + split; [reflexivity|]. cbn. split; [|reflexivity]. now apply same_off_upd.
    - destruct k' as [|xs' f' args' kw'| | | | |]; try contradiction. destruct Hk as (-> & -> & Ef & Ea & Ek).
      cbn [exec_kind_t]. rewrite Ea, Ek, Ef.
      destruct (evalt_list a args) as [r1 [pos|u]]; [|split; [reflexivity|destruct u; cbn; auto]].
      destruct (evalt_list a (map snd kw)) as [r2 [kws|u]]; [|split; [reflexivity|destruct u; cbn; auto]].
      destruct (F f pos (combine (map fst kw) kws)) as [res|]; [|split; [reflexivity|cbn; auto]].
      destruct xs as [|x0 xs]; [split; [reflexivity|cbn; auto]|].
      destruct (Nat.eqb _ _); [|split; [reflexivity|cbn; auto]].
      split; [reflexivity|]. cbn [snd orel]. split; [|reflexivity]. now apply same_off_assign_all.
    - destruct k' as [| |comp' tid' time' e'| | | |]; try contradiction. destruct Hk as (-> & -> & Et & Ee).
      cbn [exec_kind_t]. rewrite Et, Ee.
      destruct (evalt a time) as [r1 [t|u]]; [|split; [reflexivity|destruct u; cbn; auto]].
      destruct (evalt a e) as [r2 [v|u]]; [|split; [reflexivity|destruct u; cbn; auto]].
      split; [reflexivity|]. cbn. auto.
  Qed.

  Lemma exec_kind_frame N a b k :
    same_off N a b -> loopfree k = true -> (forall x, In x (kvars k) -> ~ In x N) ->
    fst (exec_kind_t a k) = fst (exec_kind_t b k) /\
    orel N (snd (exec_kind_t a k)) (snd (exec_kind_t b k)).
  Proof.
    intros H Hl Hv.
    assert (Hx : forall x, In x (kvars k) -> b x = a x) by (intros x Hx; apply H; auto).
    apply (exec_kind_same N a b k k H).
    destruct k as [x sub rhs loops|xs f args kw|comp tid time e| | | |]; cbn [kind_same kvars] in *; try reflexivity.
    - destruct loops; [|discriminate]. split; [reflexivity|split].
      + apply evalt_frame. intros y Hy. apply Hx. right. rewrite !in_app_iff. tauto.
      + destruct sub as [ie|]; [|exact I]. split; [apply Hx; now left|].
        apply evalt_frame. intros y Hy. apply Hx. right. rewrite !in_app_iff. tauto.
    - repeat (split; [reflexivity|]). split; apply evalt_list_frame; intros y Hy; apply Hx; rewrite !in_app_iff; tauto.
    - repeat (split; [reflexivity|]). split; apply evalt_frame; intros y Hy; apply Hx; rewrite !in_app_iff; tauto.
  Qed.

  Lemma exec_frame N a b s :
    same_off N a b -> loopfree (tkd s) = true -> (forall x, In x (svars s) -> ~ In x N) ->
    fst (exec_t a s) = fst (exec_t b s) /\ orel N (snd (exec_t a s)) (snd (exec_t b s)).
  Proof.
    intros H Hl Hv. unfold exec_t.
    assert (Ec : cond_t F a (tcond s) = cond_t F b (tcond s)).
    { apply cond_t_frame. intros x Hx. apply (same_off_sym_eq N); auto. apply Hv. unfold svars.
      apply in_app_iff. now left. }
    rewrite Ec. destruct (cond_t F b (tcond s)) as [r [[|]|u]].
    - destruct (exec_kind_frame N a b (tkd s) H Hl) as [E1 E2].
      { intros x Hx. apply Hv. unfold svars. apply in_app_iff. now right. }
      destruct (exec_kind_t a (tkd s)) as [la oa], (exec_kind_t b (tkd s)) as [lb ob]. cbn in *. now subst.
    - split; [reflexivity|]. cbn. auto.
    - split; [reflexivity|]. destruct u; cbn; auto.
  Qed.

  Definition khoisted (cond : expr) (k k' : skind) (ns : list tstmt) (N : list var) : Prop :=
    forall s L o,
      cond_t F s cond = ([], Ok true) -> exec_kind_t s k = (L, o) -> nocrash o ->
      exists L1 s1 L2 o',
        exec_list F dg ns s = Some (L1, s1) /\ same_off N s s1 /\
        exec_kind_t s1 k' = (L2, o') /\ orel N o o' /\ Permutation (L1 ++ L2) L.

  Lemma orel_refl N o : orel N o o.
  Proof. destruct o; cbn; auto. split; [apply same_off_refl|reflexivity]. Qed.

  Lemma khoisted_id cond k : khoisted cond k k [] [].
  Proof.
    intros s L o _ He _. exists [], s, L, o.
    split; [reflexivity|split; [apply same_off_refl|split; [exact He|split; [apply orel_refl|apply Permutation_refl]]]].
  Qed.

  Lemma khoisted_assign0 cond x rhs rhs' ns N :
    hoisted F dg cond rhs rhs' ns N ->
    khoisted cond (KAssign x None rhs []) (KAssign x None rhs' []) ns N.
  Proof.
    intros H s L o Hc He Hn. cbn [exec_kind_t] in He. unfold assign_once_t in He.
    destruct (evalt s rhs) as [Lr [v|u]] eqn:Er; [|inversion He; subst; destruct u; contradiction].
    inversion He; subst L o. clear He.
    destruct (H s Lr v Hc Er) as (L1 & s1 & L2 & X1 & X2 & X3 & X4).
    exists L1, s1, L2, (ONext (upd s1 x v) None). split; [exact X1|split; [exact X2|split; [|split; [|exact X4]]]].
    - cbn [exec_kind_t]. unfold assign_once_t. rewrite X3. reflexivity.
    - cbn. split; [now apply same_off_upd|reflexivity].
  Qed.

  Lemma evalt_list_two s a b La va Lb vb :
    evalt s a = (La, Ok va) -> evalt s b = (Lb, Ok vb) ->
    evalt_list s [a; b] = (La ++ Lb, Ok [va; vb]).
  Proof. intros Ea Eb. cbn [TransformSem.evalt_list]. rewrite Ea, Eb. cbn. now rewrite app_nil_r. Qed.

  Lemma evalt_list_two_inv s a b L va vb :
    evalt_list s [a; b] = (L, Ok [va; vb]) ->
    exists La Lb, evalt s a = (La, Ok va) /\ evalt s b = (Lb, Ok vb) /\ L = La ++ Lb.
  Proof.
    cbn [TransformSem.evalt_list]. destruct (evalt s a) as [La [va'|u]]; [|discriminate].
    destruct (evalt s b) as [Lb [vb'|u]]; cbn; [|discriminate].
    intros H. inversion H; subst. exists La, Lb. rewrite app_nil_r. repeat split; reflexivity.
  Qed.

  Lemma khoisted_assign1 cond x ie ie' rhs rhs' ns N :
    hoisted_list F dg cond [ie; rhs] [ie'; rhs'] ns N -> ~ In x N ->
    khoisted cond (KAssign x (Some ie) rhs []) (KAssign x (Some ie') rhs' []) ns N.
  Proof.
    intros H Hx s L o Hc He Hn. cbn [exec_kind_t] in He. unfold assign_once_t in He.
    destruct (evalt s rhs) as [Lr [v|u]] eqn:Er; [|inversion He; subst; destruct u; contradiction].
    destruct (s x) as [agg|] eqn:Ex; [|inversion He; subst; contradiction].
    destruct (evalt s ie) as [Li [iv|u]] eqn:Ei; [|inversion He; subst; destruct u; contradiction].
    destruct (H s _ _ Hc (evalt_list_two s ie rhs Li iv Lr v Ei Er)) as (L1 & s1 & L2 & X1 & X2 & X3 & X4).
    apply evalt_list_two_inv in X3. destruct X3 as (Li2 & Lr2 & Ei2 & Er2 & ->).
    assert (Ex1 : s1 x = Some agg) by (rewrite <- Ex; now apply X2).
    assert (P : Permutation (L1 ++ Lr2 ++ Li2) (Lr ++ Li)).
    { rewrite (Permutation_app_comm Lr Li). rewrite <- X4.
      apply Permutation_app_head. apply Permutation_app_comm. }
    destruct agg as [| | |arr];
      try (inversion He; subst; contradiction).
    destruct iv as [i| | |]; try (inversion He; subst; contradiction).
    destruct (as_int v) as [z|] eqn:Ez; [|inversion He; subst; contradiction].
    destruct (norm_index (Z.of_nat (List.length arr)) i) as [n|] eqn:En; [|inversion He; subst; contradiction].
    inversion He; subst L o. clear He.
    exists L1, s1, (Lr2 ++ Li2), (ONext (upd s1 x (VArr (set_nth arr n z))) None).
    split; [exact X1|split; [exact X2|split; [|split; [|exact P]]]].
    - cbn [exec_kind_t]. unfold assign_once_t. rewrite Er2, Ex1, Ei2, Ez, En. reflexivity.
    - cbn. split; [now apply same_off_upd|reflexivity].
  Qed.

  Lemma app_inv_length {A} (a a' b b' : list A) :
    a ++ b = a' ++ b' -> List.length a = List.length a' -> a = a' /\ b = b'.
  Proof.
    revert a'. induction a as [|x a IH]; intros [|y a'] H Hl; try discriminate; [auto|].
    cbn in H. inversion H; subst. destruct (IH a' H2) as [-> ->]; [cbn in Hl; lia|auto].
  Qed.

  Lemma khoisted_call cond xs fn args kw l' ns N p kv :
    hoisted_list F dg cond (args ++ map snd kw) l' ns N ->
    split_at (List.length l' - List.length kw) l' = (p, kv) ->
    List.length l' = (List.length args + List.length kw)%nat ->
    khoisted cond (KCall xs fn args kw) (KCall xs fn p (combine (map fst kw) kv)) ns N.
  Proof.
    intros H Hsp Hlen s L o Hc He Hn. cbn [exec_kind_t] in He.
    destruct (evalt_list s args) as [r1 [pos|u]] eqn:Ea; [|inversion He; subst; destruct u; contradiction].
    destruct (evalt_list s (map snd kw)) as [r2 [kws|u]] eqn:Ek; [|inversion He; subst; destruct u; contradiction].
    assert (El : evalt_list s (args ++ map snd kw) = (r1 ++ r2, Ok (pos ++ kws))).
    { rewrite evalt_list_app, Ea, Ek. reflexivity. }
    destruct (H s _ _ Hc El) as (L1 & s1 & L2 & X1 & X2 & X3 & X4).
    rewrite <- (map_length fst kw) in Hsp.
    assert (Hle : (List.length (map fst kw) <= List.length l')%nat) by (rewrite map_length; lia).
    destruct (evalt_call_operands F s1 _ l' p kv L2 _ Hsp Hle X3) as (q1 & a & q2 & b & Ep & Ekv & Hk & -> & Hab & Lb).
    assert (Hs : pos = a /\ kws = b).
    { apply app_inv_length; [exact Hab|]. apply (f_equal (@List.length val)) in Hab. rewrite !app_length in Hab.
      rewrite (evalt_list_length F _ _ _ _ Ek), !map_length in *. lia. }
    destruct Hs as [-> ->].
    set (c := (fn, a, combine (map fst kw) b)) in *.
    assert (P : Permutation (L1 ++ q1 ++ q2 ++ [c]) (r1 ++ r2 ++ [c])).
    { rewrite !app_assoc. apply Permutation_app_tail. rewrite <- app_assoc. exact X4. }
    destruct (F fn a (combine (map fst kw) b)) as [res|] eqn:EF; [|inversion He; subst; contradiction].
    destruct xs as [|x0 xs].
    - inversion He; subst L o. clear He.
      exists L1, s1, (q1 ++ q2 ++ [c]), (ONext s1 None).
      split; [exact X1|split; [exact X2|split; [|split; [|exact P]]]].
      + cbn [exec_kind_t]. rewrite Ep, Ekv, Hk. fold c. rewrite EF. reflexivity.
      + cbn. split; [exact X2|reflexivity].
    - destruct (Nat.eqb (List.length (x0 :: xs)) (List.length res)) eqn:En; [|inversion He; subst; contradiction].
      injection He as HL Ho. subst L o.
      exists L1, s1, (q1 ++ q2 ++ [c]), (ONext (snd (assign_all s1 (x0 :: xs) res)) None).
      split; [exact X1|split; [exact X2|split; [|split; [|exact P]]]].
      + cbn [exec_kind_t]. rewrite Ep, Ekv, Hk. fold c. rewrite EF, En. reflexivity.
      + pose proof (same_off_assign_all N (x0 :: xs) res s s1 X2) as A.
        cbn [orel]. split; [exact A|reflexivity].
  Qed.

  Lemma khoisted_yield cond comp tid time time' e e' ns N :
    hoisted_list F dg cond [e; time] [e'; time'] ns N ->
    khoisted cond (KYield comp tid time e) (KYield comp tid time' e') ns N.
  Proof.
    intros H s L o Hc He Hn. cbn [exec_kind_t] in He.
    destruct (evalt s time) as [Lt [t|u]] eqn:Et; [|inversion He; subst; destruct u; contradiction].
    destruct (evalt s e) as [Le [v|u]] eqn:Ee; [|inversion He; subst; destruct u; contradiction].
    inversion He; subst L o. clear He.
    destruct (H s _ _ Hc (evalt_list_two s e time Le v Lt t Ee Et)) as (L1 & s1 & L2 & X1 & X2 & X3 & X4).
    apply evalt_list_two_inv in X3. destruct X3 as (Le2 & Lt2 & Ee2 & Et2 & ->).
    exists L1, s1, (Lt2 ++ Le2), (ONext s1 (Some (EvYield comp tid t v))).
    split; [exact X1|split; [exact X2|split; [|split]]].
    - cbn [exec_kind_t]. rewrite Et2, Ee2. reflexivity.
    - cbn. split; [exact X2|reflexivity].
    - rewrite (Permutation_app_comm Lt Le). rewrite <- X4.
      apply Permutation_app_head. apply Permutation_app_comm.
  Qed.

  Definition srel (N : list var) (S S' : trun) : Prop :=
    match S, S' with
    | TRun a e l, TRun b e' l' => same_off N a b /\ e = e' /\ Permutation l l'
    | TStop a e l w, TStop b e' l' w' => same_off N a b /\ e = e' /\ Permutation l l' /\ w = w'
    | TCrash _, _ => True
    | _, _ => False
    end.

  Lemma srel_refl N S : srel N S S.
  Proof.
    destruct S; cbn; auto.
    - split; [apply same_off_refl|split; [reflexivity|apply Permutation_refl]].
    - split; [apply same_off_refl|split; [reflexivity|split; [apply Permutation_refl|reflexivity]]].
  Qed.

  Lemma srel_trans N S1 S2 S3 : srel N S1 S2 -> srel N S2 S3 -> srel N S1 S3.
  Proof.
    destruct S1 as [a e l|a e l w|u]; cbn; [| |auto].
    - destruct S2 as [b e2 l2|?|?]; cbn; try contradiction. destruct S3 as [c e3 l3|?|?]; cbn; try tauto.
      intros (A & -> & C) (A' & -> & C'). split; [eapply same_off_trans'; eauto|split; [reflexivity|]].
      eapply Permutation_trans; eauto.
    - destruct S2 as [?|b e2 l2 w2|?]; cbn; try contradiction. destruct S3 as [?|c e3 l3 w3|?]; cbn; try tauto.
      intros (A & -> & C & ->) (A' & -> & C' & ->).
      split; [eapply same_off_trans'; eauto|split; [reflexivity|split; [eapply Permutation_trans; eauto|reflexivity]]].
  Qed.

  Lemma srel_incl N N' S S' : incl N N' -> srel N S S' -> srel N' S S'.
  Proof.
    intros Hi. destruct S as [a e l|a e l w|u], S' as [b e' l'|b e' l' w'|u']; cbn; try tauto.
    - intros (A & B & C). split; [eapply same_off_incl; eauto|auto].
    - intros (A & B & C). split; [eapply same_off_incl; eauto|auto].
  Qed.

  Notation run_block := (fold_left (fun S x => run_tree F dg x S)).

  Lemma leaf_block cond k k' ns N id deps deps' s evs log :
    has_call cond = false ->
    khoisted cond k k' ns N ->
    guarded cond ns ->
    (forall x, In x N -> ~ In x (vars cond)) ->
    srel N (step_t F dg (mkT id deps cond k) (TRun s evs log))
           (run_block (map TLeaf (ns ++ [mkT id deps' cond k'])) (TRun s evs log)).
  Proof.
    intros Hnc Hk Hg Hd. cbn [step_t]. unfold TransformSem.exec_t at 1. cbn [tcond tkd].
    (* the guard is evaluated once by the statement and again by every statement of the block: it logs no call *)
    pose proof (nocall_cond F cond s Hnc) as Hlog.
    destruct (cond_t F s cond) as [r [[|]|u]] eqn:Ec; cbn in Hlog; subst r.
    - (* guard true: ns runs, the guard is still true afterwards because N misses vars cond, then k' by khoisted *)
      destruct (exec_kind_t s k) as [L o] eqn:Ek.
      assert (Hcr : nocrash o \/ ~ nocrash o) by (destruct o; cbn; auto).
      destruct Hcr as [Hn|Hn]; [|destruct o; cbn in *; try tauto].
      destruct (Hk s L o Ec Ek Hn) as (L1 & s1 & L2 & o' & X1 & X2 & X3 & X4 & X5).
      rewrite map_app. rewrite (run_leaves F dg ns s L1 s1 evs log _ X1). cbn [map fold_left run_tree step_t].
      unfold TransformSem.exec_t. cbn [tcond tkd].
      assert (Ec1 : cond_t F s1 cond = ([], Ok true)).
      { rewrite <- Ec. exact (cond_same_off F N s s1 cond X2 Hd). }
      rewrite Ec1, X3. cbn [app].
      assert (P : Permutation (log ++ L) ((log ++ L1) ++ L2)).
      { rewrite <- app_assoc. apply Permutation_app_head. now apply Permutation_sym. }
      destruct o, o'; cbn in X4; try contradiction; cbn.
      + destruct X4 as [A ->]. repeat split; auto.
      + repeat split; auto.
      + subst. repeat split; auto.
      + subst. repeat split; auto.
    - (* guard false: every statement of the block is skipped, its guard extending cond *)
      assert (Hall : guarded cond (ns ++ [mkT id deps' cond k'])).
      { apply Forall_app. split; [exact Hg|exact (guarded_one (mkT id deps' cond k'))]. }
      pose proof (exec_list_skip F dg cond _ s Hall Ec) as Hs.
      pose proof (run_leaves F dg _ s [] s evs log [] Hs) as Hr. rewrite app_nil_r in Hr. rewrite Hr.
      cbn [fold_left ev_list]. cbn. rewrite !app_nil_r. repeat split; auto using same_off_refl.
    - cbn. destruct u; exact I.
  Qed.
End Leaf.
