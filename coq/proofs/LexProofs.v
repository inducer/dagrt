(* C19 -- the property's second sentence on the text: the lexer on a back-tick quoted name, then
   parser and remove_backticks on the one token it returns (theorem backticks). *)
From Coq Require Import List ZArith NArith String Ascii Bool Arith.
Import ListNotations.
From Dagrt Require Import GenC19 Print Parse ParseRules PrintParseProofs LexTokens.
Open Scope string_scope.
Open Scope nat_scope.

Lemma bt_not_bt_char : is_bt_char "`" = false.
Proof. vm_compute. reflexivity. Qed.

Lemma span_bt n :
  string_forallb is_bt_char n = true -> span is_bt_char (n ++ "`") = (n, "`").
Proof. intros H. apply span_app; [exact H | exact bt_not_bt_char]. Qed.

Lemma lex_step_bt n :
  string_forallb is_bt_char n = true ->
  lex_step (String "`" (n ++ "`")) = SNext (TId (String "`" (n ++ "`"))) "".
Proof.
  intros H. unfold lex_step.
  cbn [prefix_rest kw_rest Ascii.eqb Bool.eqb is_digit is_id_start is_alpha in_range nat_of_ascii orb andb].
  change (is_digit "`") with false. change (is_id_start "`") with false.
  cbn [Ascii.eqb Bool.eqb orb andb]. rewrite (span_bt n H). reflexivity.
Qed.

Lemma lex_bt n :
  string_forallb is_bt_char n = true ->
  lex (String "`" (n ++ "`")) = Ok [TId (String "`" (n ++ "`"))].
Proof.
  intros H. unfold lex. cbn [String.length lex_go]. rewrite (lex_step_bt n H), lex_go_nil. reflexivity.
Qed.

Theorem backticks n :
  string_forallb is_bt_char n = true ->
  parse_string (String "`" (n ++ "`")) = Ok (EVar n).
Proof.
  intros H. unfold parse_string. rewrite (lex_bt n H). cbn [bind].
  unfold parse_tokens. cbn [strip filter is_sp negb].
  rewrite (parse_toks_intro [TId (String "`" (n ++ "`"))] (EVar (String "`" (n ++ "`")))).
  - cbn [bind unbt]. rewrite strip_bt_quote. reflexivity.
  - eapply PE_intro; [apply prefix_id | apply LP_stop; reflexivity].
Qed.

Example backticks_example :
  parse_string "`<p>y_1`" = Ok (EVar "<p>y_1").
Proof. apply (backticks "<p>y_1"). vm_compute. reflexivity. Qed.
