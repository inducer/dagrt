(* Facts about lists that Coq 8.16's List library lacks and that several of the proof files need.
   Nothing here mentions a model; the membership tests mem / memv of the models (and FortranTarget.memb)
   unfold to [existsb (eqb x) l], which is why that shape has lemmas of its own (BuilderCore.memb alone
   goes through in_dec; BuilderInv has its two lemmas). *)
From Coq Require Import List Bool Arith.
From Coq Require String FinFun.
Import ListNotations.

Section Membership.
  Context {A : Type} (eqb : A -> A -> bool) (eqb_eq : forall x y, eqb x y = true <-> x = y).

  Lemma existsb_eqb_In x l : existsb (eqb x) l = true <-> In x l.
  Proof.
    rewrite existsb_exists. split.
    - intros (y & Hy & E). apply eqb_eq in E. now subst.
    - intros H. exists x. split; [assumption | now apply eqb_eq].
  Qed.

  Lemma existsb_eqb_nIn x l : existsb (eqb x) l = false <-> ~ In x l.
  Proof. rewrite <- existsb_eqb_In. destruct (existsb (eqb x) l); split; congruence. Qed.
End Membership.

Definition existsb_nat_In := existsb_eqb_In Nat.eqb Nat.eqb_eq.
Definition existsb_nat_nIn := existsb_eqb_nIn Nat.eqb Nat.eqb_eq.
Definition existsb_str_In := existsb_eqb_In String.eqb String.eqb_eq.
Definition existsb_str_nIn := existsb_eqb_nIn String.eqb String.eqb_eq.

Section NoDup.
  Context {A : Type}.
  Implicit Types l r : list A.

  Lemma NoDup_app_l l r : NoDup (l ++ r) -> NoDup l.
  Proof.
    induction l as [|a l IH]; cbn; intros H; [constructor|].
    inversion H as [|? ? Hn Hnd]; subst. constructor; [|now apply IH].
    intros Hi. apply Hn, in_or_app. now left.
  Qed.

  Lemma NoDup_app_r l r : NoDup (l ++ r) -> NoDup r.
  Proof. induction l; cbn; intros H; [assumption|]. inversion H; auto. Qed.

  Lemma NoDup_app_disj l r x : NoDup (l ++ r) -> In x l -> ~ In x r.
  Proof.
    induction l as [|a l IH]; cbn; intros H Hx; [destruct Hx|].
    inversion H as [|? ? Hn Hnd]; subst. destruct Hx as [->|Hx]; [|now apply IH].
    intros Hr. apply Hn, in_or_app. now right.
  Qed.

  Lemma NoDup_app_intro l r :
    NoDup l -> NoDup r -> (forall x, In x l -> ~ In x r) -> NoDup (l ++ r).
  Proof.
    induction l as [|a l IH]; cbn; intros Hl Hr Hd; [assumption|].
    inversion Hl as [|? ? Hn Hnd]; subst. constructor.
    - rewrite in_app_iff. intros [H|H]; [auto | exact (Hd a (or_introl eq_refl) H)].
    - apply IH; auto.
  Qed.

  Lemma NoDup_snoc l x : NoDup l -> ~ In x l -> NoDup (l ++ [x]).
  Proof.
    intros Hl Hx. apply NoDup_app_intro; [assumption | repeat constructor; intros [] |].
    intros y Hy [<-|[]]. auto.
  Qed.

  Lemma NoDup_map_inj {B} (f : A -> B) l a b :
    NoDup (map f l) -> In a l -> In b l -> f a = f b -> a = b.
  Proof.
    induction l as [|x l IH]; cbn; intros H Ha Hb E; [destruct Ha|].
    inversion H as [|? ? Hn Hnd]; subst.
    destruct Ha as [->|Ha], Hb as [->|Hb]; auto.
    - exfalso. apply Hn. rewrite E. now apply in_map.
    - exfalso. apply Hn. rewrite <- E. now apply in_map.
  Qed.

  Lemma In_skipn (x : A) k l : In x (skipn k l) -> In x l.
  Proof. intros H. rewrite <- (firstn_skipn k l). apply in_or_app. now right. Qed.

  Lemma NoDup_skipn k l : NoDup l -> NoDup (skipn k l).
  Proof. intros H. rewrite <- (firstn_skipn k l) in H. exact (NoDup_app_r _ _ H). Qed.

  (* Pigeonhole, in the form the searches for a fresh numbered name need: n pairwise different candidates
     f 0 .. f (n-1), none of them in l, do not all fit into l' beside l. *)
  Lemma candidates_length (f : nat -> A) l l' n :
    NoDup l -> incl l l' -> (forall i j, f i = f j -> i = j) -> (forall i, ~ In (f i) l) ->
    (forall i, i < n -> In (f i) l') ->
    length l + n <= length l'.
  Proof.
    intros NDl Il Inj Dis Hin.
    assert (ND : NoDup (l ++ map f (seq 0 n))).
    { apply NoDup_app_intro; [exact NDl | apply FinFun.Injective_map_NoDup; [exact Inj | apply seq_NoDup] |].
      intros x Hx Hc. apply in_map_iff in Hc as [i [<- _]]. exact (Dis i Hx). }
    apply NoDup_incl_length with (l' := l') in ND.
    - now rewrite app_length, map_length, seq_length in ND.
    - apply incl_app; [exact Il|]. intros x Hx. apply in_map_iff in Hx as [i [<- Hi]].
      apply in_seq in Hi. apply Hin, Hi.
  Qed.
End NoDup.

(* The duplicate check `x not in rest, for every x`, as the models write it (Controller, Refcount, FuseCheck, Determ):
   each model's own fixpoint unfolds to this one. *)
Section NoDupB.
  Context {A : Type} (eqb : A -> A -> bool) (eqb_eq : forall x y, eqb x y = true <-> x = y).
  Fixpoint nodupb_by (l : list A) : bool :=
    match l with [] => true | x :: r => negb (existsb (eqb x) r) && nodupb_by r end.
  Lemma nodupb_by_NoDup l : nodupb_by l = true -> NoDup l.
  Proof.
    induction l as [|x l IH]; cbn [nodupb_by]; intros H; constructor; apply andb_prop in H as [H1 H2]; auto.
    apply (existsb_eqb_nIn eqb eqb_eq). now apply negb_true_iff.
  Qed.
End NoDupB.

Section Snoc.
  Context {A : Type}.

  Lemma snoc_split (l l1 l2 : list A) (x y : A) :
    l ++ [y] = l1 ++ x :: l2 ->
    (l2 = [] /\ l = l1 /\ y = x) \/ (exists l2', l2 = l2' ++ [y] /\ l = l1 ++ x :: l2').
  Proof.
    destruct (exists_last (l := x :: l2)) as (m & z & E); [discriminate|].
    rewrite E, app_assoc. intros H. apply app_inj_tail in H as [-> <-].
    destruct l2 as [|b l2]; [left | right].
    - destruct m; [|destruct m; discriminate]. injection E as <-. auto using app_nil_r.
    - destruct m as [|a m]; [discriminate|]. injection E as <- E. exists m. rewrite E. auto.
  Qed.

  Lemma head_split (s x : A) rest above below :
    s :: rest = above ++ x :: below ->
    (above = [] /\ s = x /\ rest = below) \/ (exists a', above = s :: a' /\ rest = a' ++ x :: below).
  Proof. destruct above as [|a a']; cbn; intros H; injection H as -> ->; [left|right]; eauto. Qed.

  Lemma nth_error_snoc (l : list A) x i y :
    nth_error (l ++ [x]) i = Some y ->
    nth_error l i = Some y \/ (i = length l /\ y = x).
  Proof.
    intros H. destruct (Nat.lt_ge_cases i (length l)) as [Hi|Hi].
    - left. now rewrite nth_error_app1 in H.
    - right. rewrite nth_error_app2 in H by assumption.
      destruct (i - length l) as [|k] eqn:E; cbn in H; [|destruct k; discriminate].
      injection H as <-. split; [|reflexivity]. apply Nat.le_antisymm; [|assumption].
      now apply Nat.sub_0_le.
  Qed.
End Snoc.

Section Forall2.
  Context {A B : Type}.

  Lemma Forall2_length (R : A -> B -> Prop) l l' : Forall2 R l l' -> length l = length l'.
  Proof. induction 1; cbn; congruence. Qed.

  Lemma Forall2_impl (R1 R2 : A -> B -> Prop) l l' :
    (forall a b, R1 a b -> R2 a b) -> Forall2 R1 l l' -> Forall2 R2 l l'.
  Proof. intros H; induction 1; constructor; auto. Qed.

  Lemma Forall2_firstn (R : A -> B -> Prop) n l l' :
    Forall2 R l l' -> Forall2 R (firstn n l) (firstn n l').
  Proof. intros H; revert n; induction H; intros [|n]; cbn; constructor; auto. Qed.

  Lemma Forall2_skipn (R : A -> B -> Prop) n l l' :
    Forall2 R l l' -> Forall2 R (skipn n l) (skipn n l').
  Proof. intros H; revert n; induction H; intros [|n]; cbn; auto; constructor; auto. Qed.
End Forall2.

Lemma forallb_Forall {A} (p : A -> bool) l : forallb p l = true <-> Forall (fun x => p x = true) l.
Proof. rewrite forallb_forall, Forall_forall. reflexivity. Qed.

Lemma forallb_flat_map {A B} (p : B -> bool) (f : A -> list B) l :
  forallb p (flat_map f l) = forallb (fun x => forallb p (f x)) l.
Proof. induction l as [|x l IH]; cbn; [reflexivity|]. now rewrite forallb_app, IH. Qed.

Lemma flat_map_map {A B C} (f : B -> list C) (g : A -> B) l :
  flat_map f (map g l) = flat_map (fun x => f (g x)) l.
Proof. induction l as [|x l IH]; cbn; [reflexivity|]. now rewrite IH. Qed.

Lemma map_flat_map {A B C} (f : B -> C) (g : A -> list B) l :
  map f (flat_map g l) = flat_map (fun x => map f (g x)) l.
Proof. induction l as [|x l IH]; cbn; [reflexivity|]. now rewrite map_app, IH. Qed.

Lemma flat_map_ext_in {A B} (f g : A -> list B) l :
  (forall x, In x l -> f x = g x) -> flat_map f l = flat_map g l.
Proof.
  induction l as [|x l IH]; cbn; intros H; [reflexivity|].
  rewrite (H x (or_introl eq_refl)), IH; auto.
Qed.

Lemma filter_nil_iff {A} (f : A -> bool) l : filter f l = [] <-> forall x, In x l -> f x = false.
Proof.
  induction l as [|a l IH]; cbn.
  - split; [intros _ x [] | reflexivity].
  - destruct (f a) eqn:E.
    + split; [discriminate|]. intros H. rewrite (H a (or_introl eq_refl)) in E. discriminate.
    + rewrite IH. split; [intros H x [<-|Hx]; auto | auto].
Qed.

Lemma forallb_map {A B} (g : B -> bool) (f : A -> B) l :
  forallb g (map f l) = forallb (fun x => g (f x)) l.
Proof. induction l as [|x l IH]; cbn; [reflexivity | now rewrite IH]. Qed.

Lemma Forall2_map_r {A B} (R : A -> B -> Prop) (f : A -> B) l :
  Forall (fun a => R a (f a)) l -> Forall2 R l (map f l).
Proof. induction 1; constructor; auto. Qed.

Lemma map_fst_combine {A B} (a : list A) (b : list B) :
  length a = length b -> map fst (combine a b) = a.
Proof.
  revert b. induction a as [|x a IH]; intros [|y b] H; try discriminate; [reflexivity|].
  cbn. f_equal. apply IH. now injection H.
Qed.

Lemma map_snd_combine {A B} (a : list A) (b : list B) :
  length a = length b -> map snd (combine a b) = b.
Proof.
  revert b. induction a as [|x a IH]; intros [|y b] H; try discriminate; [reflexivity|].
  cbn. f_equal. apply IH. now injection H.
Qed.
