(* Proofs about model/DagAst.v (C05): the iterative search of create_ast_from_phase computes a
   post-order of a well-formed phase, the lowered tree runs exactly the statements whose guard
   holds, inside their loops (simplify_ast keeps that trace: SimplifyProofs.simplify_ltrace), the
   result does not depend on the stored order, and lowering and walking are total. *)
From Coq Require Import List Arith Bool Lia Relations Permutation Sorted.
Import ListNotations.
From Dagrt Require Import ListFacts GenC05 Simplify SimplifyProofs DagAst.
From Dagrt Require Dfs.
Local Open Scope list_scope.

Section LTr.
  Variable v : nat -> bool.
  Variable trips : nat -> nat.
  Notation ltr := (ltrace v trips).

  Lemma ltrace_fst : forall t nest, map fst (ltr nest t) = trace v trips t.
  Proof. intros t nest. symmetry. apply trace_ltrace. Qed.
End LTr.

Lemma insert_In x y l : In x (insert y l) <-> x = y \/ In x l.
Proof.
  assert (E : forall z, z = x <-> x = z) by (split; auto).
  induction l as [|z r IH]; cbn [insert]; [cbn [In]; now rewrite E|].
  destruct (y <? z); [cbn [In]; now rewrite E|].
  destruct (y =? z) eqn:E2; cbn [In].
  - apply Nat.eqb_eq in E2. subst. rewrite E. tauto.
  - rewrite IH. tauto.
Qed.

Lemma sorted_set_In x l : In x (sorted_set l) <-> In x l.
Proof.
  induction l as [|y l IH]; cbn [sorted_set fold_right]; [tauto|].
  fold (sorted_set l). rewrite insert_In, IH. cbn [In]. split; intros [H|H]; auto.
Qed.

Lemma insert_sorted y l : StronglySorted lt l -> StronglySorted lt (insert y l).
Proof.
  induction l as [|z r IH]; intros S; cbn [insert].
  - constructor; constructor.
  - apply StronglySorted_inv in S. destruct S as [Sr Fz].
    destruct (y <? z) eqn:E1.
    + apply Nat.ltb_lt in E1. constructor; [constructor; assumption|].
      constructor; [assumption|]. rewrite Forall_forall in *. intros w Hw. specialize (Fz w Hw). lia.
    + destruct (y =? z) eqn:E2; [constructor; assumption|].
      apply Nat.ltb_ge in E1. apply Nat.eqb_neq in E2.
      constructor; [apply IH; assumption|].
      rewrite Forall_forall in *. intros w Hw. apply insert_In in Hw.
      destruct Hw as [->|Hw]; [lia|apply Fz; assumption].
Qed.

Lemma sorted_set_sorted l : StronglySorted lt (sorted_set l).
Proof.
  induction l as [|y l IH]; cbn [sorted_set fold_right]; [constructor|].
  apply insert_sorted. exact IH.
Qed.

Lemma ssorted_unique : forall l1 l2, StronglySorted lt l1 -> StronglySorted lt l2 ->
  (forall x, In x l1 <-> In x l2) -> l1 = l2.
Proof.
  induction l1 as [|a r1 IH]; intros l2 S1 S2 H.
  - destruct l2 as [|b r2]; [reflexivity|]. exfalso. apply (H b). now left.
  - destruct l2 as [|b r2]; [exfalso; apply (H a); now left|].
    apply StronglySorted_inv in S1. destruct S1 as [S1 F1].
    apply StronglySorted_inv in S2. destruct S2 as [S2 F2].
    rewrite Forall_forall in F1, F2.
    assert (E : a = b).
    { destruct (proj1 (H a) (or_introl eq_refl)) as [Eb|Hb]; [now symmetry|].
      destruct (proj2 (H b) (or_introl eq_refl)) as [Ea|Ha]; [assumption|].
      specialize (F1 _ Ha). specialize (F2 _ Hb). lia. }
    subst b. f_equal. apply IH; try assumption.
    intros x. split; intros Hx.
    + destruct (proj1 (H x) (or_intror Hx)) as [E|Hx2]; [|assumption].
      specialize (F1 _ Hx). lia.
    + destruct (proj2 (H x) (or_intror Hx)) as [E|Hx2]; [|assumption].
      specialize (F2 _ Hx). lia.
Qed.

Lemma sorted_set_ext l1 l2 : (forall x, In x l1 <-> In x l2) -> sorted_set l1 = sorted_set l2.
Proof.
  intros H. apply ssorted_unique; try apply sorted_set_sorted.
  intros x. rewrite !sorted_set_In. apply H.
Qed.

Lemma insert_length y l : length (insert y l) <= S (length l).
Proof.
  induction l as [|z r IH]; cbn [insert]; [cbn; lia|].
  destruct (y <? z); [cbn; lia|]. destruct (y =? z); cbn in *; lia.
Qed.
Lemma sorted_set_length l : length (sorted_set l) <= length l.
Proof.
  induction l as [|y l IH]; cbn [sorted_set fold_right]; [cbn; lia|].
  fold (sorted_set l). pose proof (insert_length y (sorted_set l)). cbn. lia.
Qed.

Lemma lookup_some stmts : forall i st, lookup stmts i = Some st -> In st stmts /\ sid st = i.
Proof. exact (Dfs.lookup_by_Some sid stmts). Qed.

Lemma lookup_in stmts i : In i (map sid stmts) -> exists st, lookup stmts i = Some st.
Proof. exact (Dfs.lookup_by_In sid stmts i). Qed.

Lemma lookup_none stmts i : lookup stmts i = None <-> ~ In i (map sid stmts).
Proof. exact (Dfs.lookup_by_None sid stmts i). Qed.

Lemma lookup_nodup stmts st : NoDup (map sid stmts) -> In st stmts -> lookup stmts (sid st) = Some st.
Proof. exact (Dfs.lookup_by_NoDup sid stmts st). Qed.

Lemma lookup_perm s1 s2 : Permutation s1 s2 -> NoDup (map sid s1) -> forall i, lookup s1 i = lookup s2 i.
Proof.
  intros P ND i.
  assert (ND2 : NoDup (map sid s2)).
  { eapply Permutation_NoDup; [apply Permutation_map; exact P|exact ND]. }
  destruct (lookup s1 i) as [st|] eqn:E1.
  - apply lookup_some in E1. destruct E1 as [Hin <-].
    symmetry. apply lookup_nodup; [assumption|]. eapply Permutation_in; eassumption.
  - destruct (lookup s2 i) as [st|] eqn:E2; [|reflexivity].
    apply lookup_some in E2. destruct E2 as [Hin <-].
    rewrite (lookup_nodup s1 st ND) in E1; [discriminate|].
    eapply Permutation_in; [apply Permutation_sym; exact P|exact Hin].
Qed.

Local Notation weight := (Dfs.unvisited_cost sid (fun st => S (length (sdeps st)))).

(* |stack| + weight drops at every turn: a pop takes one off the stack; entering a statement puts
   at most |deps| on the stack and takes 1 + |deps| off the weight. *)
Lemma topo_fuel_enough stmts : forall fuel stack visiting visited order,
  length stack + weight visited stmts < fuel ->
  topo stmts fuel stack visiting visited order <> LOutOfFuel.
Proof.
  induction fuel as [|f IH]; intros stack visiting visited order H; [lia|].
  cbn [topo]. destruct stack as [|s rest]; [discriminate|].
  cbn [length] in H.
  destruct (mem s visited) eqn:Ev.
  - destruct (mem s visiting); apply IH; lia.
  - destruct (lookup stmts s) as [st|] eqn:El; [|discriminate].
    apply lookup_some in El. destruct El as [Hin <-]. apply existsb_nat_nIn in Ev.
    pose proof (Dfs.unvisited_cost_enter sid (fun st => S (length (sdeps st))) st visited stmts Hin Ev) as Hw.
    cbv beta in Hw. pose proof (sorted_set_length (sdeps st)) as Hl.
    apply IH. rewrite app_length, rev_length. cbn [length]. lia.
Qed.

Theorem topo_order_fuel stmts : topo_order stmts <> LOutOfFuel.
Proof.
  unfold topo_order. apply topo_fuel_enough.
  unfold topo_fuel. rewrite rev_length, Dfs.unvisited_cost_nil. lia.
Qed.

Section Topo.
  Variable stmts : list stmt.
  Local Notation edge := (DagAst.edge stmts).
  Hypothesis Hacyc : acyclic stmts.
  Variable roots0 : list nat.

  Inductive porder : list nat -> Prop :=
  | porder_nil : porder []
  | porder_snoc l x : porder l -> (forall d, edge x d -> In d l) -> ~ In x l -> porder (l ++ [x]).

  Lemma post_NoDup l : porder l -> NoDup l.
  Proof.
    induction 1; [constructor | now apply NoDup_snoc].
  Qed.

  Lemma post_closed l : porder l -> forall x d, In x l -> edge x d -> In d l.
  Proof.
    induction 1 as [|l x _ IH Hd _]; intros y d Hy He; [destruct Hy|].
    rewrite in_app_iff in *. destruct Hy as [Hy|[<-|[]]]; left; eauto.
  Qed.

  Lemma post_before l : porder l -> forall l1 x l2, l = l1 ++ x :: l2 ->
    forall d, edge x d -> In d l1.
  Proof.
    induction 1 as [|l a _ IH Hd _]; intros l1 x l2 E d He.
    - destruct l1; discriminate.
    - apply snoc_split in E. destruct E as [(-> & -> & ->)|(l2' & -> & ->)].
      + apply Hd. assumption.
      + eapply IH; [reflexivity|eassumption].
  Qed.
  Lemma porder_of_post_order l : Dfs.post_order edge l -> porder l.
  Proof. induction 1; constructor; assumption. Qed.

  Definition Inv : list nat -> list nat -> list nat -> list nat -> Prop := Dfs.DInv edge roots0.

  Lemma inv_finish s rest visiting visited order :
    Inv (s :: rest) visiting visited order -> In s visiting ->
    Inv rest (remove Nat.eq_dec s visiting) visited (order ++ [s]).
  Proof.
    intros I Eg. apply Dfs.dinv_finish with visiting; [assumption..|].
    intros x. split; [apply in_remove | intros []; now apply in_in_remove].
  Qed.

  Lemma inv_stale s rest visiting visited order :
    Inv (s :: rest) visiting visited order -> In s visited -> ~ In s visiting ->
    Inv rest visiting visited order.
  Proof. apply Dfs.dinv_stale. Qed.

  Lemma inv_enter s rest visiting visited order st :
    Inv (s :: rest) visiting visited order -> ~ In s visited -> lookup stmts s = Some st ->
    Inv (rev (sorted_set (sdeps st)) ++ s :: rest) (s :: visiting) (s :: visited) order.
  Proof.
    intros I Ev El. apply Dfs.dinv_enter_acyclic; [exact Hacyc|assumption..|].
    intros y. rewrite <- in_rev, sorted_set_In. split; [exists st; auto|].
    intros (st' & El' & Hd). congruence.
  Qed.

  Lemma topo_inv : forall fuel stack visiting visited order res,
    Inv stack visiting visited order ->
    topo stmts fuel stack visiting visited order = LOk res ->
    porder res /\ (forall r, In r roots0 -> In r res).
  Proof.
    induction fuel as [|f IH]; intros stack visiting visited order res I H; [discriminate|].
    cbn [topo] in H. destruct stack as [|s rest].
    - injection H as <-. apply Dfs.dinv_done in I as [Hp Hr].
      split; [now apply porder_of_post_order|assumption].
    - destruct (mem s visited) eqn:Ev.
      + apply existsb_nat_In in Ev. destruct (mem s visiting) eqn:Eg.
        * apply existsb_nat_In in Eg. eapply IH; [|exact H]. apply inv_finish; assumption.
        * apply existsb_nat_nIn in Eg. eapply IH; [|exact H]. eapply inv_stale; eassumption.
      + apply existsb_nat_nIn in Ev. destruct (lookup stmts s) as [st|] eqn:El; [|discriminate].
        eapply IH; [|exact H]. apply inv_enter; assumption.
  Qed.

  Lemma inv_init : Inv (rev roots0) [] [] [].
  Proof. apply Dfs.dinv_init. Qed.
End Topo.

Lemma roots_In stmts x :
  In x (roots stmts) <-> In x (map sid stmts) /\ ~ In x (all_deps stmts).
Proof. unfold roots, mem. rewrite sorted_set_In, filter_In, negb_true_iff, existsb_nat_nIn. tauto. Qed.

Lemma all_deps_In stmts d : In d (all_deps stmts) <-> exists st, In st stmts /\ In d (sdeps st).
Proof. unfold all_deps. rewrite in_flat_map. tauto. Qed.

Lemma topo_no_index stmts : forall fuel stack visiting visited order,
  topo stmts fuel stack visiting visited order <> LIndexError.
Proof.
  induction fuel as [|f IH]; intros stack visiting visited order; [discriminate|].
  cbn [topo]. destruct stack as [|s rest]; [discriminate|].
  destruct (mem s visited); [destruct (mem s visiting); apply IH|].
  destruct (lookup stmts s); [apply IH|discriminate].
Qed.

Lemma topo_no_key stmts : closed stmts -> forall fuel stack visiting visited order k,
  incl stack (map sid stmts) ->
  topo stmts fuel stack visiting visited order <> LKeyError k.
Proof.
  intros Hc. induction fuel as [|f IH]; intros stack visiting visited order k Hs; [discriminate|].
  cbn [topo]. destruct stack as [|s rest]; [discriminate|].
  assert (Hrest : incl rest (map sid stmts)) by (intros x Hx; apply Hs; now right).
  destruct (mem s visited); [destruct (mem s visiting); apply IH; assumption|].
  destruct (lookup stmts s) as [st|] eqn:El.
  - apply IH. intros x Hx. rewrite in_app_iff in Hx. destruct Hx as [Hx|Hx]; [|apply Hs; assumption].
    rewrite <- in_rev, sorted_set_In in Hx. apply lookup_some in El. eapply Hc; [apply El|exact Hx].
  - exfalso. apply lookup_none in El. apply El, Hs. now left.
Qed.

(* for any phase, cyclic or not *)
Lemma topo_dom stmts : forall fuel stack visiting visited ord res,
  (forall x, In x visited -> lookup stmts x <> None) ->
  (forall x, In x ord -> In x visited) ->
  topo stmts fuel stack visiting visited ord = LOk res ->
  forall x, In x res -> lookup stmts x <> None.
Proof.
  induction fuel as [|f IH]; intros stack visiting visited ord res H1 H2 H; [discriminate|].
  cbn [topo] in H. destruct stack as [|s rest].
  - injection H as <-. intros x Hx. apply H1, H2, Hx.
  - destruct (mem s visited) eqn:Ev.
    + apply existsb_nat_In in Ev. destruct (mem s visiting); eapply IH; try exact H; try assumption.
      intros x Hx. rewrite in_app_iff in Hx. destruct Hx as [Hx|[<-|[]]]; auto.
    + destruct (lookup stmts s) as [st|] eqn:El; [|discriminate].
      eapply IH; [| |exact H].
      * intros x [<-|Hx]; [congruence|auto].
      * intros x Hx. right. auto.
Qed.

Lemma topo_order_dom stmts order : topo_order stmts = LOk order ->
  forall x, In x order -> lookup stmts x <> None.
Proof. unfold topo_order. intros E. eapply topo_dom; [| |exact E]; intros x []. Qed.

Lemma topo_order_total stmts : closed stmts -> exists order, topo_order stmts = LOk order.
Proof.
  intros Hc. destruct (topo_order stmts) as [order|k| |] eqn:E; [eauto| | |].
  - exfalso. revert E. apply topo_no_key; [assumption|].
    intros x Hx. rewrite <- in_rev in Hx. apply roots_In in Hx. apply Hx.
  - exfalso. revert E. apply topo_no_index.
  - exfalso. revert E. apply topo_order_fuel.
Qed.

Lemma reach_from_root stmts : NoDup (map sid stmts) -> acyclic stmts ->
  forall x, In x (map sid stmts) ->
  exists r, In r (roots stmts) /\ clos_refl_trans nat (edge stmts) r x.
Proof.
  intros ND Hacyc x Hx.
  destruct (Dfs.reach_from_root (edge stmts) (map sid stmts) (fun r => In r (roots stmts)) Hacyc)
    with (x := x) as (r & _ & Hr & Hrx); eauto.
  intros y Hy. destruct (in_dec Nat.eq_dec y (all_deps stmts)) as [Hd|Hd].
  - right. apply all_deps_In in Hd as (st & Hst & Hd). exists (sid st).
    split; [now apply in_map|]. exists st. split; [now apply lookup_nodup|assumption].
  - left. apply roots_In. now split.
Qed.

Theorem topo_order_spec stmts : phase_wf stmts ->
  exists order, topo_order stmts = LOk order /\ porder stmts order /\
                Permutation order (map sid stmts).
Proof.
  intros [ND Hc Hacyc].
  destruct (topo_order_total stmts Hc) as [order E]. exists order. split; [assumption|].
  pose proof (topo_order_dom _ _ E) as Hdom. unfold topo_order in E.
  destruct (topo_inv stmts Hacyc (roots stmts) _ _ _ _ _ _ (inv_init stmts (roots stmts)) E)
    as (Hpost & Hroots).
  split; [assumption|].
  apply NoDup_Permutation; [eapply post_NoDup; eassumption|assumption|].
  intros x. split; intros Hx.
  - destruct (lookup stmts x) as [st|] eqn:El; [|exfalso; apply (Hdom x Hx El)].
    apply lookup_some in El. destruct El as [Hin <-]. apply in_map. assumption.
  - destruct (reach_from_root stmts ND Hacyc x Hx) as (r & Hr & Hrx).
    apply Hroots in Hr. clear - Hpost Hr Hrx.
    induction Hrx as [a b He|a|a b c _ IH1 _ IH2]; auto.
    eapply post_closed; eassumption.
Qed.

Lemma repeat_app_nil {A} n : @repeat_app A n [] = [].
Proof. induction n; cbn; auto. Qed.
Lemma nest_rep_nil {A} trips loops : @nest_rep A trips loops [] = [].
Proof.
  unfold nest_rep. induction loops as [|x l IH]; cbn [fold_right]; [reflexivity|].
  rewrite IH. apply repeat_app_nil.
Qed.

Lemma ltrace_loops v trips core : forall loops nest,
  ltrace v trips nest (fold_right For core loops) =
  nest_rep trips loops (ltrace v trips (nest ++ loops) core).
Proof.
  induction loops as [|x l IH]; intros nest; cbn [fold_right nest_rep].
  - now rewrite app_nil_r.
  - cbn [ltrace]. rewrite IH, <- app_assoc. reflexivity.
Qed.

Lemma ltrace_guard_node v trips nest st :
  ltrace v trips nest (guard_node st) = if evalc v (sguard st) then [(sid st, nest)] else [].
Proof. unfold guard_node. destruct (sguard st); reflexivity. Qed.

(* both shapes of the wrapping: guard inside the loop nest (go = false) or around it (go = true) *)
Lemma ltrace_wrap_g v trips go st :
  ltrace v trips [] (wrap_g go st) = if evalc v (sguard st) then stmt_trace trips st else [].
Proof.
  unfold wrap_g, stmt_trace. destruct go.
  - assert (H : ltrace v trips [] (fold_right For (Leaf (sid st)) (sloops st)) =
                nest_rep trips (sloops st) [(sid st, sloops st)]).
    { rewrite ltrace_loops. reflexivity. }
    destruct (sguard st); cbn [ltrace evalc]; rewrite ?H; reflexivity.
  - rewrite ltrace_loops, ltrace_guard_node. cbn [app].
    destruct (evalc v (sguard st)); [reflexivity|apply nest_rep_nil].
Qed.

Lemma ltrace_wrap v trips st :
  ltrace v trips [] (wrap st) = if evalc v (sguard st) then stmt_trace trips st else [].
Proof. apply ltrace_wrap_g. Qed.

(* what the main loop appends for one statement *)
Definition emit1 (skip_false : bool) (st : stmt) : list ast :=
  if snop st then [] else if skip_false && is_cfalse (sguard st) then [] else [wrap st].

Lemma emit1_ltrace v trips skip st :
  flat_map (ltrace v trips []) (emit1 skip st) = if runs v st then stmt_trace trips st else [].
Proof.
  unfold emit1, runs. destruct (snop st); [reflexivity|]. cbn [negb andb].
  destruct (skip && is_cfalse (sguard st)) eqn:E.
  - apply andb_prop in E. destruct E as [_ E]. destruct (sguard st); try discriminate. reflexivity.
  - cbn [flat_map]. rewrite app_nil_r. apply ltrace_wrap.
Qed.

Lemma main_block_ok skip stmts : forall order,
  (forall x, In x order -> lookup stmts x <> None) ->
  exists sts, Forall2 (fun i st => lookup stmts i = Some st) order sts /\
              main_block skip stmts order = LOk (flat_map (emit1 skip) sts).
Proof.
  induction order as [|i r IH]; intros H.
  - exists []. split; [constructor|reflexivity].
  - destruct IH as (sts & HF & HM); [intros x Hx; apply H; now right|].
    destruct (lookup stmts i) as [st|] eqn:El; [|exfalso; apply (H i); [now left|assumption]].
    exists (st :: sts). split; [constructor; assumption|].
    cbn [main_block]. rewrite El, HM. cbn [lbind flat_map]. unfold emit1.
    destruct (snop st); [reflexivity|]. destruct (skip && is_cfalse (sguard st)); reflexivity.
Qed.

Lemma block_ltrace v trips skip sts :
  ltrace v trips [] (Block (flat_map (emit1 skip) sts)) =
  flat_map (stmt_trace trips) (filter (runs v) sts).
Proof.
  cbn [ltrace]. induction sts as [|st r IH]; [reflexivity|].
  cbn [flat_map filter]. rewrite flat_map_app, IH, emit1_ltrace.
  destruct (runs v st); reflexivity.
Qed.

Lemma Forall2_lookup_ids stmts order sts :
  Forall2 (fun i st => lookup stmts i = Some st) order sts ->
  map sid sts = order /\ incl sts stmts.
Proof.
  induction 1 as [|i st order sts Hl _ [IH1 IH2]]; [split; [reflexivity|intros x []]|].
  apply lookup_some in Hl. destruct Hl as [Hin Hs]. split.
  - cbn. now rewrite Hs, IH1.
  - intros x [<-|Hx]; auto.
Qed.

Lemma lower_of_parts r g skip stmts order ws t :
  topo_order stmts = LOk order -> main_block skip stmts order = LOk ws ->
  simplify r g (Block ws) = Ok t -> lower r g skip stmts = LOk t.
Proof. intros Eo HM Ht. unfold lower. rewrite Eo. cbn [lbind]. rewrite HM. cbn [lbind]. now rewrite Ht. Qed.

Theorem lower_spec skip stmts : phase_wf stmts ->
  exists order sts t,
    topo_order stmts = LOk order /\ map sid sts = order /\
    Permutation sts stmts /\ respects_deps sts /\
    lower false true skip stmts = LOk t /\
    forall v trips, ltrace v trips [] t = flat_map (stmt_trace trips) (filter (runs v) sts).
Proof.
  intros WF. destruct (topo_order_spec stmts WF) as (order & Eo & Hpost & Hperm).
  destruct WF as [ND Hc Hacyc].
  destruct (main_block_ok skip stmts order (topo_order_dom _ _ Eo)) as (sts & HF & HM).
  destruct (Forall2_lookup_ids _ _ _ HF) as [Hids Hincl].
  destruct (simplify_total false (Block (flat_map (emit1 skip) sts))) as [t Ht].
  exists order, sts, t. split; [assumption|]. split; [assumption|].
  assert (NDs : NoDup stmts) by (eapply NoDup_map_inv; eassumption).
  split; [|split; [|split]].
  - apply NoDup_Permutation_bis.
    + apply (NoDup_map_inv sid). rewrite Hids. eapply post_NoDup; eassumption.
    + rewrite <- (map_length sid stmts), <- (Permutation_length Hperm), <- Hids, map_length. lia.
    + assumption.
  - intros l1 st l2 E d Hd.
    assert (Eo' : order = map sid l1 ++ sid st :: map sid l2).
    { rewrite <- Hids, E, map_app. reflexivity. }
    eapply (post_before stmts order Hpost); [exact Eo'|].
    exists st. split; [|assumption].
    apply lookup_nodup; [assumption|]. apply Hincl. rewrite E, in_app_iff. right. now left.
  - exact (lower_of_parts _ _ _ _ _ _ _ Eo HM Ht).
  - intros v trips. rewrite (simplify_ltrace v trips true _ [] _ Ht). apply block_ltrace.
Qed.

Lemma topo_ext s1 s2 : (forall i, lookup s1 i = lookup s2 i) ->
  forall fuel stack visiting visited order,
  topo s1 fuel stack visiting visited order = topo s2 fuel stack visiting visited order.
Proof.
  intros H. induction fuel as [|f IH]; intros stack visiting visited order; cbn [topo]; [reflexivity|].
  destruct stack as [|s rest]; [reflexivity|].
  destruct (mem s visited); [destruct (mem s visiting); apply IH|].
  rewrite H. destruct (lookup s2 s); [apply IH|reflexivity].
Qed.

Lemma main_block_ext skip s1 s2 : (forall i, lookup s1 i = lookup s2 i) ->
  forall order, main_block skip s1 order = main_block skip s2 order.
Proof.
  intros H. induction order as [|i r IH]; cbn [main_block]; [reflexivity|].
  rewrite H, IH. reflexivity.
Qed.

Lemma all_deps_perm s1 s2 : Permutation s1 s2 -> forall d, In d (all_deps s1) <-> In d (all_deps s2).
Proof.
  intros P d. rewrite !all_deps_In. split; intros (st & Hst & Hd); exists st; split; try assumption.
  - eapply Permutation_in; eassumption.
  - eapply Permutation_in; [apply Permutation_sym; eassumption|assumption].
Qed.

Lemma roots_perm s1 s2 : Permutation s1 s2 -> roots s1 = roots s2.
Proof.
  intros P. unfold roots, mem. apply sorted_set_ext. intros x.
  rewrite !filter_In, !negb_true_iff, !existsb_nat_nIn, (all_deps_perm s1 s2 P x).
  assert (Hm : In x (map sid s1) <-> In x (map sid s2)).
  { split; apply Permutation_in; [|apply Permutation_sym]; apply Permutation_map; assumption. }
  tauto.
Qed.

Lemma deps_sum_perm s1 s2 : Permutation s1 s2 ->
  fold_right (fun st n => S (length (sdeps st)) + n) 0 s1 =
  fold_right (fun st n => S (length (sdeps st)) + n) 0 s2.
Proof. induction 1; cbn [fold_right] in *; lia. Qed.

Theorem lower_perm r g skip s1 s2 : Permutation s1 s2 -> NoDup (map sid s1) ->
  topo_order s1 = topo_order s2 /\ lower r g skip s1 = lower r g skip s2.
Proof.
  intros P ND. pose proof (lookup_perm s1 s2 P ND) as HL.
  assert (E : topo_order s1 = topo_order s2).
  { unfold topo_order, topo_fuel. rewrite (roots_perm s1 s2 P), (deps_sum_perm s1 s2 P).
    apply topo_ext. assumption. }
  split; [assumption|]. unfold lower. rewrite E.
  destruct (topo_order s2) as [order| | |]; cbn [lbind]; try reflexivity.
  rewrite (main_block_ext skip s1 s2 HL). reflexivity.
Qed.

(* Walker totality.  `walk` fails only on a Null node, so the lowered tree has to be `nullfree`.
   The post pass removes every Null except one it leaves as a loop or IfThen body; `good` says that
   no body is left so (post_nullfree).  Each wrapped statement comes out of the pre and main passes
   `good` (wrap_g_good), and the block merge of the main pass keeps that (qloop_good,
   simp_block_keeps_good). *)
Fixpoint nullfree (t : ast) : bool :=
  match t with
  | Leaf _ => true
  | Null => false
  | Block l => forallb nullfree l
  | IfT _ t => nullfree t
  | IfTE _ t e => nullfree t && nullfree e
  | For _ b => nullfree b
  end.

Lemma wapp_ok a b x y : a = WOk x -> b = WOk y -> wapp a b = WOk (x ++ y).
Proof. intros -> ->. reflexivity. Qed.

Lemma walk_nullfree : forall t, nullfree t = true -> exists evs, walk t = WOk evs.
Proof.
  induction t as [n| |l IH|c t IHt|c t e IHt IHe|x b IHb] using ast_ind'; cbn [nullfree walk]; intros H.
  - eauto.
  - discriminate.
  - induction IH as [|a l Ha _ IHl]; [cbn; eauto|].
    cbn [forallb] in H. apply andb_prop in H. destruct H as [H1 H2].
    destruct (Ha H1) as [e1 E1]. destruct (IHl H2) as [e2 E2].
    cbn [fold_right]. rewrite E1, E2. cbn. eauto.
  - destruct (IHt H) as [e1 ->]. cbn. eauto.
  - apply andb_prop in H. destruct H as [H1 H2].
    destruct (IHt H1) as [e1 ->]. destruct (IHe H2) as [e2 ->]. cbn. eauto.
  - destruct (IHb H) as [e1 ->]. cbn. eauto.
Qed.

Fixpoint good (t : ast) : bool :=
  match t with
  | Leaf _ | Null => true
  | Block l => forallb good l
  | IfT _ t => good t && negb (is_null (post t))
  | IfTE _ t e => good t && good e
  | For _ b => good b && negb (is_null (post b))
  end.

Lemma post_nullfree : forall t, good t = true -> is_null (post t) = true \/ nullfree (post t) = true.
Proof.
  induction t as [n| |l IH|c t IHt|c t e IHt IHe|x b IHb] using ast_ind'; cbn [good post]; intros H.
  - now right.
  - now left.
  - assert (HF : forallb nullfree (filter (fun x => negb (is_null x)) (map post l)) = true).
    { induction IH as [|a l Ha _ IHl]; [reflexivity|].
      cbn [forallb] in H. apply andb_prop in H. destruct H as [H1 H2].
      cbn [map filter]. destruct (Ha H1) as [Hn|Hn].
      - rewrite Hn. cbn [negb]. apply IHl. assumption.
      - destruct (is_null (post a)); cbn [negb]; [apply IHl; assumption|].
        cbn [forallb]. rewrite Hn. apply IHl. assumption. }
    destruct (filter _ (map post l)) as [|a [|b r]].
    + now left.
    + right. cbn [forallb] in HF. now rewrite andb_true_r in HF.
    + right. exact HF.
  - apply andb_prop in H. destruct H as [H1 H2]. right. cbn [nullfree].
    destruct (IHt H1) as [Hn|Hn]; [rewrite Hn in H2; discriminate|assumption].
  - apply andb_prop in H. destruct H as [H1 H2]. specialize (IHt H1). specialize (IHe H2).
    destruct (is_null (post t)), (is_null (post e)); [now left|right; cbn [nullfree]..].
    + destruct IHe; [discriminate|assumption].
    + destruct IHt; [discriminate|assumption].
    + destruct IHt as [ | -> ], IHe as [ | -> ]; try discriminate. reflexivity.
  - apply andb_prop in H. destruct H as [H1 H2]. right. cbn [nullfree].
    destruct (IHb H1) as [Hn|Hn]; [rewrite Hn in H2; discriminate|assumption].
Qed.

Lemma post_top_nullfree t : good t = true -> nullfree (post_top t) = true.
Proof.
  intros H. unfold post_top. destruct (post_nullfree t H) as [Hn|Hn].
  - destruct (post t); try discriminate. reflexivity.
  - destruct (post t); try discriminate; assumption.
Qed.

Lemma good_flat_block nodes : forallb good nodes = true -> good (flat_block nodes) = true.
Proof.
  unfold flat_block. cbn [good]. induction nodes as [|n ns IH]; intros H; [reflexivity|].
  cbn [forallb] in H. apply andb_prop in H. destruct H as [H1 H2].
  cbn [flat_map]. rewrite forallb_app, (IH H2), andb_true_r.
  destruct n; cbn [forallb]; rewrite ?andb_true_r; try reflexivity; assumption.
Qed.

Lemma forallb_rev {A} (f : A -> bool) l : forallb f (rev l) = forallb f l.
Proof.
  induction l as [|a l IH]; [reflexivity|]. cbn [rev forallb].
  rewrite forallb_app, IH. cbn. rewrite andb_true_r. apply andb_comm.
Qed.

Lemma qturn_good r cur q acc cur' q' acc' :
  qturn r cur q acc cur' q' acc' ->
  forallb good q = true -> good cur = true -> forallb good acc = true ->
  forallb good q' = true /\ good cur' = true /\ forallb good acc' = true.
Proof.
  destruct 1; cbn [forallb]; intros Hq Hc Ha; apply andb_prop in Hq as [Hn Hq]; repeat split;
    try assumption.
  - rewrite forallb_app, Hq, andb_true_r. cbn [good] in Hn.
    destruct r; [rewrite forallb_rev|]; assumption.
  - cbn [good] in Hn, Hc |- *. apply andb_prop in Hn as [Hn1 Hn2], Hc as [Hc1 Hc2].
    rewrite !good_flat_block; [reflexivity|..]; cbn [forallb]; rewrite ?Hn1, ?Hn2, ?Hc1, ?Hc2; reflexivity.
  - rewrite forallb_app, Ha. cbn. now rewrite Hc.
Qed.

Lemma qloop_good r : forall fuel cur q acc l,
  forallb good q = true -> good cur = true -> forallb good acc = true ->
  qloop r fuel cur q acc = Some l -> forallb good l = true.
Proof.
  induction fuel as [|f IH]; intros cur q acc l Hq Hc Ha H; [discriminate|].
  destruct q as [|nx q].
  - injection H as <-. rewrite forallb_app, Ha. cbn. now rewrite Hc.
  - destruct (qloop_turn r f cur nx q acc) as (cur' & q' & acc' & T & E). rewrite E in H.
    destruct (qturn_good _ _ _ _ _ _ _ T Hq Hc Ha) as (Hq' & Hc' & Ha'). eauto.
Qed.

Lemma pop_nonnull_good q cur q' : forallb good q = true -> pop_nonnull q = Some (cur, q') ->
  good cur = true /\ forallb good q' = true.
Proof.
  induction q as [|x q IH]; intros H E; [discriminate|].
  cbn [forallb] in H. apply andb_prop in H. destruct H as [H1 H2].
  cbn [pop_nonnull] in E. destruct x; try (injection E as <- <-; split; assumption).
  apply IH; assumption.
Qed.

(* the original children matter only when the queue is empty, that is, when there are none *)
Lemma simp_block_keeps_good r g orig q t :
  (q = [] -> forallb good orig = true) -> forallb good q = true ->
  simp_block r g orig q = Ok t -> good t = true.
Proof.
  intros Ho Hq H. unfold simp_block in H. destruct q as [|x q0].
  - injection H as <-. exact (Ho eq_refl).
  - destruct (pop_nonnull (x :: q0)) as [[cur q']|] eqn:Ep.
    + destruct (pop_nonnull_good _ _ _ Hq Ep) as [Hc Hq'].
      destruct (qloop r (S (size_list q')) cur q' []) as [l|] eqn:El; [|discriminate].
      pose proof (qloop_good r _ cur q' [] l Hq' Hc eq_refl El) as Hl.
      destruct l as [|a [|b l]]; injection H as <-; try exact Hl.
      cbn [forallb] in Hl. now rewrite andb_true_r in Hl.
    + destruct g; [injection H as <-; reflexivity|discriminate].
Qed.

Lemma simp_block_good r g orig q t :
  forallb good orig = true -> forallb good q = true ->
  simp_block r g orig q = Ok t -> good t = true.
Proof. intros Ho. apply simp_block_keeps_good. intros _. exact Ho. Qed.

(* what the main pass makes of guard_node st, the statement under its guard without its loops *)
Definition core' (st : stmt) : ast :=
  match sguard st with
  | CTrue => Leaf (sid st)
  | CFalse => Null
  | c => simp_ite c (Leaf (sid st)) Null
  end.

Lemma pre_loops core loops : pre (fold_right For core loops) = fold_right For (pre core) loops.
Proof. induction loops as [|x l IH]; cbn [fold_right pre]; [reflexivity|now rewrite IH]. Qed.

Lemma simp_loops r g core t loops : simp r g core = Ok t ->
  simp r g (fold_right For core loops) = Ok (fold_right For t loops).
Proof. intros H. induction loops as [|x l IH]; cbn [fold_right simp]; [exact H|now rewrite IH]. Qed.

Lemma good_loops core loops :
  good core = true -> is_null (post core) = false -> good (fold_right For core loops) = true.
Proof.
  intros Hg Hn.
  enough (H : good (fold_right For core loops) = true /\
              is_null (post (fold_right For core loops)) = false) by apply H.
  induction loops as [|y l [IH1 IH2]]; [split; assumption|].
  cbn [fold_right good post is_null]. now rewrite IH1, IH2.
Qed.

Lemma pre_guard_node st : pre (guard_node st) = guard_node st.
Proof. unfold guard_node. destruct (sguard st); reflexivity. Qed.

Lemma simp_guard_node r g st : simp r g (guard_node st) = Ok (core' st).
Proof. unfold guard_node, core'. destruct (sguard st); reflexivity. Qed.

Lemma pre_wrap_in st : pre (wrap_g false st) = wrap_g false st.
Proof. unfold wrap_g. now rewrite pre_loops, pre_guard_node. Qed.

Lemma simp_wrap_in r g st : simp r g (wrap_g false st) = Ok (fold_right For (core' st) (sloops st)).
Proof. apply simp_loops, simp_guard_node. Qed.

Definition not_ite (t : ast) : bool := match t with IfTE _ _ _ => false | _ => true end.

Lemma nest_not_ite n loops : not_ite (fold_right For (Leaf n) loops) = true.
Proof. destruct loops; reflexivity. Qed.

Lemma strip_not_swap c : forall t e c' t2 e2, strip_not c t e = (c', t2, e2) ->
  (t2 = t /\ e2 = e) \/ (t2 = e /\ e2 = t).
Proof.
  induction c as [| |c IH|n]; intros t e c' t2 e2 H; cbn [strip_not] in H;
    try (injection H as <- <- <-; now left).
  destruct (IH _ _ _ _ _ H) as [[-> ->]|[-> ->]]; auto.
Qed.

Lemma core'_good st : good (core' st) = true /\ (sguard st <> CFalse -> is_null (post (core' st)) = false).
Proof.
  unfold core'. destruct (sguard st) as [| |c|n] eqn:Eg.
  - split; reflexivity.
  - split; [reflexivity|congruence].
  - unfold simp_ite. destruct (strip_not (CNot c) (Leaf (sid st)) Null) as [[c' t2] e2] eqn:E.
    destruct (strip_not_swap _ _ _ _ _ _ E) as [[-> ->]|[-> ->]]; split; reflexivity.
  - split; reflexivity.
Qed.

Lemma simp_ite_null_good c t : not_ite t = true -> good t = true -> good (simp_ite c t Null) = true.
Proof.
  intros Hn Hg. unfold simp_ite. destruct (strip_not c t Null) as [[c' t2] e2] eqn:E.
  destruct (strip_not_swap _ _ _ _ _ _ E) as [[-> ->]|[-> ->]];
    destruct t; try discriminate; cbn [good andb] in Hg |- *; rewrite ?Hg, ?andb_true_r; reflexivity.
Qed.

(* With the guard around the loops a looped statement guarded by the constant False vanishes as a
   whole, so nothing is needed. *)
Lemma wrap_g_good r g go st : go = true \/ no_false_loop st ->
  pre (wrap_g go st) = wrap_g go st /\
  exists w', simp r g (wrap_g go st) = Ok w' /\ good w' = true.
Proof.
  intros Hs. destruct go.
  - clear Hs. unfold wrap_g.
    pose proof (pre_loops (Leaf (sid st)) (sloops st)) as Hp. cbn [pre] in Hp.
    pose proof (simp_loops r g _ _ (sloops st) (eq_refl : simp r g (Leaf (sid st)) = Ok _)) as Hsn.
    assert (Hg : good (fold_right For (Leaf (sid st)) (sloops st)) = true)
      by (apply good_loops; reflexivity).
    pose proof (nest_not_ite (sid st) (sloops st)) as Hn.
    destruct (sguard st) as [| |c|n]; cbn [pre simp]; rewrite ?Hp, ?Hsn; cbn [rbind];
      (split; [reflexivity|]); eexists; (split; [reflexivity|]).
    + exact Hg.
    + reflexivity.
    + now apply simp_ite_null_good.
    + now apply simp_ite_null_good.
  - split; [apply pre_wrap_in|].
    exists (fold_right For (core' st) (sloops st)). split; [apply simp_wrap_in|].
    destruct (core'_good st) as [Hg Hn].
    destruct (sloops st) as [|x l] eqn:El; [exact Hg|]. rewrite <- El.
    apply good_loops; [assumption|]. apply Hn.
    destruct Hs as [Hs|Hs]; [discriminate|]. apply Hs. rewrite El. discriminate.
Qed.

Lemma simp_emit1_good r g skip st :
  (skip = true \/ lower_guard_outside = true \/ no_false_loop st) ->
  forall w, In w (emit1 skip st) ->
  pre w = w /\ exists w', simp r g w = Ok w' /\ good w' = true.
Proof.
  intros Hs w Hw. unfold emit1 in Hw. destruct (snop st); [destruct Hw|].
  destruct (skip && is_cfalse (sguard st)) eqn:E; [destruct Hw|].
  destruct Hw as [<-|[]]. unfold wrap. apply wrap_g_good.
  destruct Hs as [->|[Hs|Hs]]; [|now left|now right].
  right. intros _ Ec. cbn [andb] in E. rewrite Ec in E. discriminate.
Qed.

Lemma simp_block_children r g ws :
  (forall w, In w ws -> pre w = w /\ exists w', simp r g w = Ok w' /\ good w' = true) ->
  map pre ws = ws /\
  exists q, simp_list r g ws = Ok q /\ forallb good q = true.
Proof.
  induction ws as [|w ws IH]; intros H.
  - split; [reflexivity|]. exists []. split; reflexivity.
  - destruct IH as (Hp & q & Hq & Hg); [intros x Hx; apply H; now right|].
    destruct (H w (or_introl eq_refl)) as (Hpw & w' & Hw' & Hgw).
    split; [cbn [map]; now rewrite Hpw, Hp|].
    exists (w' :: q). split; [cbn [simp_list]; fold (simp_list r g ws); rewrite Hw', Hq; reflexivity|].
    cbn [forallb]. now rewrite Hgw, Hg.
Qed.

(* no KeyError, no IndexError, no OutOfFuel: only the dependencies have to stay inside the phase *)
Theorem lower_total r skip stmts : closed stmts -> exists t, lower r true skip stmts = LOk t.
Proof.
  intros Hc. destruct (topo_order_total stmts Hc) as [order Eo].
  destruct (main_block_ok skip stmts order (topo_order_dom _ _ Eo)) as (sts & _ & HM).
  destruct (simplify_total r (Block (flat_map (emit1 skip) sts))) as [t Ht].
  exists t. exact (lower_of_parts _ _ _ _ _ _ _ Eo HM Ht).
Qed.

Lemma simplify_walk r ws :
  (forall w, In w ws -> pre w = w /\ exists w', simp r true w = Ok w' /\ good w' = true) ->
  exists t evs, simplify r true (Block ws) = Ok t /\ walk t = WOk evs.
Proof.
  intros Hws. destruct (simp_block_children r true ws Hws) as (Hpre & q & Hq & Hgq).
  destruct (simp_block_total r ws q) as [t1 Ht1].
  assert (Hg1 : good t1 = true).
  { apply (simp_block_keeps_good r true ws q); [|assumption..].
    intros ->. apply simp_list_Ok in Hq. inversion Hq. reflexivity. }
  destruct (walk_nullfree (post_top t1) (post_top_nullfree t1 Hg1)) as [evs Hevs].
  exists (post_top t1), evs. split; [|assumption].
  unfold simplify. cbn [pre]. rewrite Hpre, simp_Block, Hq. cbn [rbind]. now rewrite Ht1.
Qed.

Theorem lower_walk_total r skip stmts : closed stmts ->
  (skip = true \/ lower_guard_outside = true \/ forall st, In st stmts -> no_false_loop st) ->
  exists t evs, lower r true skip stmts = LOk t /\ walk t = WOk evs.
Proof.
  intros Hc Hs.
  destruct (topo_order_total stmts Hc) as [order Eo].
  destruct (main_block_ok skip stmts order (topo_order_dom _ _ Eo)) as (sts & HF & HM).
  destruct (Forall2_lookup_ids _ _ _ HF) as [_ Hincl].
  destruct (simplify_walk r (flat_map (emit1 skip) sts)) as (t & evs & Ht & Hevs).
  { intros w Hw. apply in_flat_map in Hw. destruct Hw as (st & Hst & Hw).
    eapply simp_emit1_good; [|exact Hw].
    destruct Hs as [->|[Hs|Hs]]; [now left|now right; left|right; right; apply Hs, Hincl, Hst]. }
  exists t, evs. split; [exact (lower_of_parts _ _ _ _ _ _ _ Eo HM Ht)|assumption].
Qed.

(* Refutation for the main loop without the `condition is False: continue` test (skip_false = false).
   Assign(id="a", loops=[(i,0,3)], condition=False): well-formed, lowered to
   ForLoop(i, 0, 3, NullASTNode()), on which lower_node raises ValueError. *)
Definition wit_false_loop : list stmt := [mkStmt 0 [] CFalse [0] false].

Lemma wit_false_loop_wf : phase_wf wit_false_loop.
Proof.
  constructor.
  - repeat constructor. intros [].
  - intros st d [<-|[]] [].
  - refine (Dfs.acyclic_of_rank (edge wit_false_loop) (fun _ => 0) _). intros a b (st & Hl & Hb).
    apply lookup_some in Hl. destruct Hl as [[<-|[]] _]. destruct Hb.
Qed.

(* (only with the guard inside the loops; with the guard around them the statement vanishes) *)
Lemma lower_walk_refuted r g : lower_guard_outside = false ->
  phase_wf wit_false_loop /\
  lower r g false wit_false_loop = LOk (For 0 Null) /\ walk (For 0 Null) = WValueError.
Proof.
  intros H. split; [exact wit_false_loop_wf|]. split; [|reflexivity].
  unfold lower. change (topo_order wit_false_loop) with (LOk (A:=list nat) [0]).
  cbn -[wrap simplify]. unfold wrap. rewrite H. destruct r, g; reflexivity.
Qed.

Example wit_false_loop_guard_outside r :
  lower_guard_outside = true -> lower r true false wit_false_loop = LOk (Block []).
Proof.
  intros H. unfold lower. change (topo_order wit_false_loop) with (LOk (A:=list nat) [0]).
  cbn -[wrap simplify]. unfold wrap. rewrite H. destruct r; reflexivity.
Qed.

Example wit_false_loop_repaired r g : lower r g true wit_false_loop = LOk (Block []).
Proof. destruct r, g; reflexivity. Qed.

Example wrap_g_shapes :
  let st := mkStmt 3 [1; 0] (CAtom 0) [0; 1] false in
  wrap_g false st = For 0 (For 1 (IfTE (CAtom 0) (Leaf 3) Null)) /\
  wrap_g true st = IfTE (CAtom 0) (For 0 (For 1 (Leaf 3))) Null /\
  wrap_g true (mkStmt 0 [4] CTrue [2] false) = For 2 (Leaf 0).
Proof. repeat split. Qed.

(* non-vacuity: a phase with a diamond, a Nop in the middle of a chain, loop nests, guards (flag,
   negated flag, False) and ids that are not in dependency order *)
Definition ex_phase : list stmt :=
  [ mkStmt 3 [1; 0] (CAtom 0) [0; 1] false;
    mkStmt 1 [4] (CAtom 1) [] true;
    mkStmt 4 [] (CNot (CAtom 0)) [] false;
    mkStmt 0 [4] CTrue [2] false;
    mkStmt 2 [3] CFalse [] false ].

Example ex_phase_wf : phase_wf ex_phase.
Proof.
  constructor.
  - cbn. repeat (constructor; [cbn; intuition congruence|]). constructor.
  - intros st d Hst Hd. cbn in Hst.
    repeat (destruct Hst as [<-|Hst]; [cbn in Hd |- *; intuition auto|]). destruct Hst.
  - refine (Dfs.acyclic_of_rank (edge ex_phase) (fun i => match i with 4 => 0 | 1 => 1 | 0 => 1 | 3 => 2 | _ => 3 end) _).
    intros a b (st & Hl & Hb).
    do 5 (destruct a as [|a];
          [cbn in Hl; injection Hl as <-; cbn in Hb;
           repeat (destruct Hb as [<-|Hb]; [cbn; lia|]); destruct Hb|]).
    cbn in Hl. discriminate.
Qed.

Example ex_phase_no_false_loop : forall st, In st ex_phase -> no_false_loop st.
Proof.
  intros st Hst. cbn in Hst.
  repeat (destruct Hst as [<-|Hst]; [intros Hl; cbn in *; congruence|]). destruct Hst.
Qed.

Example ex_phase_lowers :
  topo_order ex_phase = LOk [4; 1; 0; 3; 2] /\
  lower false true false ex_phase =
    LOk (Block [IfT (CNot (CAtom 0)) (Leaf 4); For 2 (Leaf 0);
                if lower_guard_outside
                then IfT (CAtom 0) (For 0 (For 1 (Leaf 3)))
                else For 0 (For 1 (IfT (CAtom 0) (Leaf 3)))]) /\
  (forall t, lower false true false ex_phase = LOk t ->
     ltrace (fun n => Nat.eqb n 0) (fun x => S x) [] t =
       [(0, [2]); (0, [2]); (0, [2]); (3, [0; 1]); (3, [0; 1])] /\
     walk t = WOk ([EIfBegin (CNot (CAtom 0)); EInst 4; EIfEnd; EForBegin 2; EInst 0; EForEnd 2] ++
                   if lower_guard_outside
                   then [EIfBegin (CAtom 0); EForBegin 0; EForBegin 1; EInst 3;
                         EForEnd 1; EForEnd 0; EIfEnd]
                   else [EForBegin 0; EForBegin 1; EIfBegin (CAtom 0); EInst 3; EIfEnd;
                         EForEnd 1; EForEnd 0])).
Proof.
  split; [vm_compute; reflexivity|]. split; [vm_compute; reflexivity|].
  intros t H. vm_compute in H. injection H as <-. split; vm_compute; reflexivity.
Qed.

Example ex_phase_rev : lower false true false (rev ex_phase) = lower false true false ex_phase.
Proof. vm_compute. reflexivity. Qed.

(* observation (outside the property: C10 rejects cyclic phases): a dependency cycle is neither
   detected nor an error here; the computed order silently violates an edge *)
Definition ex_cyclic : list stmt :=
  [mkStmt 0 [1] CTrue [] false; mkStmt 1 [0] CTrue [] false; mkStmt 2 [0] CTrue [] false].
Example ex_cyclic_silent :
  topo_order ex_cyclic = LOk [0; 1; 2] /\ edge ex_cyclic 0 1 /\
  lower false true false ex_cyclic = LOk (Block [Leaf 0; Leaf 1; Leaf 2]).
Proof.
  split; [vm_compute; reflexivity|]. split; [|vm_compute; reflexivity].
  eexists. split; [vm_compute; reflexivity|]. now left.
Qed.

