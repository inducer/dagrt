(* C16: concrete witnesses.  Refutations of the property statements for the shapes of
   dagrt/transform.py in the unchanged tree (each switch off), and non-vacuity examples for the
   theorems of the repaired shape.  The hypotheses of the theorems are turned into boolean checks;
   what the model computes on a witness is computed once, in a lemma of its own, for every shape
   that is needed below. *)
From Coq Require Import List ZArith String Bool Arith Lia.
Import ListNotations.
From Dagrt Require Import Lang Sched LangProofs Builder Fuse FuseCheck FuseProofs FuseSemProofs.
From Dagrt Require ListFacts.
Local Open Scope list_scope.
Local Open Scope string_scope.

Lemma nodupb_ok l : nodupb l = true -> NoDup l.
Proof. exact (ListFacts.nodupb_by_NoDup String.eqb String.eqb_eq l). Qed.

Definition clash_enumb (ida idb order : list var) : bool :=
  nodupb order && forallb (fun x => mem x ida && mem x idb) order
  && forallb (fun x => negb (mem x idb) || mem x order) ida.
Lemma clash_enumb_ok ida idb order : clash_enumb ida idb order = true -> clash_enum ida idb order.
Proof.
  unfold clash_enumb. intros H. apply andb_prop in H as [H H3]. apply andb_prop in H as [H1 H2].
  rewrite forallb_forall in H2, H3.
  split; [now apply nodupb_ok|]. intros x. split.
  - intros Hx. specialize (H2 x Hx). apply andb_prop in H2 as [A B]. split; now apply mem_In.
  - intros [A B]. specialize (H3 x A). apply mem_In in B. rewrite B in H3. now apply mem_In.
Qed.

Definition loops_usedb (l : list fstmt) : bool :=
  forallb (fun st => forallb (fun x => mem x (freads true true st ++ fwrites st)) (loopvars (fkd st))) l.
Lemma loops_usedb_ok l : loops_usedb l = true -> loops_used l.
Proof.
  unfold loops_usedb, loops_used. rewrite forallb_forall. intros H st Hs x Hx.
  specialize (H st Hs). rewrite forallb_forall in H. apply mem_In. now apply H.
Qed.

Definition wlb (l : list fstmt) (x : var) : bool :=
  existsb (fun st => mem x (fwrites st ++ loopvars (fkd st))) l.
Lemma wlb_ok l x : wl l x -> wlb l x = true.
Proof.
  intros (st & Hs & H). unfold wlb. apply existsb_exists. exists st. split; [exact Hs|].
  apply mem_In. exact H.
Qed.

Definition nswb (w : var -> bool) (a b : list fstmt) : bool :=
  forallb (fun x => negb (mem x (idents true true b)) || w x || (negb (wlb a x) && negb (wlb b x)))
          (idents true true a).
Lemma nswb_ok w a b : nswb w a b = true ->
  forall x, In x (idents true true a) -> In x (idents true true b) -> w x = false -> ~ wl a x /\ ~ wl b x.
Proof.
  unfold nswb. rewrite forallb_forall. intros H x Ha Hb Hw. specialize (H x Ha).
  apply mem_In in Hb. rewrite Hb, Hw in H. cbn in H. apply andb_prop in H as [H1 H2].
  split; intros Hwl; apply wlb_ok in Hwl; rewrite Hwl in *; discriminate.
Qed.

Definition nofunsb (b : list fstmt) : bool :=
  forallb (fun st => match stmt_funsyms st with [] => true | _ => false end) b.
Lemma nofunsb_ok b (P : fstmt -> string -> Prop) : nofunsb b = true ->
  forall st f, In st b -> In f (stmt_funsyms st) -> P st f.
Proof.
  unfold nofunsb. rewrite forallb_forall. intros H st f Hs Hf. specialize (H st Hs).
  destruct (stmt_funsyms st); [destruct Hf|discriminate].
Qed.

(* the hypotheses of run equivalence for two methods that call no function *)
Lemma run_hyps_check is_state p a b m sg :
  loops_usedb a = true -> loops_usedb b = true -> nofunsb b = true ->
  nswb (want is_state p) a b = true ->
  (forall x, want is_state p x = true -> sg x = None) ->
  Forall (fun cn => sg (snd cn) = None) m ->
  run_hyps is_state p a b m sg.
Proof.
  intros La Lb Hf Hn Hs Hm. rewrite Forall_forall in Hm.
  constructor; [now apply loops_usedb_ok.. | now apply nofunsb_ok | now apply nswb_ok | exact Hs |].
  intros c n H. exact (Hm _ H).
Qed.

(* dagrt.utils.is_state_variable as it stands (coq/gen/GenLang.v has the same two lists) *)
Definition std_is_state : var -> bool :=
  is_state_of ["<t>"; "<dt>"] ["<state>"; "<p>"; "<ret_time_id>"; "<ret_time>"; "<ret_state>"].

Definition mk (id : string) (deps : list string) (c : expr) (k : skind) : fstmt :=
  {| fid := id; fdeps := deps; fcond := c; fkd := k |}.

(* DESIGN Appendix C: two single-phase methods sharing tmp, <state>y, <t> and a guard flag *)
Definition w1a : list fstmt :=
  [ mk "p_0" [] (EBool true) (KAssign "tmp" None (ENary NSum [EVar "<state>y"; EVar "<t>"]) []);
    mk "p_1" ["p_0"] (EBool true) (KAssign "<cond>" None (EBin (BCmp CLt) (EVar "tmp") (EInt 3)) []);
    mk "p_2" ["p_0"; "p_1"] (EVar "<cond>") (KAssign "<state>x" None (ENary NProd [EVar "tmp"; EInt 2]) []) ].
Definition w1b : list fstmt :=
  [ mk "p_0" [] (EBool true) (KAssign "tmp" None (ENary NProd [EVar "<state>y"; EVar "<t>"]) []);
    mk "p_1" ["p_0"] (EBool true) (KAssign "<cond>" None (EBin (BCmp CGt) (EVar "tmp") (EInt 3)) []);
    mk "p_2" ["p_0"; "p_1"] (EVar "<cond>") (KAssign "<state>z" None (ENary NProd [EVar "tmp"; EInt 5]) []) ].
Definition w1clash : list var := ["tmp"; "<cond>"; "<state>y"; "<t>"].
Definition w1store : store := upd (upd empty "<state>y" (VInt 1)) "<t>" (VInt 1).

(* loops: both methods use the loop variable i *)
Definition w3a : list fstmt :=
  [ mk "p_0" [] (EBool true) (KAssign "<state>x" None (EVar "i") [("i", EInt 0, EInt 2)]) ].
Definition w3b : list fstmt :=
  [ mk "p_0" [] (EBool true) (KAssign "<state>z" None (ENary NSum [EVar "i"; EInt 1]) [("i", EInt 0, EInt 2)]) ].
Definition w3clash : list var := ["i"].
Definition w3store : store := empty.

Definition F0 (f : string) (a : list val) (k : list (string * val)) : option (list val) := None.

(* What fuse_stmts makes of the first witness, by shape: without sw_pred every clash is renamed,
   <state>y and <t> included; without sw_guard the guard of the last statement keeps its name.
   The loop switch plays no part: the witness has no loops. *)
Definition w1sub (pr : bool) : smap :=
  ([("tmp", "tmp_0"); ("<cond>", "<cond>_0")] ++
   (if pr then [] else [("<state>y", "<state>y_0"); ("<t>", "<t>_0")]))%list.
Definition w1out (pr gd : bool) : list fstmt :=
  w1a ++
  [ mk "p_3" [] (EBool true)
       (KAssign "tmp_0" None (ENary NProd [EVar (if pr then "<state>y" else "<state>y_0");
                                           EVar (if pr then "<t>" else "<t>_0")]) []);
    mk "p_4" ["p_3"] (EBool true) (KAssign "<cond>_0" None (EBin (BCmp CGt) (EVar "tmp_0") (EInt 3)) []);
    mk "p_5" ["p_3"; "p_4"] (EVar (if gd then "<cond>_0" else "<cond>"))
       (KAssign "<state>z" None (ENary NProd [EVar "tmp_0"; EInt 5]) []) ].
(* the second one: without sw_loopv the loop keeps setting i while the body reads i_0 *)
Definition w3out (lv : bool) : list fstmt :=
  w3a ++ [ mk "p_1" [] (EBool true)
              (KAssign "<state>z" None (ENary NSum [EVar "i_0"; EInt 1])
                       [(if lv then "i_0" else "i", EInt 0, EInt 2)]) ].

Lemma w1_clash : clash_enum (idents true true w1a) (idents true true w1b) w1clash.
Proof. apply clash_enumb_ok. vm_compute. reflexivity. Qed.
Lemma w3_clash : clash_enum (idents true true w3a) (idents true true w3b) w3clash.
Proof. apply clash_enumb_ok. vm_compute. reflexivity. Qed.

Lemma w1_subst pr : subst_of true true (eff_pred std_is_state pr None) w1clash w1a w1b = Some (w1sub pr).
Proof. destruct pr; vm_compute; reflexivity. Qed.
Lemma w1_fuse pr gd lv :
  fuse_stmts true true gd lv (eff_pred std_is_state pr None) w1clash w1a w1b = FOk (w1out pr gd).
Proof. unfold fuse_stmts. rewrite w1_subst. destruct pr, gd; vm_compute; reflexivity. Qed.

Lemma w3_subst : subst_of true true (eff_pred std_is_state true None) w3clash w3a w3b = Some [("i", "i_0")].
Proof. vm_compute. reflexivity. Qed.
Lemma w3_fuse lv :
  fuse_stmts true true true lv (eff_pred std_is_state true None) w3clash w3a w3b = FOk (w3out lv).
Proof. unfold fuse_stmts. rewrite w3_subst. destruct lv; vm_compute; reflexivity. Qed.

Lemma w1_store_kept x : want std_is_state None x = true -> w1store x = None.
Proof.
  intros H. unfold w1store, upd, empty.
  destruct (String.eqb_spec x "<t>") as [->|_]; [vm_compute in H; discriminate|].
  destruct (String.eqb_spec x "<state>y") as [->|_]; [vm_compute in H; discriminate|reflexivity].
Qed.

Lemma w1_hyps pr : run_hyps std_is_state None w1a w1b (w1sub pr) w1store.
Proof.
  apply run_hyps_check; [vm_compute; reflexivity.. | exact w1_store_kept | destruct pr; repeat constructor].
Qed.
Lemma w3_hyps : run_hyps std_is_state None w3a w3b [("i", "i_0")] w3store.
Proof. apply run_hyps_check; [vm_compute; reflexivity.. | reflexivity | repeat constructor]. Qed.

Lemma w1_alone :
  exists sA eA sB eB,
    run_list F0 false (map lower w1a) (RRun w1store []) = RRun sA eA /\
    run_list F0 false (map lower w1b) (RRun w1store []) = RRun sB eB /\ sB "<state>z" = None.
Proof.
  exists (upd (upd (upd w1store "tmp" (VInt 2)) "<cond>" (VBool true)) "<state>x" (VInt 4)), [],
         (upd (upd w1store "tmp" (VInt 1)) "<cond>" (VBool false)), [].
  split; [|split]; vm_compute; reflexivity.
Qed.
Lemma w3_alone :
  exists sA eA sB eB,
    run_list F0 true (map lower w3a) (RRun w3store []) = RRun sA eA /\
    run_list F0 true (map lower w3b) (RRun w3store []) = RRun sB eB.
Proof.
  exists (del (upd (upd (upd (upd empty "i" (VInt 0)) "<state>x" (VInt 0)) "i" (VInt 1)) "<state>x" (VInt 1)) "i"), [],
         (del (upd (upd (upd (upd empty "i" (VInt 0)) "<state>z" (VInt 1)) "i" (VInt 1)) "<state>z" (VInt 2)) "i"), [].
  split; vm_compute; reflexivity.
Qed.

(* sw_pred = false: the persistent variable <state>y (and the time <t>) are renamed *)
Lemma policy_refuted : ~ stmt_policy std_is_state false.
Proof.
  intros H. destruct (H None w1clash w1a w1b _ w1_clash (w1_subst false) "<state>y") as [H1 _].
  destruct H1 as [_ W]; [vm_compute; discriminate | vm_compute in W; discriminate].
Qed.

Lemma predicate_refuted : ~ stmt_policy std_is_state false.
Proof. exact policy_refuted. Qed.
(* the caller's predicate is ignored *)
Lemma predicate_ignored_refuted :
  exists m, subst_of true true (eff_pred std_is_state false (Some (fun _ => false))) w1clash w1a w1b = Some m /\
            sub m "tmp" = "tmp_0".
Proof. exists (w1sub false). split; [exact (w1_subst false) | reflexivity]. Qed.

(* sw_guard = false: the guard flag of the first method stays in the second method's statements *)
Lemma disjoint_refuted pr : ~ stmt_disjoint std_is_state pr false.
Proof.
  intros H. destruct (H None false w1clash w1a w1b _ w1_clash (w1_fuse pr false false)) as (b' & El & Hd).
  apply app_inv_head in El. subst b'.
  destruct (Hd "<cond>") as [_ W]; [apply mem_In; reflexivity | destruct pr; apply mem_In; reflexivity |].
  vm_compute in W. discriminate.
Qed.

(* sw_pred = false: the second method reads <state>y_0 / <t>_0, which do not exist: the fused step crashes *)
Lemma w1_crash gd : run_list F0 false (map lower (w1out false gd)) (RRun w1store []) = RCrash false [].
Proof. destruct gd; vm_compute; reflexivity. Qed.
Lemma run_equiv_refuted_pred gd lv : ~ stmt_run_equiv std_is_state false gd lv.
Proof.
  intros H. destruct w1_alone as (sA & eA & sB & eB & RA & RB & _).
  destruct (H F0 false None w1clash w1a w1b _ _ w1store sA eA sB eB
              w1_clash (w1_fuse false gd lv) (w1_subst false) (w1_hyps false) RA RB) as (sF & eF & RF & _).
  rewrite w1_crash in RF. discriminate.
Qed.

(* sw_guard = false: <state>z is assigned under the first method's flag *)
Lemma w1_noguard :
  exists sF eF, run_list F0 false (map lower (w1out true false)) (RRun w1store []) = RRun sF eF /\
                sF "<state>z" = Some (VInt 5).
Proof.
  exists (upd (upd (upd (upd (upd (upd w1store "tmp" (VInt 2)) "<cond>" (VBool true)) "<state>x" (VInt 4))
                        "tmp_0" (VInt 1)) "<cond>_0" (VBool false)) "<state>z" (VInt 5)), [].
  split; vm_compute; reflexivity.
Qed.
Lemma run_equiv_refuted_guard lv : ~ stmt_run_equiv std_is_state true false lv.
Proof.
  intros H. destruct w1_alone as (sA & eA & sB & eB & RA & RB & Bz).
  destruct w1_noguard as (sF0 & eF0 & Hr & Hz).
  destruct (H F0 false None w1clash w1a w1b _ _ w1store sA eA sB eB
              w1_clash (w1_fuse true false lv) (w1_subst true) (w1_hyps true) RA RB) as (sF & eF & RF & _ & K & _).
  rewrite Hr in RF. injection RF as <- <-.
  specialize (K "<state>z"). rewrite Hz, Bz in K. discriminate K; [apply mem_In; reflexivity | reflexivity].
Qed.

(* sw_loopv = false: the body reads i_0 while the loop sets i *)
Lemma w3_crash : run_list F0 true (map lower (w3out false)) (RRun w3store []) = RCrash false [].
Proof. vm_compute. reflexivity. Qed.
Lemma run_equiv_refuted_loop : ~ stmt_run_equiv std_is_state true true false.
Proof.
  intros H. destruct w3_alone as (sA & eA & sB & eB & RA & RB).
  destruct (H F0 true None w3clash w3a w3b _ _ w3store sA eA sB eB
              w3_clash (w3_fuse false) w3_subst w3_hyps RA RB) as (sF & eF & RF & _).
  rewrite w3_crash in RF. discriminate.
Qed.

Theorem run_equiv_refuted pr gd lv : pr && gd && lv = false -> ~ stmt_run_equiv std_is_state pr gd lv.
Proof.
  destruct pr; [|intros _; apply run_equiv_refuted_pred].
  destruct gd; [|intros _; apply run_equiv_refuted_guard].
  destruct lv; [discriminate|intros _; apply run_equiv_refuted_loop].
Qed.

(* "the two write disjoint persistent variables" alone is not enough: the second method reads what the first writes *)
Definition w4a : list fstmt := [ mk "p_0" [] (EBool true) (KAssign "<state>x" None (EInt 7) []) ].
Definition w4b : list fstmt := [ mk "p_0" [] (EBool true) (KAssign "<state>z" None (EVar "<state>x") []) ].
Lemma write_disjoint_not_enough :
  exists l sA eA sB eB sF eF,
    fuse_stmts true true true true (want std_is_state None) ["<state>x"] w4a w4b = FOk l /\
    (forall x, wl w4a x -> ~ wl w4b x) /\
    run_list F0 false (map lower w4a) (RRun (upd empty "<state>x" (VInt 1)) []) = RRun sA eA /\
    run_list F0 false (map lower w4b) (RRun (upd empty "<state>x" (VInt 1)) []) = RRun sB eB /\
    run_list F0 false (map lower l) (RRun (upd empty "<state>x" (VInt 1)) []) = RRun sF eF /\
    sB "<state>z" = Some (VInt 1) /\ sF "<state>z" = Some (VInt 7).
Proof.
  exists (w4a ++ [ mk "p_1" [] (EBool true) (KAssign "<state>z" None (EVar "<state>x") []) ])%list,
         (upd (upd empty "<state>x" (VInt 1)) "<state>x" (VInt 7)), [],
         (upd (upd empty "<state>x" (VInt 1)) "<state>z" (VInt 1)), [],
         (upd (upd (upd empty "<state>x" (VInt 1)) "<state>x" (VInt 7)) "<state>z" (VInt 7)), [].
  split; [vm_compute; reflexivity|]. split.
  - intros x (sa & [<-|[]] & Ha) (sb & [<-|[]] & Hb). cbv in Ha, Hb.
    destruct Ha as [<-|[]]. destruct Hb as [E|[]]. discriminate.
  - repeat split; vm_compute; reflexivity.
Qed.

Definition w1fused : list fstmt :=
  w1a ++
  [ mk "p_3" [] (EBool true) (KAssign "tmp_0" None (ENary NProd [EVar "<state>y"; EVar "<t>"]) []);
    mk "p_4" ["p_3"] (EBool true) (KAssign "<cond>_0" None (EBin (BCmp CGt) (EVar "tmp_0") (EInt 3)) []);
    mk "p_5" ["p_3"; "p_4"] (EVar "<cond>_0") (KAssign "<state>z" None (ENary NProd [EVar "tmp_0"; EInt 5]) []) ].

Example ex_fuse : fuse_stmts true true true true (eff_pred std_is_state true None) w1clash w1a w1b = FOk w1fused.
Proof. exact (w1_fuse true true true). Qed.

Example ex_subst :
  subst_of true true (eff_pred std_is_state true None) w1clash w1a w1b = Some [("tmp", "tmp_0"); ("<cond>", "<cond>_0")].
Proof. exact (w1_subst true). Qed.

Example ex_ids_unique : NoDup (map fid w1a) /\ NoDup (map fid w1b) /\ NoDup (map fid w1fused).
Proof. repeat split; apply nodupb_ok; reflexivity. Qed.

Example ex_run_hyps : run_hyps std_is_state None w1a w1b [("tmp", "tmp_0"); ("<cond>", "<cond>_0")] w1store.
Proof. exact (w1_hyps true). Qed.

(* the fused run, in program order and in an order that alternates the two methods, gives x = 4 from
   the first method and leaves z alone as the second does *)
Example ex_run :
  exists sF eF, run_list F0 false (map lower w1fused) (RRun w1store []) = RRun sF eF /\
                sF "<state>x" = Some (VInt 4) /\ sF "<state>z" = None /\ sF "tmp" = Some (VInt 2) /\
                sF "tmp_0" = Some (VInt 1).
Proof.
  exists (upd (upd (upd (upd (upd w1store "tmp" (VInt 2)) "<cond>" (VBool true)) "<state>x" (VInt 4))
                   "tmp_0" (VInt 1)) "<cond>_0" (VBool false)), [].
  split; [vm_compute; reflexivity|]. repeat split.
Qed.

Example ex_run_interleaved :
  exists sF eF, run_ids F0 false (map lower w1fused) [3; 0; 4; 1; 5; 2]%nat (RRun w1store []) = RRun sF eF /\
                sF "<state>x" = Some (VInt 4) /\ sF "<state>z" = None.
Proof.
  exists (upd (upd (upd (upd (upd w1store "tmp_0" (VInt 1)) "tmp" (VInt 2)) "<cond>_0" (VBool false))
                   "<cond>" (VBool true)) "<state>x" (VInt 4)), [].
  split; [vm_compute; reflexivity|]. repeat split.
Qed.

Example ex_loop_fuse :
  fuse_stmts true true true true (eff_pred std_is_state true None) w3clash w3a w3b =
  FOk (w3a ++ [ mk "p_1" [] (EBool true)
                   (KAssign "<state>z" None (ENary NSum [EVar "i_0"; EInt 1]) [("i_0", EInt 0, EInt 2)]) ])%list.
Proof. exact (w3_fuse true). Qed.

Definition w1d1 : fdag := {| d_phases := [("primary", {| ph_name := "primary"; ph_next := "primary"; ph_stmts := w1a |})];
                             d_init := "primary" |}.
Definition w1d2 : fdag := {| d_phases := [("primary", {| ph_name := "primary"; ph_next := "primary"; ph_stmts := w1b |})];
                             d_init := "primary" |}.
Example ex_dag :
  fuse_two_dags true true std_is_state true true true true None ["primary"] [("primary", w1clash)] w1d1 w1d2 =
  FOk {| d_phases := [("primary", {| ph_name := "primary"; ph_next := "primary"; ph_stmts := w1fused |})];
         d_init := "primary" |}.
Proof. vm_compute. reflexivity. Qed.
(* a caller's predicate that keeps every name: the second method is relabelled (new ids p_3 .. p_5,
   dependencies remapped) but not renamed: conditions and kinds are those of w1b *)
Example ex_dag_keep_all :
  fuse_two_dags true true std_is_state true true true true (Some (fun _ => false)) ["primary"] [("primary", w1clash)]
                w1d1 w1d2 =
  FOk {| d_phases := [("primary", {| ph_name := "primary"; ph_next := "primary";
                                     ph_stmts := w1a ++ [ mk "p_3" [] (fcond (nth 0 w1b (mk "" [] ENone KNop))) (fkd (nth 0 w1b (mk "" [] ENone KNop)));
                                                          mk "p_4" ["p_3"] (fcond (nth 1 w1b (mk "" [] ENone KNop))) (fkd (nth 1 w1b (mk "" [] ENone KNop)));
                                                          mk "p_5" ["p_3"; "p_4"] (fcond (nth 2 w1b (mk "" [] ENone KNop))) (fkd (nth 2 w1b (mk "" [] ENone KNop))) ] |})];
         d_init := "primary" |}.
Proof. vm_compute. reflexivity. Qed.
(* unchanged tree: the same call renames everything, <t> and <state>y included, and keeps the guard *)
Example ex_dag_unchanged :
  exists d, fuse_two_dags true true std_is_state false false false false (Some (fun _ => false)) ["primary"]
                          [("primary", w1clash)] w1d1 w1d2 = FOk d /\
            exists ph, pget "primary" (d_phases d) = Some ph /\
                       nth_error (ph_stmts ph) 3 =
                         Some (mk "p_3" [] (EBool true) (KAssign "tmp_0" None (ENary NProd [EVar "<state>y_0"; EVar "<t>_0"]) [])) /\
                       nth_error (ph_stmts ph) 5 =
                         Some (mk "p_5" ["p_3"; "p_4"] (EVar "<cond>") (KAssign "<state>z" None (ENary NProd [EVar "tmp_0"; EInt 5]) [])).
Proof.
  exists {| d_phases := [("primary", {| ph_name := "primary"; ph_next := "primary"; ph_stmts := w1out false false |})];
            d_init := "primary" |}.
  split; [vm_compute; reflexivity|]. eexists. repeat split.
Qed.
