(* pymbolic's flatten and substitution preserve values, so the
   soundness of match() can be stated for the template and target as given
   (before flattening).  flatten's "light-duty simplifications" 0/b -> 0,
   a/1 -> a, a**1 -> a are sound for every interpretation of quotient and power
   that satisfies exactly these three laws. *)
From Coq Require Import ZArith String List Bool Arith Permutation Lia.
Import ListNotations.
From Dagrt Require Import Match MatchACProofs MatchProofs.

Lemma is_int_eq z e : is_int z e = true -> e = EInt z.
Proof. destruct e; cbn [is_int]; try discriminate. intros H. apply Z.eqb_eq in H. now subst. Qed.

Section FlatSem.
  Variable Q P : Z -> Z -> Z.
  Hypothesis HQ0 : forall b, Q 0%Z b = 0%Z.
  Hypothesis HQ1 : forall a, Q a 1%Z = a.
  Hypothesis HP1 : forall a, P a 1%Z = a.

  (* eval interprets a call through canon of its function position, and flatten rewrites a compound one (f + 0 to
     f): hence the premise *)
  Lemma flatten_sem rho F e :
    call_fn_is_symbol e = true -> eval rho F Q P (flatten e) = eval rho F Q P e.
  Proof.
    revert e. apply symb_ind;
      [intros x|intros z|intros op cs IH|intros a b IHa IHb|intros a b IHa IHb|intros x args kw IHa IHk];
      cbn [flatten]; try reflexivity.
    - rewrite (AC1_sem rho F Q P _ _ (mk_ac_equiv op (map flatten cs))).
      cbn [eval]. f_equal. rewrite map_map. now apply map_ext_in, Forall_forall.
    - destruct (is_int 0 (flatten a)) eqn:E0.
      + apply is_int_eq in E0. rewrite E0 in IHa. cbn [eval] in *. rewrite <- IHa. now rewrite HQ0.
      + destruct (is_int 1 (flatten b)) eqn:E1.
        * apply is_int_eq in E1. rewrite E1 in IHb. cbn [eval] in *. rewrite <- IHb, HQ1. exact IHa.
        * cbn [eval]. now rewrite IHa, IHb.
    - destruct (is_int 1 (flatten b)) eqn:E1.
      + apply is_int_eq in E1. rewrite E1 in IHb. cbn [eval] in *. rewrite <- IHb, HP1. exact IHa.
      + cbn [eval]. now rewrite IHa, IHb.
    - cbn [flatten eval canon]. f_equal.
      + rewrite map_map. now apply map_ext_in, Forall_forall.
      + f_equal. change (kwmap (eval rho F Q P) (kwmap flatten kw) = kwmap (eval rho F Q P) kw).
        rewrite kwmap_kwmap. now apply kwmap_ext_in.
  Qed.

  (* substitution = change of valuation and of the interpretation of function symbols; the premise keeps the
     function position a symbol, where F_subst is read off directly *)
  Definition rho_subst rho F (s : string -> option expr) : string -> Z :=
    fun x => match s x with Some v => eval rho F Q P v | None => rho x end.
  Definition F_subst (F : expr -> list Z -> list (string * Z) -> Z) (s : string -> option expr) :=
    fun g => F (canon (subst s g)).

  Lemma subst_sem rho F s e :
    call_fn_is_symbol e = true ->
    eval rho F Q P (subst s e) = eval (rho_subst rho F s) (F_subst F s) Q P e.
  Proof.
    revert e. apply symb_ind;
      [intros x|intros z|intros op cs IH|intros a b IHa IHb|intros a b IHa IHb|intros x args kw IHa IHk];
      cbn [subst]; try reflexivity.
    - cbn [eval]. unfold rho_subst. destruct (s x); reflexivity.
    - cbn [eval]. f_equal. rewrite map_map. now apply map_ext_in, Forall_forall.
    - cbn [eval]. now rewrite IHa, IHb.
    - cbn [eval]. now rewrite IHa, IHb.
    - change (eval rho F Q P (ECall (subst s (EVar x)) (map (subst s) args) (kwmap (subst s) kw)) =
              eval (rho_subst rho F s) (F_subst F s) Q P (ECall (EVar x) args kw)).
      cbn [eval canon]. unfold F_subst at 1. f_equal.
      + rewrite map_map. now apply map_ext_in, Forall_forall.
      + f_equal.
        change (kwmap (eval rho F Q P) (kwmap (subst s) kw)
                = kwmap (eval (rho_subst rho F s) (F_subst F s) Q P) kw).
        rewrite kwmap_kwmap. now apply kwmap_ext_in.
  Qed.

  Theorem match_genuine_unflattened swap idel free_opt bound pre tpl tgt sigma amb :
    (forall op, idel op = pym_ident op) ->
    call_fn_is_symbol tpl = true -> call_fn_is_symbol tgt = true ->
    NoDup (map fst (pre_list pre)) ->
    match_model swap idel free_opt bound pre tpl tgt = MOk sigma amb ->
    forall rho F, eval rho F Q P (subst (sigma_of sigma) tpl) = eval rho F Q P tgt.
  Proof.
    intros Hid Ht Hg Hnd H rho F.
    rewrite (subst_sem rho F _ tpl Ht).
    rewrite <- (flatten_sem _ _ tpl Ht).
    rewrite <- (subst_sem rho F _ (flatten tpl) (fn_symbol_flatten _ Ht)).
    rewrite (match_genuine _ _ _ _ _ _ _ _ _ Hid Ht Hnd H rho F Q P).
    now apply flatten_sem.
  Qed.
End FlatSem.

(* the three laws are satisfiable: floor division and Z.pow *)
Example flat_laws_sat :
  (forall b, Z.div 0 b = 0%Z) /\ (forall a, Z.div a 1 = a) /\ (forall a, Z.pow a 1 = a).
Proof. split; [intros b; apply Zdiv_0_l|split; [apply Z.div_1_r|apply Z.pow_1_r]]. Qed.
