(* Proofs about coq/model/Controller.v (ExecutionController): C04.
   The graph facts come from proofs/Dfs.v: Controller.edge ph is Dfs.edge (deps_of ph).  The DFS of
   update_plan (add_with_deps) is specified and bounded on its own: Dfs.visit_spec wants its
   accumulator to be a post-order, which the executed and planned ids that add_with_deps also
   skips are not, and reading add_with_deps as Dfs.visit on executed ++ planned ++ early for the
   fuel bound alone takes a longer simulation than the pigeonhole argument it would save. *)
From Coq Require Import List Arith Bool Lia Relations Permutation.
Import ListNotations.
From Dagrt Require Import ListFacts Controller.
From Dagrt Require Dfs.

Lemma set_add_In y x s : In y (set_add x s) <-> y = x \/ In y s.
Proof.
  unfold set_add. destruct (mem x s) eqn:E.
  - apply existsb_nat_In in E. split; [now right|]. intros [->|H]; assumption.
  - cbn. split; intros [H|H]; auto.
Qed.

Lemma set_remove_In y x s : In y (set_remove x s) <-> In y s /\ y <> x.
Proof.
  unfold set_remove. rewrite filter_In. split; intros [H1 H2]; split; try assumption.
  - intros ->. rewrite Nat.eqb_refl in H2. discriminate.
  - destruct (Nat.eqb x y) eqn:E; [apply Nat.eqb_eq in E; congruence|reflexivity].
Qed.

Lemma set_update_In y l : forall s, In y (set_update l s) <-> In y l \/ In y s.
Proof.
  unfold set_update. induction l as [|a l IH]; intros s; cbn.
  - split; [now right|]. intros [[]|H]; assumption.
  - rewrite IH, set_add_In. split.
    + intros [H|[H|H]]; auto.
    + intros [[H|H]|H]; auto.
Qed.

Lemma lookup_Some ph i s : lookup ph i = Some s -> In s ph /\ sid s = i.
Proof. exact (Dfs.lookup_by_Some sid ph i s). Qed.

Lemma lookup_None ph i : lookup ph i = None <-> ~ In i (ids ph).
Proof. exact (Dfs.lookup_by_None sid ph i). Qed.

Lemma lookup_In ph i : In i (ids ph) -> exists s, lookup ph i = Some s.
Proof. exact (Dfs.lookup_by_In sid ph i). Qed.

Lemma lookup_NoDup ph s : NoDup (ids ph) -> In s ph -> lookup ph (sid s) = Some s.
Proof. exact (Dfs.lookup_by_NoDup sid ph s). Qed.

Lemma deps_of_lookup ph x s : lookup ph x = Some s -> deps_of ph x = sdeps s.
Proof. unfold deps_of. intros ->. reflexivity. Qed.

Lemma edge_reach_trans ph x y z : edge ph x y -> reach ph y z -> clos_trans nat (edge ph) x z.
Proof. exact (Dfs.edge_reach_trans (deps_of ph) x y z). Qed.

Section DfsSpec.
  Variable ph : phase.
  Variable ex pl : list nat.
  Hypothesis Hacyc : acyclic ph.

  Notation awd := (add_with_deps ph ex pl).
  Notation addall := (add_all ph ex pl).

  Lemma add_all_stuck_raise f xs e :
    fold_left (fun r x => match r with Ok a => awd f x a | o => o end) xs (Raise e) = Raise e.
  Proof. induction xs; cbn; auto. Qed.
  Lemma add_all_stuck_fuel f xs :
    fold_left (fun r x => match r with Ok a => awd f x a | o => o end) xs OutOfFuel = OutOfFuel.
  Proof. induction xs; cbn; auto. Qed.

  Lemma add_all_cons f x xs early :
    addall f (x :: xs) early =
    match awd f x early with Ok a => addall f xs a | Raise e => Raise e | OutOfFuel => OutOfFuel end.
  Proof.
    unfold add_all. cbn. destruct (awd f x early).
    - reflexivity.
    - apply add_all_stuck_raise.
    - apply add_all_stuck_fuel.
  Qed.

  (* what update_plan has built so far *)
  Inductive post : list nat -> Prop :=
  | post_nil : post []
  | post_snoc l x : post l ->
      (forall d, In d (deps_of ph x) -> In d ex \/ In d pl \/ In d l) ->
      ~ In x l -> ~ In x ex -> ~ In x pl -> In x (ids ph) -> post (l ++ [x]).

  Lemma post_facts l : post l ->
    NoDup l /\ (forall x, In x l -> ~ In x ex /\ ~ In x pl /\ In x (ids ph)) /\
    (forall l1 x l2, l = l1 ++ x :: l2 ->
       forall d, In d (deps_of ph x) -> In d ex \/ In d pl \/ In d l1).
  Proof.
    induction 1 as [|l x P (ND & Hel & Hdep) Hd Hn He Hp Hi].
    - split; [constructor|]. split; [intros x []|]. intros [|] ? ? H; discriminate.
    - split; [|split].
      + now apply NoDup_snoc.
      + intros y Hy. rewrite in_app_iff in Hy. destruct Hy as [Hy|[<-|[]]]; auto.
      + intros l1 y l2 E d Hdy. apply snoc_split in E.
        destruct E as [(-> & -> & ->)|(l2' & -> & ->)].
        * apply Hd. assumption.
        * eapply Hdep; [reflexivity|eassumption].
  Qed.

  Definition SpecV f := forall x early r, post early -> awd f x early = Ok r ->
    exists new, r = early ++ new /\ post r /\ (In x ex \/ In x pl \/ In x r) /\ In x (ids ph) /\
                (forall z, In z new -> reach ph x z).
  Definition SpecS f := forall xs early r, post early -> addall f xs early = Ok r ->
    exists new, r = early ++ new /\ post r /\ (forall x, In x xs -> In x ex \/ In x pl \/ In x r) /\
                incl xs (ids ph) /\ (forall z, In z new -> exists y, In y xs /\ reach ph y z).

  Lemma specS_of_specV f : SpecV f -> SpecS f.
  Proof.
    intros HV xs. induction xs as [|y ys IH]; intros early r P H.
    - cbn in H. injection H as <-. exists []. rewrite app_nil_r.
      repeat split; auto; try (intros ? []).
    - rewrite add_all_cons in H. destruct (awd f y early) as [a| |] eqn:Ea; try discriminate.
      destruct (HV _ _ _ P Ea) as (n1 & -> & Pa & Hy & Hyi & R1).
      destruct (IH _ _ Pa H) as (n2 & -> & Pr & Hall & Hincl & R2).
      exists (n1 ++ n2). rewrite app_assoc. split; [reflexivity|]. split; [assumption|].
      split; [|split].
      + intros z [<-|Hz]; [|apply Hall; assumption].
        destruct Hy as [Hy|[Hy|Hy]]; auto. right. right. rewrite in_app_iff. now left.
      + intros z [<-|Hz]; [assumption|apply Hincl; assumption].
      + intros z Hz. rewrite in_app_iff in Hz. destruct Hz as [Hz|Hz].
        * exists y. split; [now left|apply R1; assumption].
        * destruct (R2 _ Hz) as (y' & Hy' & Hr). exists y'. split; [now right|assumption].
  Qed.

  Theorem add_with_deps_spec : forall f, SpecV f.
  Proof.
    induction f as [|f IHv]; intros x early r P H; [discriminate|].
    pose proof (specS_of_specV f IHv) as IHs.
    cbn [add_with_deps] in H.
    destruct (lookup ph x) as [s|] eqn:El; [|discriminate].
    assert (Hxi : In x (ids ph)).
    { destruct (lookup_Some _ _ _ El) as [Hs <-]. apply in_map. assumption. }
    assert (Hskip : In x ex \/ In x pl \/ In x early -> Ok early = Ok r ->
              exists new, r = early ++ new /\ post r /\ (In x ex \/ In x pl \/ In x r) /\
                          In x (ids ph) /\ (forall z, In z new -> reach ph x z)).
    { intros Hin [= <-]. exists []. rewrite app_nil_r. repeat split; auto. intros ? []. }
    destruct (mem x ex) eqn:Eex; [apply existsb_nat_In in Eex; auto|].
    destruct (mem x pl) eqn:Epl; [apply existsb_nat_In in Epl; auto|].
    destruct (mem x early) eqn:Eea; [apply existsb_nat_In in Eea; auto|]. clear Hskip.
    fold (addall f (sdeps s) early) in H.
    destruct (addall f (sdeps s) early) as [a| |] eqn:Ea; try discriminate.
    injection H as <-.
    destruct (IHs _ _ _ P Ea) as (new & -> & Pa & Hall & _ & Hreach).
    exists (new ++ [x]). rewrite app_assoc. split; [reflexivity|].
    assert (Hx : ~ In x (early ++ new)).
    { rewrite in_app_iff. intros [Hin|Hin].
      - apply existsb_nat_nIn in Eea. auto.
      - destruct (Hreach _ Hin) as (y & Hy & Hyx).
        apply (Hacyc x). eapply edge_reach_trans; [|exact Hyx].
        unfold edge. rewrite (deps_of_lookup _ _ _ El). assumption. }
    apply existsb_nat_nIn in Eex. apply existsb_nat_nIn in Epl.
    split.
    { constructor; try assumption. intros d Hd. rewrite (deps_of_lookup _ _ _ El) in Hd.
      apply Hall. assumption. }
    split; [right; right; rewrite in_app_iff; right; now left|].
    split; [assumption|].
    intros z Hz. rewrite in_app_iff in Hz. destruct Hz as [Hz|[<-|[]]].
    - destruct (Hreach _ Hz) as (y & Hy & Hyz).
      eapply rt_trans; [apply rt_step|exact Hyz].
      unfold edge. rewrite (deps_of_lookup _ _ _ El). assumption.
    - apply rt_refl.
  Qed.

  Corollary add_all_spec : forall f, SpecS f.
  Proof. intros f. apply specS_of_specV. apply add_with_deps_spec. Qed.

  Hypothesis Hclosed : deps_closed ph.

  (* the recursion stack: x0 -> x1 -> ... stored most recent first *)
  Inductive chain : list nat -> Prop :=
  | chain_one x : chain [x]
  | chain_cons y x p : edge ph x y -> chain (x :: p) -> chain (y :: x :: p).

  Lemma chain_Dfs p : chain p -> Dfs.chain (deps_of ph) p.
  Proof. induction 1; constructor; assumption. Qed.

  Lemma chain_reach_head : forall p y, chain (y :: p) -> forall z, In z p -> clos_trans nat (edge ph) z y.
  Proof. intros p y C. exact (Dfs.chain_reach_head (deps_of ph) p y (chain_Dfs _ C)). Qed.

  Lemma chain_NoDup : forall p, chain p -> NoDup p.
  Proof. intros p C. exact (Dfs.chain_NoDup (deps_of ph) Hacyc p (chain_Dfs _ C)). Qed.

  Lemma adequacy : forall f x early p, chain (x :: p) -> incl (x :: p) (ids ph) ->
    length (x :: p) + f >= length (ids ph) + 1 -> exists r, awd f x early = Ok r.
  Proof.
    induction f as [|f IH]; intros x early p C Hin Hlen.
    - exfalso. pose proof (chain_NoDup _ C) as ND.
      pose proof (NoDup_incl_length ND Hin). lia.
    - cbn [add_with_deps].
      destruct (lookup_In ph x) as (s & El); [apply Hin; now left|]. rewrite El.
      destruct (mem x ex); [eauto|]. destruct (mem x pl); [eauto|]. destruct (mem x early); [eauto|].
      fold (addall f (sdeps s) early).
      assert (HS : forall ys acc, incl ys (sdeps s) -> exists r, addall f ys acc = Ok r).
      { induction ys as [|y ys IHys]; intros acc Hys; [cbn; eauto|].
        rewrite add_all_cons.
        assert (Ey : edge ph x y).
        { unfold edge. rewrite (deps_of_lookup _ _ _ El). apply Hys. now left. }
        destruct (IH y acc (x :: p)) as (a & Ea).
        - constructor; assumption.
        - intros z [<-|Hz]; [|apply Hin; assumption].
          destruct (lookup_Some _ _ _ El) as [Hs _].
          eapply Hclosed; [exact Hs|]. apply Hys. now left.
        - cbn in *. lia.
        - rewrite Ea. apply IHys. intros z Hz. apply Hys. now right. }
      destruct (HS (sdeps s) early (incl_refl _)) as (a & Ea). rewrite Ea. eauto.
  Qed.

  Lemma add_all_total xs : incl xs (ids ph) ->
    forall early, exists r, addall (dfs_fuel ph) xs early = Ok r.
  Proof.
    induction xs as [|x xs IH]; intros Hin early; [cbn; eauto|].
    rewrite add_all_cons.
    destruct (adequacy (dfs_fuel ph) x early []) as (a & Ea).
    - constructor.
    - intros z [<-|[]]. apply Hin. now left.
    - unfold dfs_fuel, ids. rewrite map_length. cbn. lia.
    - rewrite Ea. apply IH. intros z Hz. apply Hin. now right.
  Qed.
End DfsSpec.

Lemma update_plan_state ph st req early st' :
  update_plan ph st req = Ok (early, st') ->
  st' = mkState (early ++ plan st) (set_update early (planned st)) (executed st).
Proof.
  unfold update_plan. destruct (add_all _ _ _ _ _ _); [|discriminate..]. now intros [= <- <-].
Qed.

(* What update_plan ph st req puts in front of the plan, from any state. *)
Set Implicit Arguments.
Record spliced (ph : phase) (st : cstate) (req early : list nat) : Prop := {
  spliced_NoDup : NoDup early;
  spliced_new : forall x, In x early -> ~ In x (executed st) /\ ~ In x (planned st) /\ In x (ids ph);
  spliced_req : forall x, In x req -> In x (executed st) \/ In x (planned st) \/ In x early;
  spliced_req_ids : incl req (ids ph);
  spliced_deps : forall l1 x l2, early = l1 ++ x :: l2 ->
    forall d, In d (deps_of ph x) -> In d (executed st) \/ In d (planned st) \/ In d l1;
  spliced_reach : forall z, In z early -> exists r, In r req /\ reach ph r z }.
Unset Implicit Arguments.

Lemma update_plan_spliced ph st req early st' :
  acyclic ph -> update_plan ph st req = Ok (early, st') -> spliced ph st req early.
Proof.
  intros Hacyc H. unfold update_plan in H.
  destruct (add_all ph (executed st) (planned st) (dfs_fuel ph) req []) as [e| |] eqn:E; try discriminate.
  injection H as <- <-.
  destruct (add_all_spec ph (executed st) (planned st) Hacyc _ _ _ _ (post_nil _ _ _) E)
    as (new & Enew & P & Hall & Hin & Hreach).
  cbn in Enew. subst new.
  destruct (post_facts _ _ _ _ P) as (ND & Hel & Hdep).
  constructor; assumption.
Qed.

Lemma update_plan_spec ph st req early st' :
  acyclic ph -> update_plan ph st req = Ok (early, st') ->
  st' = mkState (early ++ plan st) (set_update early (planned st)) (executed st) /\
  NoDup early /\
  (forall x, In x early -> ~ In x (executed st) /\ ~ In x (planned st) /\ In x (ids ph)) /\
  (forall x, In x req -> In x (executed st) \/ In x (planned st) \/ In x early) /\
  incl req (ids ph) /\
  (forall l1 x l2, early = l1 ++ x :: l2 ->
     forall d, In d (deps_of ph x) -> In d (executed st) \/ In d (planned st) \/ In d l1) /\
  (forall z, In z early -> exists r, In r req /\ reach ph r z).
Proof.
  intros Hacyc H. split; [exact (update_plan_state _ _ _ _ _ H)|].
  destruct (update_plan_spliced _ _ _ _ _ Hacyc H). auto 7.
Qed.

Lemma update_plan_total ph st req :
  phase_wf ph -> incl req (ids ph) -> exists early st', update_plan ph st req = Ok (early, st').
Proof.
  intros (ND & Hcl & Hacyc) Hin. unfold update_plan.
  destruct (add_all_total ph (executed st) (planned st) Hacyc Hcl req Hin []) as (r & ->). eauto.
Qed.

Theorem update_plan_general ph st req :
  phase_wf ph -> incl req (ids ph) ->
  exists early st', update_plan ph st req = Ok (early, st') /\
    plan st' = early ++ plan st /\ executed st' = executed st /\
    (forall x, In x (planned st') <-> In x early \/ In x (planned st)) /\
    NoDup early /\
    (forall x, In x early -> ~ In x (executed st) /\ ~ In x (planned st) /\ In x (ids ph)) /\
    (forall x, In x req -> In x (executed st) \/ In x (planned st) \/ In x early) /\
    (forall l1 x l2, early = l1 ++ x :: l2 ->
       forall d, In d (deps_of ph x) -> In d (executed st) \/ In d (planned st) \/ In d l1) /\
    (forall z, In z early -> exists r, In r req /\ reach ph r z).
Proof.
  intros Hwf Hin. destruct (update_plan_total ph st req Hwf Hin) as (early & st' & E).
  exists early, st'. split; [assumption|].
  destruct Hwf as (_ & _ & Hacyc).
  pose proof (update_plan_spliced _ _ _ _ _ Hacyc E) as S.
  rewrite (update_plan_state _ _ _ _ _ E). cbn [plan planned executed].
  split; [reflexivity|]. split; [reflexivity|]. split; [intros x; apply set_update_In|].
  split; [exact (spliced_NoDup S)|]. split; [exact (spliced_new S)|]. split; [exact (spliced_req S)|].
  split; [exact (spliced_deps S) | exact (spliced_reach S)].
Qed.

Lemma awd_skip ph ex pl f x early s :
  lookup ph x = Some s -> In x ex \/ In x pl -> add_with_deps ph ex pl (S f) x early = Ok early.
Proof.
  intros El H. cbn [add_with_deps]. rewrite El.
  destruct (mem x ex) eqn:E1; [reflexivity|]. destruct (mem x pl) eqn:E2; [reflexivity|].
  apply existsb_nat_nIn in E1, E2. tauto.
Qed.

(* The new state is written as update_plan builds it, field by field: it is st, but for a variable
   st the two are not convertible (cstate has no eta rule). *)
Lemma update_plan_covered ph st req :
  (forall x, In x (ids ph) -> In x (executed st) \/ In x (planned st)) ->
  (incl req (ids ph) /\
   update_plan ph st req = Ok ([], mkState (plan st) (planned st) (executed st))) \/
  (~ incl req (ids ph) /\ update_plan ph st req = Raise KeyError).
Proof.
  intros Hcov. unfold update_plan.
  assert (H : (incl req (ids ph) /\ add_all ph (executed st) (planned st) (dfs_fuel ph) req [] = Ok []) \/
              (~ incl req (ids ph) /\ add_all ph (executed st) (planned st) (dfs_fuel ph) req [] = Raise KeyError)).
  { unfold dfs_fuel. rewrite Nat.add_1_r. induction req as [|x xs IH].
    - left. split; [intros ? []|reflexivity].
    - rewrite add_all_cons. destruct (lookup ph x) as [s|] eqn:El.
      + assert (Hx : In x (ids ph)).
        { destruct (lookup_Some _ _ _ El) as [Hs <-]. apply in_map. assumption. }
        rewrite (awd_skip ph _ _ _ x _ s El (Hcov x Hx)).
        destruct IH as [[I1 I2]|[I1 I2]]; [left|right]; (split; [|assumption]).
        * intros z [<-|Hz]; auto.
        * intros Hc'. apply I1. intros z Hz. apply Hc'. now right.
      + right. split; [|cbn [add_with_deps]; rewrite El; reflexivity].
        intros Hc'. apply lookup_None in El. apply El, Hc'. now left. }
  destruct H as [[H1 H2]|[H1 H2]]; rewrite H2; [left|right]; split; auto.
Qed.

Lemma reach_from_root ph : NoDup (ids ph) -> acyclic ph ->
  forall x, In x (ids ph) -> exists r, In r (roots ph) /\ reach ph r x.
Proof.
  intros ND Hacyc x Hx.
  destruct (Dfs.reach_from_root (edge ph) (ids ph) (fun r => In r (roots ph)) Hacyc) with (x := x)
    as (r & _ & Hr & Hrx); eauto.
  intros y Hy. destruct (depended_on ph y) eqn:Ed.
  - right. apply existsb_exists in Ed as (s & Hs & Hm). apply existsb_nat_In in Hm.
    exists (sid s). split; [now apply in_map|].
    unfold edge, deps_of. now rewrite (lookup_NoDup _ _ ND Hs).
  - left. apply filter_In. now rewrite Ed.
Qed.

Lemma respects_closed ph l : respects_deps ph l -> forall x z, In x l -> reach ph x z -> In z l.
Proof.
  intros R x z Hx Hr. apply clos_rt_rt1n in Hr. induction Hr as [x|x y z Exy _ IH]; [assumption|].
  apply IH. apply in_split in Hx. destruct Hx as (l1 & l2 & ->).
  rewrite in_app_iff. left. eapply R; [reflexivity|exact Exy].
Qed.

Lemma respects_prefix ph l r : respects_deps ph (l ++ r) -> respects_deps ph l.
Proof. intros R l1 x l2 ->. apply (R l1 x (l2 ++ r)). rewrite <- app_assoc. reflexivity. Qed.

(* (the state written as update_plan builds it from the empty one, as in update_plan_covered) *)
Lemma initial_plan ph ro :
  phase_wf ph -> same_members ro (roots ph) ->
  exists plan0, update_plan ph (mkState [] [] []) ro
                = Ok (plan0, mkState (plan0 ++ []) (set_update plan0 []) []) /\
    NoDup plan0 /\ same_members plan0 (ids ph) /\ respects_deps ph plan0.
Proof.
  intros Hwf Hro.
  assert (Hin : incl ro (ids ph)).
  { intros x Hx. apply Hro in Hx. unfold roots in Hx. apply filter_In in Hx. tauto. }
  destruct (update_plan_total ph (mkState [] [] []) ro Hwf Hin) as (plan0 & st' & E).
  pose proof Hwf as (NDi & _ & Hacyc).
  pose proof (update_plan_spliced _ _ _ _ _ Hacyc E) as S.
  rewrite (update_plan_state _ _ _ _ _ E) in E. cbn [plan planned executed] in E.
  exists plan0. split; [assumption|]. split; [exact (spliced_NoDup S)|].
  (* nothing is executed or planned, so plan0 is in dependency order outright *)
  assert (R : respects_deps ph plan0).
  { intros l1 x l2 El d Hd. destruct (spliced_deps S _ _ _ El d Hd) as [[]|[[]|H]]. exact H. }
  split; [|assumption].
  intros x. split; [intros Hx; apply (spliced_new S); assumption|].
  intros Hx. destruct (reach_from_root ph NDi Hacyc x Hx) as (r & Hr & Hrx).
  apply (respects_closed ph plan0 R r x); [|assumption].
  apply Hro in Hr. destruct (spliced_req S r Hr) as [[]|[[]|H]]. assumption.
Qed.

Lemma visited_app a b : visited (a ++ b) = visited a ++ visited b.
Proof. unfold visited. apply flat_map_app. Qed.
Lemma execd_app a b : execd (a ++ b) = execd a ++ execd b.
Proof. unfold execd. apply flat_map_app. Qed.

Lemma pop_planned i rest planned :
  NoDup (i :: rest) -> same_members planned (i :: rest) -> same_members (set_remove i planned) rest.
Proof.
  intros ND Hpl x. apply NoDup_cons_iff in ND as [Hn _]. rewrite set_remove_In, (Hpl x). cbn.
  split; [intros [[<-|H] Hx]; congruence|]. intros H. split; [now right|]. now intros ->.
Qed.

Section RunStep.
  Variable ph : phase.
  Variable target : list nat -> nat -> response.

  Lemma guarded_cons hist i v :
    guarded target hist (i :: v) = guarded target hist [i] ++ guarded target (hist ++ [i]) v.
  Proof. cbn [guarded]. now rewrite app_nil_r. Qed.

  (* One turn of run's loop on the popped statement i (run_step): st1 is the state after the pop, hist
     the visits before it, f the fuel left for the rest of the run.  The turn logs one visit of i
     (one_visit) and then either stops, for one of three reasons (stops), or goes on from st1 or
     from what update_plan made of st1 for the request of i, logging the splice (goes_on). *)
  Definition one_visit (hist : list nat) (i : nat) (l : list log_entry) : Prop :=
    visited l = [i] /\ execd l = guarded target hist [i].
  Definition no_splice (l : list log_entry) : Prop := forall j e, ~ In (LSplice j e) l.
  Definition requests (hist : list nat) (i : nat) (req : list nat) : Prop :=
    exists ev ab, target hist i = RExec ev ab (Some req) /\ ev && ab = false.

  (* stops_cut: the target raised or the consumer closed the generator.  What is kept of that is
     not what happened in this turn but that such a target is not one that never stops, since the
     theorems about a run say of CutShort only `never_stops ph target -> Finished`. *)
  Inductive stops (st1 : cstate) (hist : list nat) (i : nat) : status -> Prop :=
  | stops_cut : ~ never_stops ph target -> stops st1 hist i CutShort
  | stops_raise req e :
      requests hist i req -> update_plan ph st1 req = Raise e -> stops st1 hist i (Failed e)
  | stops_fuel req :
      requests hist i req -> update_plan ph st1 req = OutOfFuel -> stops st1 hist i DfsOutOfFuel.

  Inductive goes_on (st1 : cstate) (hist : list nat) (i : nat) : list log_entry -> cstate -> Prop :=
  | on_same l : no_splice l -> goes_on st1 hist i l st1
  | on_splice l req early st2 :
      no_splice l -> requests hist i req -> update_plan ph st1 req = Ok (early, st2) ->
      goes_on st1 hist i (l ++ [LSplice i early]) st2.

  Inductive iteration (f : nat) (st1 : cstate) (hist : list nat) (i : nat) : outcome -> Prop :=
  | it_stop l s : one_visit hist i l -> no_splice l -> stops st1 hist i s ->
      iteration f st1 hist i (mkOut l st1 s)
  | it_next l st2 : one_visit hist i l -> goes_on st1 hist i l st2 ->
      iteration f st1 hist i (emit l (run ph target f st2 (hist ++ [i]))).

  Lemma run_step f st hist i rest :
    plan st = i :: rest -> mem i (planned st) = true -> lookup ph i <> None ->
    iteration f (mkState rest (set_remove i (planned st)) (set_add i (executed st))) hist i
              (run ph target (S f) st hist).
  Proof.
    intros Ep Em El. cbn [run]. rewrite Ep, Em. cbn [negb].
    destruct (lookup ph i); [clear El|congruence].
    set (st1 := mkState rest (set_remove i (planned st)) (set_add i (executed st))).
    assert (OV : forall l, visited l = [i] ->
              execd l = (if guard_holds target hist i then [i] else []) -> one_visit hist i l).
    { intros l Hv He. split; [assumption|]. rewrite He. symmetry. apply app_nil_r. }
    assert (NS : never_stops ph target ->
                 match target hist i with
                 | RGuardRaise | RExecRaise => False
                 | RGuardFalse | RExecNone => True
                 | RExec ev ab nd => ev && ab = false /\ (forall req, nd = Some req -> incl req (ids ph))
                 end) by (intros H; exact (H hist i)).
    unfold guard_holds in OV.
    destruct (target hist i) as [| | | |ev ab nd] eqn:Et.
    - apply it_stop; [now apply OV | intros j e [H|[]]; discriminate | now constructor].
    - apply it_next; [now apply OV|]. constructor. intros j e [H|[]]; discriminate.
    - apply it_stop; [now apply OV | intros j e [H|[H|[]]]; discriminate | now constructor].
    - apply it_next; [now apply OV|]. constructor. intros j e [H|[H|[]]]; discriminate.
    - set (pre := [LCond i; LExec i] ++ (if ev then [LYield i] else [])).
      assert (Hov : one_visit hist i pre) by (apply OV; destruct ev; reflexivity).
      assert (Hs : no_splice pre).
      { intros j e H. unfold pre in H. destruct ev; cbn in H; intuition discriminate. }
      destruct (ev && ab) eqn:Eab.
      { apply it_stop; auto. constructor. intros H. apply NS in H as [H _]. discriminate. }
      destruct nd as [req|]; [|apply it_next; [assumption | now constructor]].
      assert (Hreq : requests hist i req) by (exists ev, ab; auto).
      destruct (update_plan ph st1 req) as [[early st2]|e|] eqn:Eu.
      + apply it_next; [|econstructor; eassumption].
        destruct Hov as [Hv He]. split; [rewrite visited_app, Hv | rewrite execd_app, He]; apply app_nil_r.
      + apply it_stop; auto. econstructor; eassumption.
      + apply it_stop; auto. econstructor; eassumption.
  Qed.
End RunStep.

Section StepRun.
  Variable ph : phase.
  Variable target : list nat -> nat -> response.
  Variable plan0 : list nat.
  Hypothesis ND0 : NoDup plan0.
  Hypothesis Hmem0 : same_members plan0 (ids ph).

  (* The outcome of a run that starts after the visits hist with a suffix of plan0 as its plan.
     Because every splice is empty the plan only shrinks, so fuel |plan| + 1 is enough in run_good;
     the |ph| that Controller.run_fuel adds on top is slack in a step. *)
  Definition good (hist : list nat) (o : outcome) : Prop :=
    hist ++ visited (o_log o) ++ plan (o_state o) = plan0 /\
      (o_status o = Finished -> plan (o_state o) = []) /\
      (o_status o = Finished \/ o_status o = CutShort \/ o_status o = Failed KeyError) /\
      (never_stops ph target -> o_status o = Finished) /\
      (forall i e, In (LSplice i e) (o_log o) -> e = []).

  Lemma good_emit hist i l o :
    visited l = [i] -> (forall j e, In (LSplice j e) l -> e = []) ->
    good (hist ++ [i]) o -> good hist (emit l o).
  Proof.
    intros Hv Hs (E & Hf & Hst & Hns & Hsp). unfold good. cbn.
    rewrite visited_app, Hv. rewrite <- app_assoc in E. cbn in E |- *.
    repeat split; auto.
    intros j e Hin. rewrite in_app_iff in Hin. destruct Hin; eauto.
  Qed.

  Lemma good_stop hist i l st1 s :
    visited l = [i] -> (forall j e, In (LSplice j e) l -> e = []) ->
    hist ++ [i] ++ plan st1 = plan0 -> (s = CutShort \/ s = Failed KeyError) ->
    (never_stops ph target -> False) -> good hist (mkOut l st1 s).
  Proof.
    intros Hv Hs E Hst Hns. unfold good. cbn [o_log o_state o_status]. rewrite Hv.
    split; [exact E|]. split; [intros ->; destruct Hst; discriminate|].
    split; [destruct Hst; auto|]. split; [intros H; destruct (Hns H)|exact Hs].
  Qed.

  Lemma run_good : forall f st hist,
    hist ++ plan st = plan0 -> same_members (planned st) (plan st) -> same_members (executed st) hist ->
    f >= length (plan st) + 1 -> good hist (run ph target f st hist).
  Proof.
    induction f as [|f IH]; intros st hist Hp Hpl Hex Hf; [lia|].
    destruct (plan st) as [|i rest] eqn:Eplan.
    { cbn [run]. rewrite Eplan. unfold good. cbn. rewrite Eplan, !app_nil_r in *. repeat split; auto. intros ? ? []. }
    assert (Hi : mem i (planned st) = true) by (apply existsb_nat_In, Hpl; now left).
    assert (Hiids : In i (ids ph)).
    { apply Hmem0. rewrite <- Hp. rewrite in_app_iff. right. now left. }
    assert (El : lookup ph i <> None) by (destruct (lookup_In _ _ Hiids) as (s & ->); discriminate).
    assert (NDp : NoDup (hist ++ i :: rest)) by (rewrite Hp; exact ND0).
    pose proof (run_step ph target f st hist i rest Eplan Hi El) as Hrun.
    set (st1 := mkState rest (set_remove i (planned st)) (set_add i (executed st))) in *.
    assert (Hp1 : (hist ++ [i]) ++ plan st1 = plan0) by (rewrite <- app_assoc; exact Hp).
    assert (Hpl1 : same_members (planned st1) (plan st1))
      by exact (pop_planned i rest _ (NoDup_app_r _ _ NDp) Hpl).
    assert (Hex1 : same_members (executed st1) (hist ++ [i])).
    { intros x. cbn. rewrite set_add_In, in_app_iff. cbn. rewrite (Hex x). intuition. }
    assert (Hf1 : f >= length (plan st1) + 1) by (cbn in *; lia).
    (* every statement of the phase is executed or planned: a request changes nothing *)
    assert (Hcov : forall req, requests target hist i req ->
              update_plan ph st1 req = Ok ([], st1) \/
              ~ never_stops ph target /\ update_plan ph st1 req = Raise KeyError).
    { intros req (ev & ab & Et & _). destruct (update_plan_covered ph st1 req) as [[_ H]|[Hin H]]; auto.
      - intros x Hx. apply Hmem0 in Hx. rewrite <- Hp1 in Hx. rewrite in_app_iff in Hx.
        destruct Hx as [Hx|Hx]; [left; apply Hex1; assumption|right; apply Hpl1; assumption].
      - right. split; [|assumption]. intros NS. specialize (NS hist i). rewrite Et in NS.
        apply Hin, NS. reflexivity. }
    destruct Hrun as [l s [Hv _] Hns Hs|l st2 [Hv _] Hon].
    - assert ((s = CutShort \/ s = Failed KeyError) /\ ~ never_stops ph target) as [Hst NS].
      { destruct Hs as [NS|req e Hreq Eu|req Hreq Eu]; [auto| |];
          destruct (Hcov req Hreq) as [E|[NS E]]; rewrite E in Eu; try discriminate.
        injection Eu as <-. auto. }
      apply (good_stop hist i); auto. intros j e H. destruct (Hns j e H).
    - assert (st2 = st1 /\ forall j e, In (LSplice j e) l -> e = []) as [-> Hsp].
      { destruct Hon as [l Hns|l req early st2 Hns Hreq Eu].
        - split; [reflexivity|]. intros j e H. destruct (Hns j e H).
        - destruct (Hcov req Hreq) as [E|[_ E]]; rewrite E in Eu; [|discriminate].
          injection Eu as <- <-. split; [reflexivity|]. intros j e H.
          apply in_app_or in H as [H|[[= _ <-]|[]]]; [destruct (Hns j e H)|reflexivity]. }
      apply (good_emit hist i); auto.
  Qed.
End StepRun.

Lemma run_guarded ph target : forall f st hist,
  execd (o_log (run ph target f st hist)) = guarded target hist (visited (o_log (run ph target f st hist))).
Proof.
  induction f as [|f IH]; intros st hist; [reflexivity|].
  destruct (plan st) as [|i rest] eqn:Ep; [cbn [run]; now rewrite Ep|].
  destruct (mem i (planned st)) eqn:Em; [|cbn [run]; now rewrite Ep, Em].
  destruct (lookup ph i) eqn:El; [|cbn [run]; now rewrite Ep, Em, El].
  destruct (run_step ph target f st hist i rest Ep Em) as [l sta [Hv He] _ _|l st2 [Hv He] _];
    [congruence| |]; cbn [emit o_log].
  - now rewrite Hv, He.
  - rewrite execd_app, visited_app, Hv, He. cbn [app].
    now rewrite (guarded_cons target hist i (visited _)), IH.
Qed.

(* What a step of a well-formed phase leaves, said of its outcome o: what was visited, followed by
   what is still planned, enumerates the phase in dependency order, and so on.  C04_prefix is the
   conjunction (step_prefix); the other theorems about a step are read off the fields. *)
Set Implicit Arguments.
Record step_ok (ph : phase) (target : list nat -> nat -> response) (o : outcome) : Prop := {
  step_enumerates : Permutation (visited (o_log o) ++ plan (o_state o)) (ids ph);
  step_NoDup : NoDup (visited (o_log o) ++ plan (o_state o));
  step_respects : respects_deps ph (visited (o_log o) ++ plan (o_state o));
  step_finished : o_status o = Finished -> plan (o_state o) = [];
  step_status : o_status o = Finished \/ o_status o = CutShort \/ o_status o = Failed KeyError;
  step_never_stops : never_stops ph target -> o_status o = Finished;
  step_no_splice : forall i e, In (LSplice i e) (o_log o) -> e = [] }.
Unset Implicit Arguments.

Lemma run_single_step_ok ph ro target st :
  phase_wf ph -> same_members ro (roots ph) -> step_ok ph target (run_single_step st ph ro target).
Proof.
  intros Hwf Hro. destruct (initial_plan ph ro Hwf Hro) as (plan0 & E & ND & Hmem & R).
  unfold run_single_step, reset. rewrite E.
  set (st1 := mkState (plan0 ++ []) (set_update plan0 []) []).
  destruct (run_good ph target plan0 ND Hmem (run_fuel ph st1) st1 [])
    as (Hp & Hf & Hst & Hns & Hsp).
  - cbn. apply app_nil_r.
  - intros x. cbn [planned plan st1]. rewrite set_update_In, app_nil_r. split; [intros [H|[]]; exact H|intros H; now left].
  - intros x. cbn. tauto.
  - unfold run_fuel. lia.
  - cbn [app] in Hp. constructor; rewrite ?Hp; auto.
    apply NoDup_Permutation; auto. apply Hwf.
Qed.

Theorem step_prefix ph ro target st :
  phase_wf ph -> same_members ro (roots ph) ->
  let o := run_single_step st ph ro target in
  exists rest,
    Permutation (visited (o_log o) ++ rest) (ids ph) /\ NoDup (visited (o_log o) ++ rest) /\
    respects_deps ph (visited (o_log o) ++ rest) /\
    plan (o_state o) = rest /\ (o_status o = Finished -> rest = []) /\
    (o_status o = Finished \/ o_status o = CutShort \/ o_status o = Failed KeyError) /\
    (never_stops ph target -> o_status o = Finished) /\
    (forall i e, In (LSplice i e) (o_log o) -> e = []).
Proof.
  intros Hwf Hro o. destruct (run_single_step_ok ph ro target st Hwf Hro).
  exists (plan (o_state o)). auto 9.
Qed.

Theorem step_visits ph ro target st :
  phase_wf ph -> same_members ro (roots ph) -> never_stops ph target ->
  let o := run_single_step st ph ro target in
  o_status o = Finished /\ Permutation (visited (o_log o)) (ids ph) /\ NoDup (visited (o_log o)) /\
  respects_deps ph (visited (o_log o)).
Proof.
  intros Hwf Hro NS o. pose proof (run_single_step_ok ph ro target st Hwf Hro) as S. fold o in S.
  pose proof (step_never_stops S NS) as Hfin.
  pose proof (step_enumerates S) as P. pose proof (step_NoDup S) as ND. pose proof (step_respects S) as R.
  rewrite (step_finished S Hfin), app_nil_r in P, ND, R. auto.
Qed.

Theorem step_cut_short ph ro target st :
  phase_wf ph -> same_members ro (roots ph) ->
  let o := run_single_step st ph ro target in
  NoDup (visited (o_log o)) /\ respects_deps ph (visited (o_log o)) /\ incl (visited (o_log o)) (ids ph) /\
  (o_status o = Finished \/ o_status o = CutShort \/ o_status o = Failed KeyError).
Proof.
  intros Hwf Hro o. pose proof (run_single_step_ok ph ro target st Hwf Hro) as S. fold o in S.
  split; [exact (NoDup_app_l _ _ (step_NoDup S))|].
  split; [exact (respects_prefix _ _ _ (step_respects S))|].
  split; [|exact (step_status S)].
  intros x Hx. eapply Permutation_in; [exact (step_enumerates S)|]. rewrite in_app_iff. now left.
Qed.

Theorem step_dynamic_noop ph ro target st :
  phase_wf ph -> same_members ro (roots ph) ->
  forall i early, In (LSplice i early) (o_log (run_single_step st ph ro target)) -> early = [].
Proof. intros Hwf Hro. exact (step_no_splice (run_single_step_ok ph ro target st Hwf Hro)). Qed.

Theorem step_fuel_adequate ph ro target st :
  phase_wf ph -> same_members ro (roots ph) ->
  let s := o_status (run_single_step st ph ro target) in
  s <> LoopOutOfFuel /\ s <> DfsOutOfFuel /\ s <> Failed AssertionError.
Proof.
  intros Hwf Hro s. pose proof (step_status (run_single_step_ok ph ro target st Hwf Hro)) as H.
  fold s in H. repeat split; intros E; rewrite E in H; destruct H as [H|[H|H]]; discriminate.
Qed.

Theorem step_guard_false_counts ph ro target st :
  let o := run_single_step st ph ro target in
  execd (o_log o) = guarded target [] (visited (o_log o)).
Proof.
  unfold run_single_step. destruct (update_plan ph (reset st) ro) as [[e st1]| |]; try reflexivity.
  apply run_guarded.
Qed.

Theorem step_stale_state ph ro target st st' :
  run_single_step st ph ro target = run_single_step st' ph ro target.
Proof. reflexivity. Qed.

Definition state_ok (st : cstate) : Prop :=
  NoDup (plan st) /\ same_members (planned st) (plan st) /\ (forall x, In x (plan st) -> ~ In x (executed st)).

Lemma state_ok_pop st i rest : state_ok st -> plan st = i :: rest ->
  state_ok (mkState rest (set_remove i (planned st)) (set_add i (executed st))).
Proof.
  intros (NDp & Hpl & Hdis) Ep. rewrite Ep in *. apply NoDup_cons_iff in NDp as HN.
  split; [apply HN|]. split; [now apply pop_planned|].
  intros x Hx. cbn. rewrite set_add_In. intros [->|H]; [now apply HN|].
  apply (Hdis x); [now right|assumption].
Qed.

Lemma state_ok_update_plan ph st req early st2 : acyclic ph -> state_ok st ->
  update_plan ph st req = Ok (early, st2) -> state_ok st2 /\ executed st2 = executed st.
Proof.
  intros Hacyc (ND & Hpl & Hdis) Eu.
  pose proof (spliced_new (update_plan_spliced _ _ _ _ _ Hacyc Eu)) as Hel.
  pose proof (spliced_NoDup (update_plan_spliced _ _ _ _ _ Hacyc Eu)) as NDe.
  rewrite (update_plan_state _ _ _ _ _ Eu). split; [|reflexivity].
  split; [|split]; cbn [plan planned executed].
  - apply NoDup_app_intro; [assumption|exact ND|].
    intros x Hx Hx'. apply (Hel x Hx). apply Hpl. exact Hx'.
  - intros x. rewrite set_update_In, in_app_iff. rewrite (Hpl x). reflexivity.
  - intros x Hx. rewrite in_app_iff in Hx.
    destruct Hx as [Hx|Hx]; [apply Hel; assumption|apply Hdis; assumption].
Qed.

Lemma run_nothing_twice ph target : acyclic ph -> forall f st hist, state_ok st ->
  let o := run ph target f st hist in
  NoDup (visited (o_log o)) /\ (forall x, In x (visited (o_log o)) -> ~ In x (executed st)).
Proof.
  intros Hacyc. induction f as [|f IH]; intros st hist Hok;
    assert (H0 : NoDup (visited []) /\ (forall x, In x (visited []) -> ~ In x (executed st)))
      by (split; [constructor|intros ? []]); [exact H0|].
  destruct (plan st) as [|i rest] eqn:Ep; [cbn [run]; rewrite Ep; exact H0|].
  destruct (mem i (planned st)) eqn:Em; [|cbn [run]; rewrite Ep, Em; exact H0].
  destruct (lookup ph i) eqn:El; [|cbn [run]; rewrite Ep, Em, El; exact H0]. clear H0.
  assert (Hrun := run_step ph target f st hist i rest Ep Em ltac:(congruence)).
  pose proof (state_ok_pop st i rest Hok Ep) as Hok1.
  set (st1 := mkState rest (set_remove i (planned st)) (set_add i (executed st))) in *.
  assert (Hiex : ~ In i (executed st)) by (apply Hok; rewrite Ep; now left).
  destruct Hrun as [l sta [Hv _] _ _|l st2 [Hv _] Hon]; cbn [emit o_log].
  { rewrite Hv. split; [repeat constructor; intros []|]. intros x [<-|[]]. assumption. }
  assert (state_ok st2 /\ executed st2 = executed st1) as [Hok2 Hex2]
    by (destruct Hon as [l _|l req early st2 _ _ Eu]; [auto|exact (state_ok_update_plan _ _ _ _ _ Hacyc Hok1 Eu)]).
  rewrite visited_app, Hv. cbn [app].
  destruct (IH st2 (hist ++ [i]) Hok2) as [ND2 Hd2]. rewrite Hex2 in Hd2. cbn in Hd2. split.
  - constructor; [|assumption]. intros Hin. apply (Hd2 i Hin). apply set_add_In. now left.
  - intros x [<-|Hx]; [assumption|]. intros Hxe. apply (Hd2 x Hx). apply set_add_In. now right.
Qed.

Lemma nodupb_NoDup l : nodupb l = true -> NoDup l.
Proof. exact (nodupb_by_NoDup Nat.eqb Nat.eqb_eq l). Qed.

Lemma wf_decreasing_sound ph : wf_decreasing ph = true -> phase_wf ph.
Proof.
  unfold wf_decreasing. intros H. apply andb_true_iff in H. destruct H as [H1 H2].
  assert (Hd : forall s d, In s ph -> In d (sdeps s) -> d < sid s /\ In d (ids ph)).
  { intros s d Hs Hd. rewrite forallb_forall in H2. specialize (H2 s Hs).
    rewrite forallb_forall in H2. specialize (H2 d Hd). apply andb_true_iff in H2.
    destruct H2 as [H2 H3]. apply Nat.ltb_lt in H2. apply existsb_nat_In in H3. auto. }
  split; [apply nodupb_NoDup; assumption|]. split.
  - intros s d Hs Hdd. apply (Hd s d Hs Hdd).
  - assert (He : forall a b, edge ph a b -> b < a).
    { intros a b. unfold edge, deps_of. destruct (lookup ph a) as [s|] eqn:E; [|intros []].
      destruct (lookup_Some _ _ _ E) as [Hs <-]. intros Hb. apply (Hd s b Hs Hb). }
    exact (Dfs.acyclic_of_rank (edge ph) (fun x => x) He).
Qed.

Definition ex_ph : phase := [mkStmt 0 []; mkStmt 1 [0]; mkStmt 2 [1; 0]; mkStmt 3 [1]; mkStmt 4 []].
(* statement 1 has a false guard, statement 3 yields an event and requests 2 and 0 *)
Definition ex_target : list nat -> nat -> response :=
  fun _ i => if Nat.eqb i 1 then RGuardFalse
             else if Nat.eqb i 3 then RExec true false (Some [2; 0]) else RExecNone.
(* statement 3 raises (FailStep / SwitchPhase / Raise) *)
Definition ex_target_stop : list nat -> nat -> response :=
  fun _ i => if Nat.eqb i 3 then RExecRaise else RExecNone.

Example ex_wf : phase_wf ex_ph.
Proof. apply wf_decreasing_sound. reflexivity. Qed.

Example ex_roots : same_members [4; 3; 2] (roots ex_ph).
Proof. replace (roots ex_ph) with [2; 3; 4] by reflexivity. intros x. cbn. tauto. Qed.

Example ex_never_stops : never_stops ex_ph ex_target.
Proof.
  intros h i. unfold ex_target. destruct (Nat.eqb i 1); [exact I|].
  destruct (Nat.eqb i 3); [|exact I]. split; [reflexivity|].
  intros req H. injection H as <-. intros x [<-|[<-|[]]]; cbn; tauto.
Qed.

(* C04_visits / C04_guard_false_counts / C04_dynamic_noop / C04_stale_state on a concrete step *)
Example ex_step :
  run_single_step (mkState [9] [9] [7]) ex_ph [4; 3; 2] ex_target =
  mkOut [LCond 4; LExec 4; LCond 0; LExec 0; LCond 1; LCond 3; LExec 3; LYield 3; LSplice 3 [];
         LCond 2; LExec 2]
        (mkState [] [] [2; 3; 1; 0; 4]) Finished.
Proof. vm_compute. reflexivity. Qed.

(* C04_prefix on steps that are cut short *)
Example ex_step_cut :
  run_single_step (mkState [] [] []) ex_ph [2; 4; 3] ex_target_stop =
  mkOut [LCond 0; LExec 0; LCond 1; LExec 1; LCond 2; LExec 2; LCond 4; LExec 4; LCond 3; LExec 3]
        (mkState [] [] [3; 4; 2; 1; 0]) CutShort.
Proof. vm_compute. reflexivity. Qed.

Example ex_step_cut2 :
  let o := run_single_step (mkState [] [] []) ex_ph [3; 2; 4] ex_target_stop in
  visited (o_log o) = [0; 1; 3] /\ plan (o_state o) = [2; 4] /\ o_status o = CutShort.
Proof. vm_compute. auto. Qed.

(* C04_dynamic_general: a partial plan [1;3] with 0 executed; requesting 2 and 4 puts exactly
   [2;4] in front (1 and 0 are planned / executed already) *)
Example ex_general :
  update_plan ex_ph (mkState [1; 3] [1; 3] [0]) [2; 4] =
  Ok ([2; 4], mkState [2; 4; 1; 3] [4; 2; 1; 3] [0]).
Proof. vm_compute. reflexivity. Qed.

Example ex_state_ok : state_ok (mkState [1; 3] [3; 1] [0]).
Proof.
  split; [repeat constructor; cbn; intuition discriminate|]. split.
  - intros x. cbn. tauto.
  - intros x. cbn. intuition; subst; discriminate.
Qed.

(* Observation (outside a step, i.e. outside the property): with a partial plan made through
   update_plan directly, a requested statement is placed before a dependency that is already
   planned -- here 2 (which depends on 1) runs before 1.  C04_dynamic_general says exactly this:
   dependencies of the spliced statements are executed, spliced earlier, or *planned*. *)
Example ex_partial_plan_dep_after :
  visited (o_log (run ex_ph (fun _ i => if Nat.eqb i 0 then RExec false false (Some [2]) else RExecNone)
                      10 (mkState [0; 1; 3] [0; 1; 3] []) [])) = [0; 2; 1; 3].
Proof. vm_compute. reflexivity. Qed.
