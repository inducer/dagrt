(* C16, model/Fuse.v, semantics.  Executing a statement commutes with a renaming of the variables
   that is injective on a set P holding everything the statement touches (stores related on P by
   s' (r x) = s x); the substitution of the fused phase is such a renaming on the names of the second
   method (FuseProofs.sub_inj).  If nothing one of two statement lists writes is in the footprint of
   the other, every interleaving shows each of them, on its footprint, the store it sees alone.  The
   two give run equivalence of the fused phase in its repaired shape; the refutations for the shape
   of the unchanged tree are in FuseWitnessProofs.v. *)
From Coq Require Import List ZArith String Bool Arith Lia.
Import ListNotations.
From Dagrt Require Import Lang Sched LangProofs SchedProofs Fuse ListFacts FuseProofs.
Local Open Scope list_scope.

Lemma eval_nary F s o l : o <> NAnd -> o <> NOr ->
  eval F s (ENary o l) = (fst (nfold F s o (ninit o) l), rbind (snd (nfold F s o (ninit o) l)) (nfinish F o)).
Proof.
  intros NA NO. destruct (eval_nary_cases F o) as [E|[[|] ->]]; [|destruct NO; reflexivity|destruct NA; reflexivity].
  rewrite E. destruct (nfold F s o (ninit o) l). reflexivity.
Qed.

Definition amap (r : var -> var) (a : access) : access :=
  match a with Rd x => Rd (r x) | Wr x => Wr (r x) | Dl x => Dl (r x) end.

(* Expressions.  Evaluating a renamed expression in s' is evaluating the expression in the store
   that looks names up through r (the substitution lemma; it needs nothing of r but that it leaves
   function symbols alone).  Which names of s' matter is then the frame property of LangProofs. *)
Section Ren.
  Variable F : string -> list val -> list (string * val) -> option (list val).
  Variable r : var -> var.

  Definition thru (s' : store) : store := fun x => s' (r x).

  Definition fsafe (fs : list string) : Prop := forall f, In f fs -> r f = f.

  Definition EvalR (e : expr) : Prop :=
    fsafe (funsyms e) -> forall s',
    eval F s' (ren r e) = (map r (fst (eval F (thru s') e)), snd (eval F (thru s') e)).

  Lemma fsafe_app a b : fsafe (a ++ b) <-> fsafe a /\ fsafe b.
  Proof.
    unfold fsafe. split.
    - intros H. split; intros f Hf; apply H; rewrite in_app_iff; auto.
    - intros [A B] f Hf. rewrite in_app_iff in Hf. destruct Hf; auto.
  Qed.

  Lemma nstep_ren o acc v : nstep (ren_nop r o) acc v = nstep o acc v.
  Proof. destruct o; reflexivity. Qed.
  Lemma ninit_ren o : ninit (ren_nop r o) = ninit o.
  Proof. destruct o; reflexivity. Qed.

  Lemma nfold_ren o l : Forall EvalR l -> fsafe (flat_map funsyms l) -> forall acc s',
    nfold F s' o acc (map (ren r) l) = (map r (fst (nfold F (thru s') o acc l)), snd (nfold F (thru s') o acc l)).
  Proof.
    induction 1 as [|a l Ha _ IH]; intros Hf acc s'; [reflexivity|].
    cbn [flat_map] in Hf. apply fsafe_app in Hf. destruct Hf as [Hfa Hfl].
    cbn [map nfold]. rewrite (Ha Hfa s'). destruct (eval F (thru s') a) as [rd [v|u]]; cbn [fst snd]; [|reflexivity].
    destruct (nstep o acc v) as [acc'|]; [|reflexivity].
    rewrite (IH Hfl acc' s'). destruct (nfold F (thru s') o acc' l) as [r2 vs]. cbn [fst snd]. now rewrite map_app.
  Qed.

  Lemma andor_ren stop l : Forall EvalR l -> fsafe (flat_map funsyms l) -> forall s',
    eval F s' (ENary (lazy_op stop) (map (ren r) l)) =
    (map r (fst (eval F (thru s') (ENary (lazy_op stop) l))), snd (eval F (thru s') (ENary (lazy_op stop) l))).
  Proof.
    induction 1 as [|a l Ha _ IH]; intros Hf s'; [now rewrite !eval_lazy_nil|].
    cbn [flat_map] in Hf. apply fsafe_app in Hf. destruct Hf as [Hfa Hfl].
    cbn [map]. rewrite !eval_lazy_cons, (Ha Hfa s'). destruct (eval F (thru s') a) as [rd v]; cbn [fst snd].
    destruct (rbind v _) as [bb|u]; [|reflexivity]. destruct (Bool.eqb bb stop); [reflexivity|].
    rewrite (IH Hfl s'). destruct (eval F (thru s') (ENary _ l)) as [r2 v2]. cbn [fst snd]. now rewrite map_app.
  Qed.

  Lemma eval_ren_all : forall e, EvalR e.
  Proof.
    induction e as [z|b| |x|a IH|c t e C T E|o a b A B|o l IH] using expr_ind'; unfold EvalR;
      intros Hf s'; cbn [ren]; try reflexivity.
    - cbn [funsyms] in Hf. cbn [eval]. rewrite (IH Hf s'). destruct (eval F (thru s') a) as [rd v]. reflexivity.
    - cbn [funsyms] in Hf. apply fsafe_app in Hf. destruct Hf as [Hc Hf]. apply fsafe_app in Hf. destruct Hf as [Ht He].
      cbn [eval]. rewrite (C Hc s'). destruct (eval F (thru s') c) as [rd v]; cbn [fst snd].
      destruct (rbind v _) as [[|]|u]; [| |reflexivity].
      + rewrite (T Ht s'). destruct (eval F (thru s') t). cbn [fst snd]. now rewrite map_app.
      + rewrite (E He s'). destruct (eval F (thru s') e). cbn [fst snd]. now rewrite map_app.
    - cbn [funsyms] in Hf. apply fsafe_app in Hf. destruct Hf as [Ha Hb].
      cbn [eval]. rewrite (A Ha s'). destruct (eval F (thru s') a) as [r1 [v1|u]]; cbn [fst snd]; [|reflexivity].
      rewrite (B Hb s'). destruct (eval F (thru s') b). cbn [fst snd]. now rewrite map_app.
    - cbn [funsyms] in Hf. apply fsafe_app in Hf. destruct Hf as [Ho Hl].
      (* only the function symbol of a call could be renamed, and it is not *)
      replace (ren_nop r o) with o by (destruct o; try reflexivity; cbn [ren_nop]; now rewrite Ho by now left).
      destruct (eval_nary_cases F o) as [E|[stop ->]]; [|now apply andor_ren].
      rewrite !E, (nfold_ren _ l IH Hl _ s'). destruct (nfold F (thru s') o (ninit o) l). reflexivity.
  Qed.

  Lemma eval_list_thru l s' : fsafe (flat_map funsyms l) ->
    eval_list F s' (map (ren r) l) = (map r (fst (eval_list F (thru s') l)), snd (eval_list F (thru s') l)).
  Proof.
    induction l as [|a l IH]; intros Hf; [reflexivity|].
    cbn [flat_map] in Hf. apply fsafe_app in Hf. destruct Hf as [Hfa Hfl].
    cbn [map eval_list]. rewrite (eval_ren_all a Hfa s'). destruct (eval F (thru s') a) as [rd [v|u]]; cbn [fst snd]; [|reflexivity].
    rewrite (IH Hfl). destruct (eval_list F (thru s') l) as [r2 vs]. cbn [fst snd]. now rewrite map_app.
  Qed.

  Variable P : var -> Prop.
  Definition R (s s' : store) : Prop := forall x, P x -> s' (r x) = s x.

  Lemma eval_ren e s s' : fsafe (funsyms e) -> Forall P (vars e) -> R s s' ->
    eval F s' (ren r e) = (map r (fst (eval F s e)), snd (eval F s e)).
  Proof. intros Hf HP HR. rewrite (eval_ren_all e Hf s'), (eval_frame_on F P (thru s') s e HP HR). reflexivity. Qed.

  Lemma eval_list_ren l s s' : fsafe (flat_map funsyms l) -> Forall P (flat_map vars l) -> R s s' ->
    eval_list F s' (map (ren r) l) = (map r (fst (eval_list F s l)), snd (eval_list F s l)).
  Proof. intros Hf HP HR. rewrite (eval_list_thru l s' Hf), (eval_list_frame_on F P (thru s') s l HP HR). reflexivity. Qed.
End Ren.

Section RenStmt.
  Variable F : string -> list val -> list (string * val) -> option (list val).
  Variable r : var -> var.
  Variable P : var -> Prop.
  Hypothesis r_inj : forall x y, P x -> P y -> r x = r y -> x = y.
  Notation R := (R r P).
  Notation fsafe := (fsafe r).

  Lemma R_upd s s' x v : P x -> R s s' -> R (upd s x v) (upd s' (r x) v).
  Proof.
    intros Px H y Py. unfold upd. destruct (String.eqb_spec y x) as [->|N].
    - now rewrite String.eqb_refl.
    - destruct (String.eqb_spec (r y) (r x)) as [E|_]; [apply r_inj in E; [contradiction|assumption..]|apply H, Py].
  Qed.
  Lemma R_del s s' x : P x -> R s s' -> R (del s x) (del s' (r x)).
  Proof.
    intros Px H y Py. unfold del. destruct (String.eqb_spec y x) as [->|N].
    - now rewrite String.eqb_refl.
    - destruct (String.eqb_spec (r y) (r x)) as [E|_]; [apply r_inj in E; [contradiction|assumption..]|apply H, Py].
  Qed.

  Inductive rs_rel : rs store -> rs store -> Prop :=
  | rs_ok s s' : R s s' -> rs_rel (Ok s) (Ok s')
  | rs_err u : rs_rel (Err u) (Err u).
  Inductive out_rel : outcome -> outcome -> Prop :=
  | o_next s s' ev : R s s' -> out_rel (ONext s ev) (ONext s' ev)
  | o_fail : out_rel OFail OFail
  | o_switch p : out_rel (OSwitch p) (OSwitch p)
  | o_raise k : out_rel (ORaise k) (ORaise k)
  | o_exn : out_rel OUserExn OUserExn
  | o_crash : out_rel OCrash OCrash.
  (* What the renamed computation returns: the image of the accesses, and a related result.  The model
     takes these pairs apart with `let (a, res) := ...`, so the relation is an inductive over pairs:
     destructing a proof of it replaces both computations in the goal at once. *)
  Inductive rel {A} (Q : A -> A -> Prop) : list access * A -> list access * A -> Prop :=
  | rel_intro a x x' : Q x x' -> rel Q (a, x) (map (amap r) a, x').
  Definition rel_rs := rel rs_rel.
  Definition rel_out := rel out_rel.
  Local Hint Constructors rs_rel out_rel : core.

  Lemma rel_mk {A} (Q : A -> A -> Prop) a a' x x' : a' = map (amap r) a -> Q x x' -> rel Q (a, x) (a', x').
  Proof. intros ->. apply rel_intro. Qed.

  Lemma rds_map l : rds (map r l) = map (amap r) (rds l).
  Proof. unfold rds. rewrite !map_map. reflexivity. Qed.

  Lemma of_rs_rel a b : rs_rel a b -> out_rel (of_rs a) (of_rs b).
  Proof. intros [s s' H|[|]]; cbn; auto. Qed.

  (* closes a goal [rel Q (a, x) (a', x')] whose two sides have been computed *)
  Ltac fin := apply rel_mk; [cbn [map]; rewrite ?map_app, ?rds_map; reflexivity|auto using R_upd, of_rs_rel].

  Lemma assign_once_ren s s' x sb rhs :
    R s s' -> fsafe (funsyms rhs) -> fsafe (match sb with Some ie => funsyms ie | None => [] end) ->
    Forall P (vars rhs) -> Forall P (match sb with Some ie => vars ie | None => [] end) -> P x ->
    rel_rs (assign_once F s x sb rhs) (assign_once F s' (r x) (option_map (ren r) sb) (ren r rhs)).
  Proof.
    intros HR Hf Hs Pr Ps Px. unfold assign_once. rewrite (eval_ren F r P rhs s s' Hf Pr HR).
    destruct (eval F s rhs) as [rd [v|u]]; cbn [fst snd]; [|fin].
    destruct sb as [ie|]; cbn [option_map]; [|fin].
    rewrite (HR x Px). destruct (s x) as [agg|]; [|fin].
    rewrite (eval_ren F r P ie s s' Hs Ps HR). destruct (eval F s ie) as [r2 [iv|u]]; cbn [fst snd]; [|fin].
    (* every branch of the subscripted store has the same accesses *)
    replace (rds (map r rd) ++ [Rd (r x)] ++ rds (map r r2)) with (map (amap r) (rds rd ++ [Rd x] ++ rds r2))
      by (rewrite !map_app, !rds_map; reflexivity).
    generalize (rds rd ++ [Rd x] ++ rds r2). intros acc.
    destruct agg; try (repeat constructor). destruct iv; try (repeat constructor).
    destruct (as_int v); [|repeat constructor]. destruct (norm_index _ _); repeat constructor. now apply R_upd.
  Qed.

  Section Iter.
    Variables inner inner' : store -> list access * rs store.
    Hypothesis Hin : forall s s', R s s' -> rel_rs (inner s) (inner' s').

    Lemma iter_range_ren ident : P ident -> forall n i s s', R s s' ->
      rel_rs (iter_range n i ident inner s) (iter_range n i (r ident) inner' s').
    Proof.
      intros Pi. induction n as [|n IH]; intros i s s' HR; cbn [iter_range]; [fin|].
      destruct (Hin _ _ (R_upd s s' ident (VInt i) Pi HR)) as [a1 ? ? [s1 s1' H1|u]]; [|fin].
      destruct (IH (i + 1)%Z s1 s1' H1) as [a2 res res' H2]. fin.
    Qed.
  End Iter.

  Definition ren_loops (loops : list (var * expr * expr)) : list (var * expr * expr) :=
    map (fun l => (r (fst (fst l)), ren r (snd (fst l)), ren r (snd l))) loops.
  Definition loops_funsyms (loops : list (var * expr * expr)) : list string :=
    flat_map (fun l => funsyms (snd (fst l)) ++ funsyms (snd l)) loops.

  Lemma run_loops_ren (body body' : store -> list access * rs store) :
    (forall s s', R s s' -> rel_rs (body s) (body' s')) ->
    forall loops, fsafe (loops_funsyms loops) -> Forall P (loop_bound_vars loops) -> Forall P (loop_idents loops) ->
    forall s s', R s s' ->
    rel_rs (run_loops F loops body s) (run_loops F (ren_loops loops) body' s').
  Proof.
    intros Hb. induction loops as [|[[ident lo] hi] ls IH]; intros Hf Pb Pi s s' HR; cbn [ren_loops map run_loops fst snd].
    - now apply Hb.
    - cbn [loops_funsyms loop_bound_vars loop_idents flat_map map fst snd] in Hf, Pb, Pi.
      apply fsafe_app in Hf. destruct Hf as [Hf Hfl]. apply fsafe_app in Hf. destruct Hf as [Hlo Hhi].
      rewrite !Forall_app in Pb. destruct Pb as [[Plo Phi] Pb]. apply Forall_cons_iff in Pi as [Pid Pi].
      fold (ren_loops ls).
      rewrite (eval_ren F r P lo s s' Hlo Plo HR). destruct (eval F s lo) as [r1 [vl|u]]; cbn [fst snd]; [|fin].
      rewrite (eval_ren F r P hi s s' Hhi Phi HR). destruct (eval F s hi) as [r2 [vh|u]]; cbn [fst snd]; [|fin].
      destruct (bound_int vl) as [a|u1]; [|fin].
      destruct (bound_int vh) as [b|u2]; [|fin].
      destruct (iter_range_ren _ _ (IH Hfl Pb Pi) ident Pid (Z.to_nat (b - a)) a s s' HR) as [acc res res' E]. fin.
  Qed.

  Variable g : bool.

  Lemma del_loopvars_ren : forall loops, Forall P (loop_idents loops) -> forall s s', R s s' ->
    rel_rs (del_loopvars g loops s) (del_loopvars g (ren_loops loops) s').
  Proof.
    induction loops as [|[[ident lo] hi] ls IH]; intros Pi s s' HR; cbn [ren_loops map del_loopvars fst snd]; [fin|].
    cbn [loop_idents map fst] in Pi. apply Forall_cons_iff in Pi as [Pid Pi].
    fold (ren_loops ls). rewrite (HR ident Pid). destruct (s ident) as [v|].
    - destruct (IH Pi _ _ (R_del s s' ident Pid HR)) as [a res res' E]. fin.
    - destruct g; [|fin]. destruct (IH Pi _ _ HR) as [a res res' E]. fin.
  Qed.

  Lemma assign_all_ren : forall xs vs s s', Forall P xs -> R s s' ->
    rel R (assign_all s xs vs) (assign_all s' (map r xs) vs).
  Proof.
    induction xs as [|x xs IH]; intros vs s s' Px HR; cbn [map assign_all]; [fin|].
    destruct vs as [|v vs]; [fin|]. apply Forall_cons_iff in Px as [Px Pxs].
    destruct (IH vs _ _ Pxs (R_upd s s' x v Px HR)) as [a s1 s1' H1]. fin.
  Qed.

  Lemma exec_kind_ren k s s' :
    fsafe (kind_funsyms k) -> Forall P (kind_reads true true k ++ kind_writes k ++ loopvars k) -> R s s' ->
    rel_out (exec_kind F g s k) (exec_kind F g s' (ren_kind true r k)).
  Proof.
    intros Hf HP HR. rewrite !Forall_app in HP. destruct HP as (Pr & Pw & Pl).
    destruct k as [x sb rhs loops|xs f args kw|comp tid time e| | | | ];
      cbn [ren_kind kind_funsyms kind_reads kind_writes loopvars] in *; try (cbn [exec_kind]; fin).
    - apply fsafe_app in Hf. destruct Hf as [Hs Hf]. apply fsafe_app in Hf. destruct Hf as [Hr Hl].
      rewrite !Forall_app in Pr. destruct Pr as (Prhs & Psub & Pb). apply Forall_cons_iff in Pw as [Px _].
      change (map _ loops) with (ren_loops loops). rewrite !exec_kind_assign.
      destruct (run_loops_ren _ _ (fun s0 s0' H0 => assign_once_ren s0 s0' x sb rhs H0 Hr Hs Prhs Psub Px)
                              loops Hl Pb Pl s s' HR) as [a ? ? [s1 s1' H1|u]]; [|fin].
      destruct (del_loopvars_ren loops Pl s1 s1' H1) as [a2 res res' E]. fin.
    - assert (Ef : r f = f) by (apply Hf; now left).
      assert (Hf' : fsafe (flat_map funsyms args ++ flat_map (fun p => funsyms (snd p)) kw)).
      { intros h Hh. apply Hf. now right. }
      apply fsafe_app in Hf'. destruct Hf' as [Ha Hk]. rewrite <- flat_map_map in Hk.
      rewrite Forall_app, <- (flat_map_map vars snd) in Pr. destruct Pr as [Pa Pk].
      assert (Ekw : map snd (map (fun p : string * expr => (fst p, ren r (snd p))) kw) = map (ren r) (map snd kw)).
      { rewrite !map_map. reflexivity. }
      assert (Ekn : map fst (map (fun p : string * expr => (fst p, ren r (snd p))) kw) = map fst kw).
      { rewrite !map_map. reflexivity. }
      cbn [exec_kind]. rewrite Ef, Ekw, Ekn, (eval_list_ren F r P args s s' Ha Pa HR).
      destruct (eval_list F s args) as [r1 [pos|u]]; cbn [fst snd]; [|fin].
      rewrite (eval_list_ren F r P (map snd kw) s s' Hk Pk HR).
      destruct (eval_list F s (map snd kw)) as [r2 [kws|u]]; cbn [fst snd]; [|fin].
      destruct (F f pos _) as [res|]; [|fin].
      destruct xs as [|x0 xs0]; cbn [map]; [fin|].
      change (r x0 :: map r xs0) with (map r (x0 :: xs0)). rewrite map_length.
      destruct (Nat.eqb _ _); [|fin].
      destruct (assign_all_ren (x0 :: xs0) res s s' Pw HR) as [a s1 s1' H1]. fin.
    - apply fsafe_app in Hf. destruct Hf as [Ht He]. rewrite Forall_app in Pr. destruct Pr as [Pe Pt]. cbn [exec_kind].
      rewrite (eval_ren F r P time s s' Ht Pt HR). destruct (eval F s time) as [r1 [t|u]]; cbn [fst snd]; [|fin].
      rewrite (eval_ren F r P e s s' He Pe HR). destruct (eval F s e) as [r2 [v|u]]; cbn [fst snd]; fin.
  Qed.

  Definition ren_stmt (st : stmt) : stmt :=
    {| sid := sid st; sdeps := sdeps st; scond := ren r (scond st); skd := ren_kind true r (skd st) |}.

  Theorem exec_stmt_ren st s s' :
    fsafe (funsyms (scond st) ++ kind_funsyms (skd st)) -> (forall y, FP st y -> P y) -> R s s' ->
    rel_out (exec_stmt F g s st) (exec_stmt F g s' (ren_stmt st)).
  Proof.
    intros Hf HP HR. apply fsafe_app in Hf. destruct Hf as [Hc Hk].
    unfold FP, reads, writes in HP. apply Forall_forall in HP. rewrite !Forall_app in HP. destruct HP as ((Pk & Pc) & Pw & Pl).
    unfold exec_stmt, ren_stmt. cbn [scond skd].
    rewrite (eval_ren F r P (scond st) s s' Hc Pc HR). destruct (eval F s (scond st)) as [rd v]. cbn [fst snd].
    destruct (rbind v _) as [[|]|u]; [|fin|fin].
    destruct (exec_kind_ren (skd st) s s' Hk ltac:(rewrite !Forall_app; auto) HR) as [a o o' E]. fin.
  Qed.
End RenStmt.

Lemma exec_kind_loops F g x sb rhs loops s : loops <> [] ->
  exec_kind F g s (KAssign x sb rhs loops) =
  let (a, res) := run_loops F loops (fun s0 => assign_once F s0 x sb rhs) s in
  match res with
  | Err u => (a, of_rs (Err u))
  | Ok s1 => let (a2, r2) := del_loopvars g loops s1 in (a ++ a2, of_rs r2)
  end.
Proof. intros _. apply exec_kind_assign. Qed.

Section RenRun.
  Variable F : string -> list val -> list (string * val) -> option (list val).
  Variable g : bool.
  Variable r : var -> var.
  Variable P : var -> Prop.
  Hypothesis r_inj : forall x y, P x -> P y -> r x = r y -> x = y.

  Definition st_rel (S S' : rstate) : Prop :=
    match S, S' with
    | RRun s e, RRun s' e' => R r P s s' /\ e = e'
    | RStop s e w, RStop s' e' w' => R r P s s' /\ e = e' /\ w = w'
    | RCrash u e, RCrash u' e' => u = u' /\ e = e'
    | _, _ => False
    end.

  Definition stmt_ok (st : stmt) : Prop :=
    fsafe r (funsyms (scond st) ++ kind_funsyms (skd st)) /\ forall y, FP st y -> P y.

  Lemma step_ren st S S' : stmt_ok st -> st_rel S S' ->
    st_rel (step F g st S) (step F g (ren_stmt r st) S').
  Proof.
    intros [Hf HP] H. destruct S as [s e|s e w|u], S' as [s' e'|s' e' w'|u']; cbn in H; try contradiction;
      cbn [step]; try exact H.
    destruct H as [HR <-].
    destruct (exec_stmt_ren F r P r_inj g st s s' Hf HP HR) as [a o o' E]. cbn [snd].
    destruct E; cbn; auto.
  Qed.

  Lemma run_list_ren : forall l S S', Forall stmt_ok l -> st_rel S S' ->
    st_rel (run_list F g l S) (run_list F g (map (ren_stmt r) l) S').
  Proof.
    induction l as [|st l IH]; intros S S' Hf H; [exact H|].
    inversion Hf as [|? ? Hst Hl]; subst. cbn [map run_list fold_left].
    apply IH; [exact Hl|]. now apply step_ren.
  Qed.
End RenRun.

Definition agree_on (r1 r2 : var -> var) : list var -> Prop := Forall (fun x => r1 x = r2 x).

Lemma ren_ext r1 r2 e :
  agree_on r1 r2 (vars e) -> agree_on r1 r2 (funsyms e) -> ren r1 e = ren r2 e.
Proof.
  unfold agree_on.
  induction e as [z|b| |x|a IH|c t e C T E|o a b A B|o l IH] using expr_ind'; cbn [ren vars funsyms];
    intros Hv Hf; try reflexivity.
  - now rewrite (Forall_inv Hv).
  - now rewrite IH.
  - apply Forall_app in Hv as [Hc Hv], Hf as [Fc Hf]. apply Forall_app in Hv as [Ht He], Hf as [Ft Fe].
    now rewrite C, T, E.
  - apply Forall_app in Hv as [Ha Hb], Hf as [Fa Fb]. now rewrite A, B.
  - apply Forall_app in Hf as [Ho Hf]. rewrite Forall_flat_map in Hv, Hf. f_equal.
    + destruct o; try reflexivity. cbn [ren_nop]. now rewrite (Forall_inv Ho).
    + apply map_ext_Forall. induction IH as [|e l He _ IHl]; constructor;
        inversion Hv; inversion Hf; auto.
Qed.

Lemma ren_kind_ext r1 r2 k :
  agree_on r1 r2 (kind_reads true true k) -> agree_on r1 r2 (kind_writes k) ->
  agree_on r1 r2 (loopvars k) -> agree_on r1 r2 (kind_funsyms k) ->
  ren_kind true r1 k = ren_kind true r2 k.
Proof.
  unfold agree_on.
  destruct k as [x sb rhs loops|xs f args kw|comp tid time e| | | | ];
    cbn [ren_kind kind_reads kind_writes loopvars kind_funsyms]; intros Hr Hw Hl Hf; try reflexivity.
  - apply Forall_app in Hr as [Rr Hr], Hf as [Fs Hf]. apply Forall_app in Hr as [Rs Rl], Hf as [Fr Fl].
    rewrite Forall_flat_map in Rl, Fl. rewrite Forall_map in Hl. rewrite Forall_forall in Rl, Fl, Hl.
    f_equal.
    + exact (Forall_inv Hw).
    + destruct sb as [ie|]; [cbn [option_map]; f_equal; now apply ren_ext | reflexivity].
    + now apply ren_ext.
    + apply map_ext_in. intros [[i lo] hi] Hin. cbn [fst snd].
      specialize (Rl _ Hin). specialize (Fl _ Hin). specialize (Hl _ Hin). cbn [fst snd] in Rl, Fl, Hl.
      apply Forall_app in Rl as [? ?], Fl as [? ?].
      rewrite Hl, (ren_ext r1 r2 lo), (ren_ext r1 r2 hi); auto.
  - apply Forall_app in Hr as [Ra Rk]. inversion Hf as [|? ? Ff Hf']; subst.
    apply Forall_app in Hf' as [Fa Fk]. rewrite Forall_flat_map in Ra, Rk, Fa, Fk.
    rewrite Forall_forall in Ra, Rk, Fa, Fk. f_equal.
    + now apply map_ext_Forall.
    + exact Ff.
    + apply map_ext_in. intros e He. apply ren_ext; [exact (Ra _ He) | exact (Fa _ He)].
    + apply map_ext_in. intros [n e] He. cbn [fst snd]. f_equal.
      apply ren_ext; [exact (Rk _ He) | exact (Fk _ He)].
  - apply Forall_app in Hr as [? ?], Hf as [? ?]. f_equal; now apply ren_ext.
Qed.

Lemma FP_ren r st x : FP (ren_stmt r st) x -> exists y, FP st y /\ x = r y.
Proof.
  unfold FP, ren_stmt, reads, writes. cbn [skd scond].
  rewrite kind_reads_ren, vars_ren, kind_writes_ren, loopvars_ren, <- !map_app.
  intros H. apply in_map_iff in H. destruct H as (y & <- & Hy). eauto.
Qed.
Lemma WL_ren r st x : WL (ren_stmt r st) x -> exists y, WL st y /\ x = r y.
Proof.
  unfold WL, ren_stmt, writes. cbn [skd].
  rewrite kind_writes_ren, loopvars_ren, <- !map_app.
  intros H. apply in_map_iff in H. destruct H as (y & <- & Hy). eauto.
Qed.

Lemma merge_nil_r {A} (l : list A) : merge l [] l.
Proof. induction l; constructor; auto. Qed.
Lemma merge_nil_l {A} (l : list A) : merge [] l l.
Proof. induction l; constructor; auto. Qed.
Lemma merge_app_l {A} (a b c d : list A) : merge a b c -> merge (a ++ d) b (c ++ d).
Proof. induction 1; cbn [app]; try (constructor; assumption). apply merge_nil_r. Qed.
Lemma merge_app_r {A} (a b c d : list A) : merge a b c -> merge a (b ++ d) (c ++ d).
Proof. induction 1; cbn [app]; try (constructor; assumption). apply merge_nil_l. Qed.

Lemma merge_app {A} (l1 l2 : list A) : merge l1 l2 (l1 ++ l2).
Proof. induction l1 as [|x l1 IH]; cbn [app]; [apply merge_nil_l|constructor; exact IH]. Qed.
Lemma merge_map {A B} (f : A -> B) a b c : merge a b c -> merge (map f a) (map f b) (map f c).
Proof. induction 1; cbn [map]; constructor; assumption. Qed.
Lemma filter_merge {A} (p : A -> bool) l : merge (filter p l) (filter (fun x => negb (p x)) l) l.
Proof.
  induction l as [|x l IH]; cbn [filter]; [constructor|].
  destruct (p x); cbn [negb]; constructor; exact IH.
Qed.

Section Merge.
  Variable F : string -> list val -> list (string * val) -> option (list val).
  Variable g : bool.
  Notation run_list := (run_list F g).

  Definition evl (ev : option event) : list event := match ev with Some e => [e] | None => [] end.

  Lemma run_list_cons st l S : run_list (st :: l) S = run_list l (step F g st S).
  Proof. reflexivity. Qed.
  Lemma run_list_app l1 l2 S : run_list (l1 ++ l2) S = run_list l2 (run_list l1 S).
  Proof. apply fold_left_app. Qed.

  Lemma run_cons_inv st l s e s' e' :
    run_list (st :: l) (RRun s e) = RRun s' e' ->
    exists acc s1 ev, exec_stmt F g s st = (acc, ONext s1 ev) /\ run_list l (RRun s1 (e ++ evl ev)) = RRun s' e'.
  Proof.
    rewrite run_list_cons. cbn [step]. destruct (exec_stmt F g s st) as [acc [s1 ev| | p| k| | ]]; cbn [snd];
      rewrite ?run_list_stop, ?run_list_crash; try discriminate.
    intros H. exists acc, s1, ev. split; [reflexivity|exact H].
  Qed.

  (* footprint and write set of each list *)
  Variables FA WA FB WB : var -> Prop.
  Hypothesis HAB : forall x, FA x -> ~ WB x.
  Hypothesis HBA : forall x, FB x -> ~ WA x.
  Definition covers (Fp Wp : var -> Prop) (l : list stmt) : Prop :=
    forall st, In st l -> (forall x, FP st x -> Fp x) /\ (forall x, WL st x -> Wp x).

  (* The first step of a list with footprint Fp, done inside a store sF that agrees on Fp with the
     store sX the list runs in alone. *)
  Lemma step_sim (Fp Wp : var -> Prop) st l sX eX sX' eX' sF eF :
    (forall x, FP st x -> Fp x) -> (forall x, WL st x -> Wp x) ->
    (forall x, Fp x -> sF x = sX x) ->
    run_list (st :: l) (RRun sX eX) = RRun sX' eX' ->
    exists sX1 ev sF1,
      run_list l (RRun sX1 (eX ++ evl ev)) = RRun sX' eX' /\
      (forall L, run_list (st :: L) (RRun sF eF) = run_list L (RRun sF1 (eF ++ evl ev))) /\
      (forall x, Fp x -> sF1 x = sX1 x) /\ (forall x, ~ Wp x -> sF1 x = sF x).
  Proof.
    intros Hfp Hwl Hag RX. destruct (run_cons_inv st l sX eX sX' eX' RX) as (acc & sX1 & ev & E & RX').
    pose proof (exec_stmt_fp F g Fp st Hfp sF sX Hag) as H. rewrite E in H.
    destruct (exec_stmt F g sF st) as [acc' o'] eqn:E'.
    (* fpo_rel: both runs go on, the first (in sF) changing its store on WL st only, and the new stores
       agree on Fp; or both halt alike, which the run in sX does not *)
    inversion H as [? sF1 ? ? _ Hu Hagree|? ? _ N]; subst; [|destruct (N _ _ eq_refl)].
    exists sX1, ev, sF1. repeat split.
    - exact RX'.
    - intros L. rewrite run_list_cons. cbn [step]. rewrite E'. reflexivity.
    - exact Hagree.
    - intros x Hx. apply Hu. intros Hw. apply Hx. now apply Hwl.
  Qed.

  (* Each list sees, on its footprint, the store it would see alone: the invariant of any interleaving. *)
  Theorem merge_sim : forall la lb l, merge la lb l -> covers FA WA la -> covers FB WB lb ->
    forall sA sB sF eA eB eF sA' eA' sB' eB',
      (forall x, FA x -> sF x = sA x) -> (forall x, FB x -> sF x = sB x) -> merge eA eB eF ->
      run_list la (RRun sA eA) = RRun sA' eA' -> run_list lb (RRun sB eB) = RRun sB' eB' ->
      exists sF' eF', run_list l (RRun sF eF) = RRun sF' eF' /\
                      (forall x, FA x -> sF' x = sA' x) /\ (forall x, FB x -> sF' x = sB' x) /\
                      merge eA' eB' eF'.
  Proof.
    induction 1 as [|st la lb l M IH|st la lb l M IH]; intros CA CB sA sB sF eA eB eF sA' eA' sB' eB' I1 I2 ME RA RB.
    - cbn in RA, RB. injection RA as <- <-. injection RB as <- <-. exists sF, eF. cbn. auto.
    - destruct (CA st (or_introl eq_refl)) as [Hfp Hwl].
      destruct (step_sim FA WA st la sA eA sA' eA' sF eF Hfp Hwl I1 RA) as (sA1 & ev & sF1 & RA' & RF & J1 & J2).
      rewrite RF. apply (IH (fun s H => CA s (or_intror H)) CB sA1 sB sF1 (eA ++ evl ev) eB); auto using merge_app_l.
      intros x Hx. rewrite J2 by now apply HBA. now apply I2.
    - destruct (CB st (or_introl eq_refl)) as [Hfp Hwl].
      destruct (step_sim FB WB st lb sB eB sB' eB' sF eF Hfp Hwl I2 RB) as (sB1 & ev & sF1 & RB' & RF & J1 & J2).
      rewrite RF. apply (IH CA (fun s H => CB s (or_intror H)) sA sB1 sF1 eA (eB ++ evl ev)); auto using merge_app_r.
      intros x Hx. rewrite J2 by now apply HAB. now apply I1.
  Qed.
End Merge.

Lemma sub_cons c n m x : sub ((c, n) :: m) x = if String.eqb x c then n else sub m x.
Proof. unfold sub. cbn [slookup]. destruct (String.eqb x c); reflexivity. Qed.

(* get_all_used_identifiers leaves loop identifiers out, so a loop variable that its statement neither
   reads nor writes need not be a clash: it can stay shared, and the loop of one method then deletes it
   under the other.  Run equivalence is stated for methods without such a loop variable. *)
Definition loops_used (l : list fstmt) : Prop :=
  forall st, In st l -> incl (loopvars (fkd st)) (freads true true st ++ fwrites st).
Definition wl (l : list fstmt) (x : var) : Prop := exists st, In st l /\ WL (lower st) x.

Lemma in_idents l st x : In st l -> In x (freads true true st ++ fwrites st) -> In x (idents true true l).
Proof. intros Hs Hx. unfold idents. apply in_flat_map. eauto. Qed.

Lemma FP_idents l st x : loops_used l -> In st l -> FP (lower st) x -> In x (idents true true l).
Proof.
  intros Lu Hs H. unfold FP in H. rewrite app_assoc, in_app_iff in H. destruct H as [H|H].
  - eapply in_idents; [exact Hs|exact H].
  - eapply in_idents; [exact Hs|]. apply (Lu st Hs). exact H.
Qed.
Lemma WL_idents l st x : loops_used l -> In st l -> WL (lower st) x -> In x (idents true true l).
Proof.
  intros Lu Hs H. eapply FP_idents; eauto. unfold FP, WL in *. rewrite !in_app_iff in *. tauto.
Qed.

Section RunEquiv.
  Variable F : string -> list val -> list (string * val) -> option (list val).
  Variable g : bool.
  Variable pred : var -> bool.
  Variables (clash : list var) (a b : list fstmt) (m : smap).
  Hypothesis Hm : subst_of true true pred clash a b = Some m.
  Hypothesis Hc : clash_enum (idents true true a) (idents true true b) clash.
  Hypothesis La : loops_used a.
  Hypothesis Lb : loops_used b.
  Hypothesis Hfun : forall st f, In st b -> In f (stmt_funsyms st) -> ~ In f (map fst m) /\ ~ In f (map snd m).
  Hypothesis Hnsw : forall x, In x (idents true true a) -> In x (idents true true b) -> pred x = false ->
                              ~ wl a x /\ ~ wl b x.
  Variable sg : store.
  Hypothesis Hsg : forall c n, In (c, n) m -> sg c = None /\ sg n = None.

  Notation ida := (idents true true a).
  Notation idb := (idents true true b).
  Notation fused st := (lower (rename_stmt true true (sub m) st)).
  Notation inb := (fun x => In x idb).

  (* the substitution is injective on the names of the second method, which is all the renaming lemma asks *)
  Lemma sub_inj_b x y : In x idb -> In y idb -> sub m x = sub m y -> x = y.
  Proof. intros Hx Hy. apply (sub_inj _ _ _ _ _ _ _ Hm); apply in_or_app; now right. Qed.

  Lemma sg_renamed : R (sub m) inb sg sg.
  Proof.
    intros x _. destruct (in_dec string_dec x (map fst m)) as [I|I]; [|now rewrite sub_notin].
    destruct (Hsg _ _ (sub_in m x I)) as [-> ->]. reflexivity.
  Qed.

  Lemma lower_ok st : In st b -> stmt_ok (sub m) inb (lower st).
  Proof.
    intros Hs. split.
    - intros f Hf. apply sub_notin. now apply (Hfun st f Hs).
    - intros y. now apply FP_idents.
  Qed.

  (* what the renamed second method may touch, and what it may write *)
  Definition fp_b (x : var) : Prop := exists y, In y idb /\ x = sub m y.
  Definition wr_b (x : var) : Prop := exists y, wl b y /\ x = sub m y.

  Lemma wl_idents l x : loops_used l -> wl l x -> In x (idents true true l).
  Proof. intros Lu (st & Hs & H). eapply WL_idents; eauto. Qed.

  (* a name of the first method that is the image of a name of the second is a kept one, which neither writes *)
  Lemma shared_unwritten x y : In x ida -> In y idb -> x = sub m y -> ~ wl a x /\ ~ wl b y.
  Proof. intros Hx Hy E. destruct (shared_kept _ _ _ _ _ _ _ Hm Hc x y Hx Hy E) as [-> P]. auto. Qed.
  Lemma ida_not_wr_b x : In x ida -> ~ wr_b x.
  Proof. intros Hx (y & Hw & E). exact (proj2 (shared_unwritten x y Hx (wl_idents b y Lb Hw) E) Hw). Qed.
  Lemma fp_b_not_wl_a x : fp_b x -> ~ wl a x.
  Proof. intros (y & Hy & E) Hw. exact (proj1 (shared_unwritten x y (wl_idents a x La Hw) Hy E) Hw). Qed.

  Lemma covers_a la : incl la a -> covers (fun x => In x ida) (wl a) (map lower la).
  Proof.
    intros Ia st0 H0. apply in_map_iff in H0 as (st & <- & Hs). split; intros x Hx.
    - exact (FP_idents a st x La (Ia st Hs) Hx).
    - exists st. split; [exact (Ia st Hs)|exact Hx].
  Qed.
  Lemma covers_b lb : incl lb b -> covers fp_b wr_b (map (ren_stmt (sub m)) (map lower lb)).
  Proof.
    intros Ib st0 H0. rewrite map_map in H0. apply in_map_iff in H0 as (st & <- & Hs). split; intros x Hx.
    - apply FP_ren in Hx as (y & Hy & ->). exists y. split; [exact (FP_idents b st y Lb (Ib st Hs) Hy)|reflexivity].
    - apply WL_ren in Hx as (y & Hy & ->). exists y. split; [exists st; split; [exact (Ib st Hs)|exact Hy]|reflexivity].
  Qed.

  (* Run equivalence as an invariant: the fused phase, started in a store that holds the first method's
     names as sA0 does and the second method's names, renamed, as sB0 does, ends in such a store again. *)
  Theorem run_equiv_from sA0 sB0 sF0 eA0 eB0 eF0 :
    (forall x, In x ida -> sF0 x = sA0 x) -> (forall x, In x idb -> sF0 (sub m x) = sB0 x) -> merge eA0 eB0 eF0 ->
    forall (la lb : list fstmt) (L : list stmt) sA eA sB eB,
      incl la a -> incl lb b ->
      merge (map lower la) (map (fun st => fused st) lb) L ->
      run_list F g (map lower la) (RRun sA0 eA0) = RRun sA eA ->
      run_list F g (map lower lb) (RRun sB0 eB0) = RRun sB eB ->
      exists sF eF,
        run_list F g L (RRun sF0 eF0) = RRun sF eF /\
        (forall x, In x ida -> sF x = sA x) /\
        (forall x, In x idb -> sF (sub m x) = sB x) /\
        merge eA eB eF.
  Proof.
    intros IA IB ME la lb L sA eA sB eB Ia Ib M RA RB.
    change (map (fun st => fused st) lb) with (map (fun st => ren_stmt (sub m) (lower st)) lb) in M.
    rewrite <- (map_map lower (ren_stmt (sub m)) lb) in M.
    (* the second method alone, renamed, from the store of the fused phase *)
    assert (Hok : Forall (stmt_ok (sub m) inb) (map lower lb)).
    { apply Forall_map, Forall_forall. intros st Hs. apply lower_ok, Ib, Hs. }
    pose proof (run_list_ren F g (sub m) inb sub_inj_b (map lower lb) (RRun sB0 eB0) (RRun sF0 eB0) Hok (conj IB eq_refl)) as Hr.
    rewrite RB in Hr. destruct (run_list F g (map (ren_stmt (sub m)) (map lower lb)) (RRun sF0 eB0)) as [sB' eB'| |] eqn:RB';
      cbn in Hr; try contradiction. destruct Hr as [HR <-].
    destruct (merge_sim F g (fun x => In x ida) (wl a) fp_b wr_b ida_not_wr_b fp_b_not_wl_a _ _ _ M (covers_a la Ia) (covers_b lb Ib)
                        sA0 sF0 sF0 eA0 eB0 eF0 sA eA sB' eB IA (fun _ _ => eq_refl) ME RA RB')
      as (sF & eF & RF & K1 & K2 & K3).
    exists sF, eF. repeat split; auto.
    intros x Hx. rewrite K2 by (exists x; auto). exact (HR x Hx).
  Qed.

  Theorem run_equiv :
    forall (la lb : list fstmt) (L : list stmt) sA eA sB eB,
      incl la a -> incl lb b ->
      merge (map lower la) (map (fun st => fused st) lb) L ->
      run_list F g (map lower la) (RRun sg []) = RRun sA eA ->
      run_list F g (map lower lb) (RRun sg []) = RRun sB eB ->
      exists sF eF,
        run_list F g L (RRun sg []) = RRun sF eF /\
        (forall x, In x ida -> sF x = sA x) /\
        (forall x, In x idb -> sF (sub m x) = sB x) /\
        merge eA eB eF.
  Proof. exact (run_equiv_from sg sg sg [] [] [] (fun _ _ => eq_refl) (fun x Hx => sg_renamed x Hx) merge_nil). Qed.

  Lemma kept_of_renamed (sF sB : store) :
    (forall x, In x idb -> sF (sub m x) = sB x) -> forall x, In x idb -> pred x = false -> sF x = sB x.
  Proof.
    intros K x Hx P. rewrite <- (sub_kept _ _ _ _ _ _ _ Hm Hc x P) at 1. now apply K.
  Qed.

  Corollary run_equiv_kept :
    forall (la lb : list fstmt) (L : list stmt) sA eA sB eB,
      incl la a -> incl lb b ->
      merge (map lower la) (map (fun st => fused st) lb) L ->
      run_list F g (map lower la) (RRun sg []) = RRun sA eA ->
      run_list F g (map lower lb) (RRun sg []) = RRun sB eB ->
      exists sF eF,
        run_list F g L (RRun sg []) = RRun sF eF /\
        (forall x, In x ida -> sF x = sA x) /\
        (forall x, In x idb -> pred x = false -> sF x = sB x) /\
        merge eA eB eF.
  Proof.
    intros la lb L sA eA sB eB Ia Ib M RA RB.
    destruct (run_equiv la lb L sA eA sB eB Ia Ib M RA RB) as (sF & eF & RF & K1 & K2 & K3).
    exists sF, eF. auto using kept_of_renamed.
  Qed.
End RunEquiv.

Lemma Forall2_in_r {A B} (P : A -> B -> Prop) l l' y :
  Forall2 P l l' -> In y l' -> exists x, In x l /\ P x y.
Proof.
  induction 1 as [|x0 y0 l l' H0 _ IH]; intros Hy; [destruct Hy|].
  destruct Hy as [<-|Hy]; [exists x0; split; [now left|exact H0]|].
  destruct (IH Hy) as (x & Hx & Hp). exists x. split; [now right|exact Hp].
Qed.

Lemma incl_map_inv {A B} (f : A -> B) l l' : incl l' (map f l) -> exists l0, incl l0 l /\ map f l0 = l'.
Proof.
  induction l' as [|y l' IH]; intros H; [exists []; split; [intros x []|reflexivity]|].
  destruct (IH (fun x Hx => H x (or_intror Hx))) as (l0 & Il & E).
  destruct (proj1 (in_map_iff f l y) (H y (or_introl eq_refl))) as (x & Ex & Hx).
  exists (x :: l0). split; [intros z [<-|Hz]; auto|]. cbn [map]. now rewrite E, Ex.
Qed.

(* the fused phase, repaired shape: first method, then the renamed second method *)
Lemma fuse_stmts_lower pred clash a b l m :
  fuse_stmts true true true true pred clash a b = FOk l -> subst_of true true pred clash a b = Some m ->
  exists b', l = a ++ b' /\ map lower b' = map (fun st => lower (rename_stmt true true (sub m) st)) b /\
             (forall x, In x (map fid b') -> ~ In x (map fid a)).
Proof.
  intros H Hm. destruct (fuse_stmts_spec _ _ _ _ _ _ _ _ _ H) as (m' & idm & b' & Hm' & -> & F2 & _ & _ & _ & D).
  rewrite Hm in Hm'. injection Hm' as <-. exists b'. repeat split; auto.
  clear -F2. induction F2 as [|st st' b b' R _ IH]; [reflexivity|]. destruct (relabeled_same _ _ _ R) as [Hc Hk].
  cbn [map]. rewrite IH. unfold lower. now rewrite Hc, Hk.
Qed.

(* a schedule of the fused phase is an interleaving of a schedule of each method *)
Lemma sched_split (f : fstmt -> stmt) a b b' Lf :
  map lower b' = map f b ->
  (forall x, In x (map fid b') -> ~ In x (map fid a)) ->
  incl Lf (a ++ b') ->
  exists la lb, incl la a /\ incl lb b /\
                la = filter (fun st => mem (fid st) (map fid a)) Lf /\
                merge (map lower la) (map f lb) (map lower Lf).
Proof.
  intros E D I. set (p := fun st => mem (fid st) (map fid a)).
  assert (Ia : incl (filter p Lf) a).
  { intros st Hs. apply filter_In in Hs. destruct Hs as [Hl Hp]. unfold p in Hp. apply mem_In in Hp.
    specialize (I st Hl). rewrite in_app_iff in I. destruct I as [I|I]; [exact I|].
    exfalso. apply (D (fid st)); [now apply in_map|exact Hp]. }
  assert (Ib : incl (filter (fun x => negb (p x)) Lf) b').
  { intros st Hs. apply filter_In in Hs. destruct Hs as [Hl Hp]. unfold p in Hp.
    destruct (mem (fid st) (map fid a)) eqn:E0; [discriminate|]. apply mem_false in E0.
    specialize (I st Hl). rewrite in_app_iff in I. destruct I as [I|I]; [|exact I].
    exfalso. apply E0. now apply in_map. }
  destruct (incl_map_inv f b (map lower (filter (fun x => negb (p x)) Lf))) as (lb & Il & El);
    [rewrite <- E; apply incl_map, Ib|].
  exists (filter p Lf), lb. repeat split; auto. rewrite El. apply merge_map, filter_merge.
Qed.

(* the predicate the property demands: the caller's, by default persistent names are kept *)
Definition want (is_state : var -> bool) (p : option (var -> bool)) : var -> bool :=
  match p with Some f => f | None => fun x => negb (is_state x) end.

(* persistent variables, time and step size are not renamed; a name is renamed iff both methods
   use it and the (effective) predicate asks *)
Definition stmt_policy (is_state : var -> bool) (pr : bool) : Prop :=
  forall p clash a b m,
    clash_enum (idents true true a) (idents true true b) clash ->
    subst_of true true (eff_pred is_state pr p) clash a b = Some m ->
    forall x, sub m x <> x <-> (In x (idents true true a) /\ In x (idents true true b)) /\ want is_state p x = true.

(* names the two parts of the fused phase share are names the predicate keeps *)
Definition stmt_disjoint (is_state : var -> bool) (pr gd : bool) : Prop :=
  forall p lv clash a b l,
    clash_enum (idents true true a) (idents true true b) clash ->
    fuse_stmts true true gd lv (eff_pred is_state pr p) clash a b = FOk l ->
    exists b', l = a ++ b' /\
      forall y, In y (idents true true a) -> In y (idents true true b') ->
                In y (idents true true b) /\ want is_state p y = false.

(* h_store asks more than the proof uses (run_hyps_unpack needs it of the renamed names only): every
   name the predicate would rename, shared or not, is absent from the start store. *)
Record run_hyps (is_state : var -> bool) (p : option (var -> bool)) (a b : list fstmt) (m : smap) (sg : store)
  : Prop := {
  h_loops_a : loops_used a;
  h_loops_b : loops_used b;
  (* function symbols of the second method are neither variable names nor generated names *)
  h_fun : forall st f, In st b -> In f (stmt_funsyms st) ->
                       ~ In f (idents true true a ++ idents true true b) /\ ~ In f (map snd m);
  (* neither method writes a kept name the other one uses *)
  h_nsw : forall x, In x (idents true true a) -> In x (idents true true b) -> want is_state p x = false ->
                    ~ wl a x /\ ~ wl b x;
  (* the step starts from a store holding only kept names, and none of the generated names *)
  h_store : forall x, want is_state p x = true -> sg x = None;
  h_store_new : forall c n, In (c, n) m -> sg n = None }.

(* executing the fused phase (in program order) gives each method the results of running it alone *)
Definition stmt_run_equiv (is_state : var -> bool) (pr gd lv : bool) : Prop :=
  forall F g p clash a b l m sg sA eA sB eB,
    clash_enum (idents true true a) (idents true true b) clash ->
    fuse_stmts true true gd lv (eff_pred is_state pr p) clash a b = FOk l ->
    subst_of true true (eff_pred is_state pr p) clash a b = Some m ->
    run_hyps is_state p a b m sg ->
    run_list F g (map lower a) (RRun sg []) = RRun sA eA ->
    run_list F g (map lower b) (RRun sg []) = RRun sB eB ->
    exists sF eF,
      run_list F g (map lower l) (RRun sg []) = RRun sF eF /\
      (forall x, In x (idents true true a) -> sF x = sA x) /\
      (forall x, In x (idents true true b) -> want is_state p x = false -> sF x = sB x) /\
      merge eA eB eF.

Lemma eff_pred_true is_state p : eff_pred is_state true p = want is_state p.
Proof. destruct p; reflexivity. Qed.

Theorem policy_holds is_state : stmt_policy is_state true.
Proof.
  intros p clash a b m Hc Hm x. rewrite eff_pred_true in Hm.
  exact (sub_renamed _ _ _ _ _ _ _ Hm Hc x).
Qed.

Theorem disjoint_holds is_state : stmt_disjoint is_state true true.
Proof.
  intros p lv clash a b l Hc H. rewrite eff_pred_true in H.
  exact (temporaries_disjoint _ _ _ _ _ _ _ _ H Hc).
Qed.

(* run_hyps in the terms of Section RunEquiv *)
Lemma run_hyps_unpack is_state p clash a b m sg :
  clash_enum (idents true true a) (idents true true b) clash ->
  subst_of true true (want is_state p) clash a b = Some m ->
  run_hyps is_state p a b m sg ->
  (forall st f, In st b -> In f (stmt_funsyms st) -> ~ In f (map fst m) /\ ~ In f (map snd m)) /\
  (forall c n, In (c, n) m -> sg c = None /\ sg n = None).
Proof.
  intros Hc Hm [_ _ Hf _ Hs Hsn]. pose proof (subst_dom _ _ _ _ _ _ _ Hm Hc) as Hd. split.
  - intros st f Hst Hf0. destruct (Hf st f Hst Hf0) as [H1 H2]. split; [|exact H2].
    intros Hin. apply Hd in Hin. apply H1. rewrite in_app_iff. tauto.
  - intros c n Hin. split; [|exact (Hsn c n Hin)].
    apply Hs. apply (in_map fst) in Hin. apply Hd in Hin. tauto.
Qed.

Theorem run_equiv_hyps is_state F g p clash a b m sg :
  clash_enum (idents true true a) (idents true true b) clash ->
  subst_of true true (want is_state p) clash a b = Some m ->
  run_hyps is_state p a b m sg ->
  forall la lb L sA eA sB eB,
    incl la a -> incl lb b ->
    merge (map lower la) (map (fun st => lower (rename_stmt true true (sub m) st)) lb) L ->
    run_list F g (map lower la) (RRun sg []) = RRun sA eA ->
    run_list F g (map lower lb) (RRun sg []) = RRun sB eB ->
    exists sF eF,
      run_list F g L (RRun sg []) = RRun sF eF /\
      (forall x, In x (idents true true a) -> sF x = sA x) /\
      (forall x, In x (idents true true b) -> sF (sub m x) = sB x) /\
      (forall x, In x (idents true true b) -> want is_state p x = false -> sF x = sB x) /\
      merge eA eB eF.
Proof.
  intros Hc Hm Hy la lb L sA eA sB eB Ia Ib M RA RB.
  destruct (run_hyps_unpack _ _ _ _ _ _ _ Hc Hm Hy) as [Hfun Hsg]. destruct Hy as [La Lb _ Hn _ _].
  destruct (run_equiv F g _ clash a b m Hm Hc La Lb Hfun Hn sg Hsg la lb L sA eA sB eB Ia Ib M RA RB)
    as (sF & eF & RF & K1 & K2 & K3).
  exists sF, eF. repeat split; auto. now apply (kept_of_renamed _ clash a b m Hm Hc).
Qed.

(* Every list Lf of statements of the fused phase is an interleaving of a list la of statements of the
   first method (those of Lf with an id of a) and the renamed image of a list lb of statements of the
   second; if la and lb complete alone, Lf completes with their results. *)
Theorem run_equiv_all_interleaved is_state :
  forall F g p clash a b l m sg,
    clash_enum (idents true true a) (idents true true b) clash ->
    fuse_stmts true true true true (eff_pred is_state true p) clash a b = FOk l ->
    subst_of true true (eff_pred is_state true p) clash a b = Some m ->
    run_hyps is_state p a b m sg ->
    forall Lf, incl Lf l ->
    exists la lb,
      incl la a /\ incl lb b /\ la = filter (fun st => mem (fid st) (map fid a)) Lf /\
      merge (map lower la) (map (fun st => lower (rename_stmt true true (sub m) st)) lb) (map lower Lf) /\
      forall sA eA sB eB,
        run_list F g (map lower la) (RRun sg []) = RRun sA eA ->
        run_list F g (map lower lb) (RRun sg []) = RRun sB eB ->
        exists sF eF,
          run_list F g (map lower Lf) (RRun sg []) = RRun sF eF /\
          (forall x, In x (idents true true a) -> sF x = sA x) /\
          (forall x, In x (idents true true b) -> sF (sub m x) = sB x) /\
          (forall x, In x (idents true true b) -> want is_state p x = false -> sF x = sB x) /\
          merge eA eB eF.
Proof.
  intros F g p clash a b l m sg Hc H Hm Hy Lf IL. rewrite eff_pred_true in H, Hm.
  destruct (fuse_stmts_lower _ _ _ _ _ _ H Hm) as (b' & -> & E & D).
  destruct (sched_split _ a b b' Lf E D IL) as (la & lb & Ia & Ib & Ela & M).
  exists la, lb. repeat split; auto. intros sA eA sB eB.
  now apply (run_equiv_hyps is_state F g p clash a b m sg).
Qed.

Theorem run_equiv_all is_state :
  forall F g p clash a b l m sg,
    clash_enum (idents true true a) (idents true true b) clash ->
    fuse_stmts true true true true (eff_pred is_state true p) clash a b = FOk l ->
    subst_of true true (eff_pred is_state true p) clash a b = Some m ->
    run_hyps is_state p a b m sg ->
    forall Lf, incl Lf l ->
    exists la lb,
      incl la a /\ incl lb b /\ la = filter (fun st => mem (fid st) (map fid a)) Lf /\
      forall sA eA sB eB,
        run_list F g (map lower la) (RRun sg []) = RRun sA eA ->
        run_list F g (map lower lb) (RRun sg []) = RRun sB eB ->
        exists sF eF,
          run_list F g (map lower Lf) (RRun sg []) = RRun sF eF /\
          (forall x, In x (idents true true a) -> sF x = sA x) /\
          (forall x, In x (idents true true b) -> sF (sub m x) = sB x) /\
          (forall x, In x (idents true true b) -> want is_state p x = false -> sF x = sB x) /\
          merge eA eB eF.
Proof.
  intros F g p clash a b l m sg Hc H Hm Hy Lf IL.
  destruct (run_equiv_all_interleaved is_state F g p clash a b l m sg Hc H Hm Hy Lf IL) as (la & lb & Ia & Ib & Ela & _ & K).
  exists la, lb. auto.
Qed.

Theorem run_equiv_holds is_state : stmt_run_equiv is_state true true true.
Proof.
  intros F g p clash a b l m sg sA eA sB eB Hc H Hm Hy RA RB.
  rewrite eff_pred_true in H, Hm.
  destruct (fuse_stmts_lower _ _ _ _ _ _ H Hm) as (b' & -> & E & D).
  (* in program order the two schedules are the two methods themselves *)
  rewrite map_app, E.
  destruct (run_equiv_hyps is_state F g p clash a b m sg Hc Hm Hy a b _ sA eA sB eB
                           (incl_refl _) (incl_refl _) (merge_app _ _) RA RB) as (sF & eF & RF & K1 & _ & K2 & K3).
  exists sF, eF. auto.
Qed.
