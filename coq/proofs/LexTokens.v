(* C19 -- one step of the lexer on the text of a token followed by anything that does not merge
   with it: lex_step (tok_str t ++ s) = SNext t s. *)
From Coq Require Import List ZArith NArith String Ascii Bool Arith Lia DecimalString DecimalN DecimalFacts.
Import ListNotations.
From Dagrt Require Import GenC19 Print Parse.
Open Scope string_scope.
Open Scope nat_scope.

Definition first_char (s : string) : option ascii :=
  match s with String c _ => Some c | EmptyString => None end.
Definition ocheck (f : ascii -> bool) (o : option ascii) : bool :=
  match o with Some c => f c | None => false end.

(* t, followed by a text starting with c (None = end of input), is lexed as t *)
Definition tok_ok (t : token) (c : option ascii) : bool :=
  match t with
  | TSp => negb (ocheck is_ws c)
  | TInt _ => negb (ocheck (fun d => Ascii.eqb d "." || is_alpha d || is_digit d) c)
  | TId s => is_ident s && negb (ocheck is_id_char c)
  | TCmp CLt => negb (ocheck (fun d => Ascii.eqb d "<" || Ascii.eqb d "=") c)
  | TCmp CGt => negb (ocheck (fun d => Ascii.eqb d ">" || Ascii.eqb d "=") c)
  | TAssign => negb (ocheck (fun d => Ascii.eqb d "=") c)
  | TAnd | TOr | TNot | TIf | TElse => negb (ocheck is_word c)
  | TTimes => negb (ocheck (fun d => Ascii.eqb d "*") c)
  | TOver => negb (ocheck (fun d => Ascii.eqb d "/") c)
  | _ => true
  end.

Lemma span_app f a s :
  string_forallb f a = true -> ocheck f (first_char s) = false -> span f (a ++ s) = (a, s).
Proof.
  induction a as [|c a IH]; intros Ha Hs.
  - cbn [append]. destruct s as [|d s]; [reflexivity|]. cbn in Hs. cbn [span]. rewrite Hs. reflexivity.
  - cbn [string_forallb] in Ha. apply andb_true_iff in Ha as [Hc Ha].
    cbn [append span]. rewrite Hc, (IH Ha Hs). reflexivity.
Qed.

Lemma prefix_rest_self p s : prefix_rest p (p ++ s) = Some s.
Proof. induction p as [|c p IH]; cbn; [reflexivity | now rewrite Ascii.eqb_refl]. Qed.

Lemma kw_rest_self k d s : is_word d = false -> kw_rest k (k ++ String d s) = Some (String d s).
Proof. intros H. unfold kw_rest. rewrite prefix_rest_self. cbn [boundary]. now rewrite H. Qed.

(* how the rules of lex_table for other first characters are ruled out *)
Lemma class_neq (f : ascii -> bool) d k : f d = true -> f k = false -> Ascii.eqb d k = false.
Proof. intros Hd Hk. destruct (Ascii.eqb_spec d k); [congruence | reflexivity]. Qed.

Lemma class_neq_l (f : ascii -> bool) d k : f d = true -> f k = false -> Ascii.eqb k d = false.
Proof. rewrite Ascii.eqb_sym. apply class_neq. Qed.

(* Most of these texts are recognised whatever follows.  The others are cut short by a longer
   rule of the table (`<` by `<<` and `<=`, `*` by `**`, ...), by the \b of a keyword or by more
   blanks; tok_ok names the test on the next character d that excludes this, and that test is
   rewritten in the unfolded lex_step before the closed remainder is computed. *)
Lemma lex_step_fixed t s :
  match t with TInt _ | TId _ => False | _ => True end ->
  tok_ok t (first_char s) = true -> lex_step (tok_str t ++ s) = SNext t s.
Proof.
  intros Hk H.
  destruct t; try contradiction; try destruct c; try reflexivity;
    (destruct s as [|d s]; [reflexivity|]);
    cbn [tok_ok first_char ocheck] in H; apply negb_true_iff in H; unfold lex_step;
    first [ rewrite (kw_rest_self _ d s H)
          | cbn [tok_str cmp_str append prefix_rest span];
            rewrite ?(Ascii.eqb_sym d) in H; try (rewrite orb_false_iff in H; destruct H as [H H']);
            rewrite H, ?H' ];
    reflexivity.
Qed.

Lemma digits_of_uint d : string_forallb is_digit (NilEmpty.string_of_uint d) = true.
Proof. induction d; cbn [NilEmpty.string_of_uint string_forallb]; try reflexivity; rewrite IHd; reflexivity. Qed.

Lemma uint_text u :
  u <> Decimal.Nil ->
  exists d ds, NilEmpty.string_of_uint u = String d ds /\ is_digit d = true
               /\ string_forallb is_digit ds = true.
Proof.
  intros Hu. destruct u; [congruence|..];
    (eexists _, _; split; [reflexivity|]; split; [reflexivity | apply digits_of_uint]).
Qed.

Lemma int_text n :
  exists d ds, tok_str (TInt n) = String d ds /\ is_digit d = true /\ string_forallb is_digit ds = true
               /\ digits_value (String d ds) = n.
Proof.
  cbn [tok_str]. pose proof (Unsigned.of_to n) as Hn.
  destruct (N.to_uint n) eqn:E;
    [ exists "0"%char, ""; cbn; repeat split; try reflexivity; cbn in Hn; subst n; reflexivity
    | match goal with |- exists _ _, NilZero.string_of_uint ?u = _ /\ _ =>
           assert (Hnn : u <> Decimal.Nil) by discriminate;
           destruct (uint_text u Hnn) as (d & ds & Ht & Hd & Hds);
           exists d, ds;
           change (NilZero.string_of_uint u) with (NilEmpty.string_of_uint u);
           split; [exact Ht|]; split; [exact Hd|]; split; [exact Hds|];
           unfold digits_value; rewrite <- Ht, NilEmpty.usu; exact Hn end .. ].
Qed.

Lemma lex_step_digit d r :
  is_digit d = true ->
  lex_step (String d r)
  = let (ds, r1) := span is_digit (String d r) in
    match r1 with
    | String c _ => if Ascii.eqb c "." || is_alpha c then SUnsupported else SNext (TInt (digits_value ds)) r1
    | EmptyString => SNext (TInt (digits_value ds)) r1
    end.
Proof.
  intros H. unfold lex_step, kw_rest. cbn [prefix_rest].
  rewrite !(class_neq_l is_digit d), !(class_neq is_digit d) by (exact H || reflexivity).
  now rewrite H.
Qed.

Lemma lex_step_int n s :
  tok_ok (TInt n) (first_char s) = true -> lex_step (tok_str (TInt n) ++ s) = SNext (TInt n) s.
Proof.
  intros H. destruct (int_text n) as (d & ds & -> & Hd & Hds & Hv).
  cbn [append]. rewrite (lex_step_digit d (ds ++ s) Hd).
  cbn [tok_ok] in H. apply negb_true_iff in H.
  assert (Hsp : span is_digit (String d (ds ++ s)) = (String d ds, s)).
  { change (String d (ds ++ s)) with (String d ds ++ s). apply span_app.
    - cbn [string_forallb]. rewrite Hd, Hds. reflexivity.
    - destruct s as [|c s]; [reflexivity|]. cbn in *. apply orb_false_iff in H. tauto. }
  rewrite Hsp, Hv. destruct s as [|c s]; [reflexivity|].
  cbn in H. apply orb_false_iff in H as [H _]. rewrite H. reflexivity.
Qed.

Lemma prefix_rest_app_none p : forall s r,
  prefix_rest p s = None -> string_forallb is_id_char p = true ->
  ocheck is_id_char (first_char r) = false ->
  prefix_rest p (s ++ r) = None.
Proof.
  induction p as [|c p IH]; intros s r Hs Hp Hr; [discriminate|].
  cbn [string_forallb] in Hp. apply andb_true_iff in Hp as [Hc Hp].
  destruct s as [|d s].
  - cbn [append]. destruct r as [|e r]; [reflexivity|]. cbn [prefix_rest].
    destruct (Ascii.eqb c e) eqn:E; [|reflexivity].
    apply Ascii.eqb_eq in E. subst e. cbn in Hr. congruence.
  - cbn [append prefix_rest] in *. destruct (Ascii.eqb c d); [apply IH; auto | reflexivity].
Qed.

Lemma prefix_rest_app_some p : forall s r r1,
  prefix_rest p s = Some r1 -> prefix_rest p (s ++ r) = Some (r1 ++ r).
Proof.
  induction p as [|c p IH]; intros s r r1 H.
  - cbn in *. injection H as <-. reflexivity.
  - destruct s as [|d s]; [discriminate|]. cbn [append prefix_rest] in *.
    destruct (Ascii.eqb c d); [apply IH; exact H | discriminate].
Qed.

Lemma kw_rest_app_none k s r :
  kw_rest k s = None -> string_forallb is_id_char k = true ->
  ocheck is_id_char (first_char r) = false ->
  kw_rest k (s ++ r) = None.
Proof.
  intros H Hk Hr. unfold kw_rest in *.
  destruct (prefix_rest k s) as [r1|] eqn:E.
  - rewrite (prefix_rest_app_some k s r r1 E).
    destruct r1 as [|w r1]; [cbn in H; discriminate|].
    cbn [append boundary] in *. destruct (negb (is_word w)); [discriminate|reflexivity].
  - rewrite (prefix_rest_app_none k s r E Hk Hr). reflexivity.
Qed.

Lemma id_start_not_digit c : is_id_start c = true -> is_digit c = false.
Proof.
  unfold is_id_start, is_alpha. intros H. repeat (apply orb_true_iff in H as [H|H]);
    try (apply Ascii.eqb_eq in H as ->; reflexivity);
    unfold is_digit, in_range in *; apply andb_true_iff in H as [H%Nat.leb_le _];
    apply andb_false_iff; right; apply Nat.leb_gt; lia.
Qed.

Lemma lex_step_idstart c x :
  is_id_start c = true ->
  lex_step (String c x)
  = match kw_rest "and" (String c x) with Some r1 => SNext TAnd r1 | None =>
    match kw_rest "or" (String c x) with Some r1 => SNext TOr r1 | None =>
    match kw_rest "not" (String c x) with Some r1 => SNext TNot r1 | None =>
    match kw_rest "if" (String c x) with Some r1 => SNext TIf r1 | None =>
    match kw_rest "else" (String c x) with Some r1 => SNext TElse r1 | None =>
    match prefix_rest "True" (String c x) with Some r1 => SNext TTrue r1 | None =>
    match prefix_rest "False" (String c x) with Some r1 => SNext TFalse r1 | None =>
    let (a, b) := span is_id_char (String c x) in SNext (TId a) b
    end end end end end end end.
Proof.
  intros H. unfold lex_step at 1. cbn [prefix_rest].
  rewrite !(class_neq_l is_id_start c), !(class_neq is_id_start c) by (exact H || reflexivity).
  rewrite (id_start_not_digit c H), H. reflexivity.
Qed.

Lemma kw_hit_none s k :
  kw_hit s = false -> In k ["and"; "or"; "not"; "if"; "else"] -> kw_rest k s = None.
Proof.
  unfold kw_hit. intros H Hin.
  destruct (kw_rest k s) eqn:E; [|reflexivity].
  assert (Hx : existsb (fun k => match kw_rest k s with Some _ => true | None => false end)
                       ["and"; "or"; "not"; "if"; "else"] = true).
  { apply existsb_exists. exists k. rewrite E. auto. }
  congruence.
Qed.

Lemma lex_step_ident x s :
  tok_ok (TId x) (first_char s) = true -> lex_step (tok_str (TId x) ++ s) = SNext (TId x) s.
Proof.
  intros H. cbn [tok_ok] in H. apply andb_true_iff in H as [Hid Hs]. apply negb_true_iff in Hs.
  unfold is_ident in Hid. apply andb_true_iff in Hid as [Hid HF]. apply andb_true_iff in Hid as [Hid HT].
  apply andb_true_iff in Hid as [Hid Hkw]. apply negb_true_iff in HF, HT, Hkw.
  cbn [tok_str]. destruct x as [|c x]; [discriminate|].
  apply andb_true_iff in Hid as [Hc Hx].
  assert (Hall : string_forallb is_id_char (String c x) = true).
  { cbn [string_forallb]. rewrite Hx. unfold is_id_char. rewrite Hc. reflexivity. }
  change (String c x ++ s) with (String c (x ++ s)).
  rewrite (lex_step_idstart c (x ++ s) Hc).
  change (String c (x ++ s)) with (String c x ++ s).
  rewrite !(kw_rest_app_none _ (String c x) s) by
      (first [apply kw_hit_none; [exact Hkw | cbn; tauto] | reflexivity | exact Hs]).
  unfold starts_with in HT, HF.
  destruct (prefix_rest "True" (String c x)) eqn:ET; [discriminate|].
  destruct (prefix_rest "False" (String c x)) eqn:EF; [discriminate|].
  rewrite (prefix_rest_app_none "True" _ s ET) by (reflexivity || exact Hs).
  rewrite (prefix_rest_app_none "False" _ s EF) by (reflexivity || exact Hs).
  rewrite (span_app is_id_char (String c x) s Hall Hs). reflexivity.
Qed.

Theorem lex_step_tok t s :
  tok_ok t (first_char s) = true -> lex_step (tok_str t ++ s) = SNext t s.
Proof.
  intros H. destruct t; try (apply lex_step_fixed; [exact I | exact H]).
  - apply lex_step_int. exact H.
  - apply lex_step_ident. exact H.
Qed.

Lemma tok_str_nonempty t : tok_ok t None = true \/ True -> (match t with TId s => is_ident s = true | _ => True end) ->
  exists c r, tok_str t = String c r.
Proof.
  intros _ Hid. destruct t; try (cbn; eauto; fail).
  - destruct (int_text n) as (d & ds & -> & _). eauto.
  - cbn [tok_str]. destruct s; [discriminate|eauto].
  - destruct c; cbn; eauto.
Qed.

Lemma tok_ok_nonempty t c : tok_ok t c = true -> exists d r, tok_str t = String d r.
Proof.
  intros H. apply tok_str_nonempty; [now right|].
  destruct t; try exact I. cbn [tok_ok] in H. now apply andb_true_iff in H.
Qed.

Lemma lex_go_nil k : lex_go k "" = Ok [].
Proof. destruct k; reflexivity. Qed.
