(* Proofs about model/Verify.v (C10).
   The cycle check is an iterative three-colour search: an id is white while unvisited, grey while
   in `visiting`, black once it has left `visiting`.  Its invariant is the one of proofs/Dfs.v
   (Dfs.DInv) with the black ids, which the code does not keep, as the order.  CCycle is reported
   for an edge into a grey id, which closes a dependency path (Dfs.grey_cycle); CNone is reached
   with every id black, and the black ids are a post-order. *)
From Coq Require Import List Arith Bool Lia Relation_Operators Operators_Properties.
Import ListNotations.
From Dagrt Require Import ListFacts Verify.
From Dagrt Require Dfs.

Lemma memb_In x l : memb x l = true <-> In x l.
Proof. apply existsb_nat_In. Qed.

Lemma memb_nIn x l : memb x l = false <-> ~ In x l.
Proof. apply existsb_nat_nIn. Qed.

Lemma memb_cons x y l : memb x (y :: l) = Nat.eqb x y || memb x l.
Proof. reflexivity. Qed.

Lemma dedup_In x l : In x (dedup l) <-> In x l.
Proof.
  induction l as [|a l IH]; cbn [dedup]; [tauto|].
  destruct (memb a l) eqn:E.
  - rewrite IH. cbn. split; auto. intros [->|H]; auto. now apply memb_In.
  - cbn. rewrite IH. tauto.
Qed.

Lemma sum_cons a l : sum (a :: l) = a + sum l.
Proof. reflexivity. Qed.

Lemma sum_map {A} (f : A -> nat) l : sum (map f l) = fold_right (fun a n => f a + n) 0 l.
Proof. unfold sum. induction l as [|a l IH]; cbn; congruence. Qed.

Lemma sum_zero l : sum l = 0 <-> forall x, In x l -> x = 0.
Proof.
  induction l as [|a l IH].
  - cbn. split; auto. intros _ x [].
  - rewrite sum_cons. split.
    + intros H x [Hx|Hx]; [lia|]. apply IH; [lia|auto].
    + intros H. rewrite (H a (or_introl eq_refl)). apply IH. intros x Hx. apply H. now right.
Qed.

Lemma sum_map_zero {A} (f : A -> nat) l : sum (map f l) = 0 <-> forall x, In x l -> f x = 0.
Proof.
  rewrite sum_zero. split.
  - intros H x Hx. apply H. now apply in_map.
  - intros H y Hy. apply in_map_iff in Hy. destruct Hy as [x [<- Hx]]. auto.
Qed.

Lemma sum_map_pos {A} (f : A -> nat) l x : In x l -> 1 <= f x -> 1 <= sum (map f l).
Proof.
  intros Hx Hf. destruct (sum (map f l)) eqn:E; [|lia].
  rewrite sum_map_zero in E. specialize (E x Hx). lia.
Qed.

Lemma lookup_Some l i s : lookup l i = Some s -> In s l /\ sid s = i.
Proof. exact (Dfs.lookup_by_Some sid l i s). Qed.

Lemma lookup_None l i : lookup l i = None <-> ~ In i (map sid l).
Proof. exact (Dfs.lookup_by_None sid l i). Qed.

Lemma lookup_In l i : In i (map sid l) -> exists s, lookup l i = Some s.
Proof. exact (Dfs.lookup_by_In sid l i). Qed.

Lemma dep_intro stmts s d : In s stmts -> In d (sdeps s) -> dep stmts (sid s) d.
Proof. intros Hs Hd. exists s. auto. Qed.

Lemma dep_path_source stmts x y : clos_trans nat (dep stmts) x y -> In x (map sid stmts).
Proof.
  intros H. apply clos_trans_t1n in H.
  destruct H as [? (s & Hs & <- & _)|? ? (s & Hs & <- & _) _]; now apply in_map.
Qed.

Section Phase.
  Variable stmts : list stmt.
  Notation ids := (map sid stmts).
  Notation dp := (dep stmts).

  Lemma scan_ok visiting deps : forall stack st',
    scan stmts visiting deps stack = ScanOk st' ->
    exists cs, st' = cs ++ stack /\ length cs = length deps /\
      Forall (fun c => In c stmts /\ In (sid c) deps /\ ~ In (sid c) visiting) cs /\
      (forall d, In d deps -> exists c, In c cs /\ sid c = d).
  Proof.
    induction deps as [|d r IH]; cbn [scan]; intros stack st'.
    - intros [= <-]. exists []. cbn. repeat split; auto. intros d [].
    - destruct (memb d visiting) eqn:Ev; [discriminate|].
      destruct (lookup stmts d) as [s|] eqn:El; [|discriminate].
      intros H. apply IH in H. destruct H as [cs [-> [Hl [Hf Hall]]]].
      apply lookup_Some in El. destruct El as [Hin Hsid].
      exists (cs ++ [s]). rewrite <- app_assoc. cbn. repeat split.
      + rewrite app_length. cbn. lia.
      + apply Forall_app. split.
        * eapply Forall_impl; [|exact Hf]. cbn. intros c [H1 [H2 H3]]. auto.
        * constructor; [|constructor]. rewrite Hsid. repeat split; auto.
          now apply memb_nIn.
      + intros d' [<-|Hd'].
        * exists s. split; auto. apply in_or_app. right. now left.
        * destruct (Hall d' Hd') as [c [Hc1 Hc2]]. exists c. split; auto. apply in_or_app. now left.
  Qed.

  Lemma scan_cycle visiting deps : forall stack,
    scan stmts visiting deps stack = ScanCycle -> exists d, In d deps /\ In d visiting.
  Proof.
    induction deps as [|d r IH]; cbn [scan]; intros stack; [discriminate|].
    destruct (memb d visiting) eqn:Ev.
    - intros _. exists d. split; [now left|now apply memb_In].
    - destruct (lookup stmts d); [|discriminate]. intros H. apply IH in H.
      destruct H as [d' [H1 H2]]. exists d'. split; auto. now right.
  Qed.

  Lemma scan_keyerror visiting deps : forall stack,
    scan stmts visiting deps stack = ScanKeyError -> exists d, In d deps /\ ~ In d ids.
  Proof.
    induction deps as [|d r IH]; cbn [scan]; intros stack; [discriminate|].
    destruct (memb d visiting); [discriminate|].
    destruct (lookup stmts d) eqn:El.
    - intros H. apply IH in H. destruct H as [d' [H1 H2]]. exists d'. split; auto. now right.
    - intros _. exists d. split; [now left|]. now apply lookup_None.
  Qed.

  Notation unvisited := (Dfs.unvisited_cost sid weight).

  Lemma stack_rev : Forall (fun s => In s stmts) (rev stmts).
  Proof. apply Forall_forall. intros s Hs. now apply in_rev. Qed.

  (* |stack| + what the unvisited statements will push drops at every turn (as for DagAst.topo:
     DagAstProofs.topo_fuel_enough) *)
  Lemma cyc_fuel_ok : forall fuel stack visiting visited,
    Forall (fun s => In s stmts) stack ->
    length stack + unvisited visited stmts < fuel ->
    cyc stmts fuel stack visiting visited <> CFuel.
  Proof.
    induction fuel as [|f IH]; intros stack visiting visited Hst Hm; [lia|].
    cbn [cyc]. destruct stack as [|top rest]; [discriminate|].
    inversion Hst as [|? ? Htop Hrest]; subst.
    destruct (memb (sid top) visited) eqn:Ev.
    - apply IH; auto. cbn in Hm. lia.
    - destruct (scan stmts (sid top :: visiting) (sdeps top) (top :: rest)) as [| |st'] eqn:Es;
        try discriminate.
      apply scan_ok in Es. destruct Es as [cs [-> [Hl [Hf _]]]].
      apply IH.
      + apply Forall_app. split; auto. eapply Forall_impl; [|exact Hf]. cbn. tauto.
      + apply memb_nIn in Ev.
        pose proof (Dfs.unvisited_cost_enter sid weight top visited stmts Htop Ev) as H.
        rewrite app_length, Hl. change (weight top) with (S (length (sdeps top))) in H. cbn [length] in *. lia.
  Qed.

  Lemma cycle_check_fuel : cycle_check stmts <> CFuel.
  Proof.
    unfold cycle_check. apply cyc_fuel_ok.
    - exact stack_rev.
    - rewrite rev_length, Dfs.unvisited_cost_nil. unfold cyc_fuel.
      rewrite sum_map. lia.
  Qed.

  Lemma remove_id_head x l : ~ In x l -> remove_id x (x :: l) = l.
  Proof.
    intros Hn. unfold remove_id. cbn. rewrite Nat.eqb_refl. cbn.
    induction l as [|a l IH]; cbn; auto.
    destruct (Nat.eqb x a) eqn:E.
    - apply Nat.eqb_eq in E. subst. exfalso. apply Hn. now left.
    - cbn. f_equal. apply IH. intros H. apply Hn. now right.
  Qed.

  Lemma remove_id_In x y l : In y (remove_id x l) <-> In y l /\ y <> x.
  Proof.
    unfold remove_id. rewrite filter_In, negb_true_iff, Nat.eqb_neq. split; intros [? ?]; split; auto.
  Qed.

  (* Dfs.DInv on the ids of the stack; `order` lists the finished (black) ids, which the code does
     not keep *)
  Record Inv (stack : list stmt) (visiting visited order : list nat) : Prop := {
    inv_dfs : Dfs.DInv dp ids (map sid stack) visiting visited order;
    inv_stack : Forall (fun s => In s stmts) stack;
    inv_dom : incl order ids }.

  Hypothesis Huniq : NoDup ids.

  Lemma dp_uniq g d : In g stmts -> dp (sid g) d -> In d (sdeps g).
  Proof.
    intros Hg [s [Hs [He Hd]]]. now rewrite <- (NoDup_map_inj sid stmts s g Huniq Hs Hg He).
  Qed.

  Lemma inv_finish top rest visiting visited order :
    Inv (top :: rest) visiting visited order -> In (sid top) visiting ->
    Inv rest (remove_id (sid top) visiting) visited (order ++ [sid top]).
  Proof.
    intros [Hd Hst Ho] Eg. inversion Hst as [|? ? Htop Hrest]; subst. constructor; [|assumption|].
    - apply Dfs.dinv_finish with visiting; [assumption..|]. intros x. apply remove_id_In.
    - intros x Hx. apply in_app_or in Hx as [Hx|[<-|[]]]; [auto|now apply in_map].
  Qed.

  Lemma inv_stale top rest visiting visited order :
    Inv (top :: rest) visiting visited order -> In (sid top) visited -> ~ In (sid top) visiting ->
    Inv rest visiting visited order.
  Proof.
    intros [Hd Hst Ho] Ev Eg. inversion Hst; subst. constructor; auto.
    now apply Dfs.dinv_stale with (sid top).
  Qed.

  Lemma inv_enter top rest visiting visited order st' :
    Inv (top :: rest) visiting visited order -> ~ In (sid top) visited ->
    scan stmts (sid top :: visiting) (sdeps top) (top :: rest) = ScanOk st' ->
    Inv st' (sid top :: visiting) (sid top :: visited) order.
  Proof.
    intros [Hd Hst Ho] Ev Es. inversion Hst as [|? ? Htop Hrest]; subst.
    apply scan_ok in Es. destruct Es as [cs [-> [_ [Hf Hall]]]]. rewrite Forall_forall in Hf.
    constructor; [| |assumption].
    - rewrite map_app. apply Dfs.dinv_enter; auto.
      + intros y. rewrite in_map_iff. split.
        * intros (c & <- & Hc). apply dep_intro; [assumption|apply (Hf c Hc)].
        * intros Hy. apply dp_uniq in Hy; auto. destruct (Hall y Hy) as (c & Hc & <-). eauto.
      + intros y Hy. apply in_map_iff in Hy as (c & <- & Hc). apply (Hf c Hc).
    - apply Forall_app. split; [|assumption]. apply Forall_forall. intros c Hc. apply (Hf c Hc).
  Qed.

  Lemma scan_cycle_real top rest visiting visited order :
    Inv (top :: rest) visiting visited order -> ~ In (sid top) visited ->
    scan stmts (sid top :: visiting) (sdeps top) (top :: rest) = ScanCycle ->
    exists x, clos_trans nat dp x x.
  Proof.
    intros [Hd Hst _] Ev Es. inversion Hst; subst.
    apply scan_cycle in Es. destruct Es as [d [Hdd Hin]]. exists d.
    eapply Dfs.grey_cycle; [exact Hd|assumption|now apply dep_intro|assumption].
  Qed.

  Lemma cyc_step f top rest visiting visited order :
    Inv (top :: rest) visiting visited order ->
    (cyc stmts (S f) (top :: rest) visiting visited = CCycle /\ exists x, clos_trans nat dp x x) \/
    cyc stmts (S f) (top :: rest) visiting visited = CKeyError \/
    exists stack' visiting' visited' order',
      Inv stack' visiting' visited' order' /\
      cyc stmts (S f) (top :: rest) visiting visited = cyc stmts f stack' visiting' visited'.
  Proof.
    intros HI. cbn [cyc]. destruct (memb (sid top) visited) eqn:Ev.
    - right. right. apply memb_In in Ev. destruct (memb (sid top) visiting) eqn:Eg.
      + apply memb_In in Eg. exists rest, (remove_id (sid top) visiting), visited, (order ++ [sid top]).
        split; [now apply inv_finish|reflexivity].
      + apply memb_nIn in Eg. exists rest, visiting, visited, order.
        split; [now apply inv_stale with top|reflexivity].
    - apply memb_nIn in Ev.
      destruct (scan stmts (sid top :: visiting) (sdeps top) (top :: rest)) as [| |st'] eqn:Es.
      + left. split; [reflexivity|]. eapply scan_cycle_real; eassumption.
      + now right; left.
      + right. right. exists st', (sid top :: visiting), (sid top :: visited), order.
        split; [now apply inv_enter with rest|reflexivity].
  Qed.

  Definition closed_acyclic : Prop :=
    (forall s d, In s stmts -> In d (sdeps s) -> In d ids) /\ (forall x, ~ clos_trans nat dp x x).

  Lemma cyc_none : forall fuel stack visiting visited order,
    Inv stack visiting visited order ->
    cyc stmts fuel stack visiting visited = CNone -> closed_acyclic.
  Proof.
    induction fuel as [|f IH]; intros stack visiting visited order HI; [discriminate|].
    destruct stack as [|top rest].
    - intros _. destruct HI as [Hd _ Ho]. apply Dfs.dinv_done in Hd as (Hp & Hall).
      (* every id is finished, and the finished ids are a post-order *)
      split.
      + intros s d Hin Hdd. apply Ho. apply (Dfs.post_order_closed dp order Hp (sid s)).
        * now apply Hall, in_map.
        * apply t_step. now apply dep_intro.
      + intros x Hc. apply (Dfs.post_order_acyclic dp order Hp x); [|assumption].
        exact (Hall x (dep_path_source _ _ _ Hc)).
    - destruct (cyc_step f _ _ _ _ _ HI) as [[-> _]|[->|(st' & vg & vd & dn & HI' & ->)]];
        [discriminate | discriminate | eauto].
  Qed.

  Lemma cyc_cycle : forall fuel stack visiting visited order,
    Inv stack visiting visited order ->
    cyc stmts fuel stack visiting visited = CCycle ->
    exists x, clos_trans nat dp x x.
  Proof.
    induction fuel as [|f IH]; intros stack visiting visited order HI; [discriminate|].
    destruct stack as [|top rest]; [discriminate|].
    destruct (cyc_step f _ _ _ _ _ HI) as [[_ Hc]|[->|(st' & vg & vd & dn & HI' & ->)]];
      [auto | discriminate | eauto].
  Qed.

  Lemma cyc_keyerror : forall fuel stack visiting visited,
    Forall (fun s => In s stmts) stack ->
    cyc stmts fuel stack visiting visited = CKeyError ->
    exists s d, In s stmts /\ In d (sdeps s) /\ ~ In d ids.
  Proof.
    induction fuel as [|f IH]; intros stack visiting visited Hst; cbn [cyc]; [discriminate|].
    destruct stack as [|top rest]; [discriminate|].
    inversion Hst as [|? ? Htop Hrest]; subst.
    destruct (memb (sid top) visited).
    - apply IH; auto.
    - destruct (scan stmts (sid top :: visiting) (sdeps top) (top :: rest)) as [| |st'] eqn:Es;
        try discriminate.
      + intros _. apply scan_keyerror in Es. destruct Es as [d [H1 H2]]. eauto.
      + apply scan_ok in Es. destruct Es as [cs [-> [_ [Hf _]]]].
        apply IH. apply Forall_app. split; auto. eapply Forall_impl; [|exact Hf]. cbn. tauto.
  Qed.

  Lemma inv_init : Inv (rev stmts) [] [] [].
  Proof.
    constructor; [|exact stack_rev|intros x []].
    rewrite map_rev. apply Dfs.dinv_init.
  Qed.

  Theorem cycle_check_none : cycle_check stmts = CNone <-> closed_acyclic.
  Proof.
    split.
    - apply cyc_none with (order := []). apply inv_init.
    - intros [Hc Ha]. destruct (cycle_check stmts) eqn:E; auto; exfalso.
      + unfold cycle_check in E. apply cyc_cycle with (order := []) in E; [|apply inv_init].
        destruct E as [x Hx]. exact (Ha x Hx).
      + unfold cycle_check in E. apply cyc_keyerror in E.
        * destruct E as [s [d [H1 [H2 H3]]]]. eauto.
        * exact stack_rev.
      + now apply cycle_check_fuel in E.
  Qed.

  Theorem cycle_check_keyerror :
    cycle_check stmts = CKeyError -> exists s d, In s stmts /\ In d (sdeps s) /\ ~ In d ids.
  Proof.
    unfold cycle_check. apply cyc_keyerror. exact stack_rev.
  Qed.
End Phase.

Lemma pass2_mono ps : forall n m, pass2 ps n = P2Done m -> n <= m.
Proof.
  induction ps as [|p ps IH]; cbn [pass2]; intros n m.
  - intros [= <-]. lia.
  - destruct (cycle_check (pstmts p)); try discriminate; intros H; apply IH in H; lia.
Qed.

Lemma pass2_done ps : forall n,
  pass2 ps n = P2Done n <-> forall p, In p ps -> cycle_check (pstmts p) = CNone.
Proof.
  induction ps as [|p ps IH]; cbn [pass2]; intros n; [split; [intros _ q []|reflexivity]|].
  split.
  - intros H q Hq. destruct (cycle_check (pstmts p)) eqn:E; try discriminate.
    + destruct Hq as [<-|Hq]; [exact E|]. exact (proj1 (IH n) H q Hq).
    + apply pass2_mono in H. lia.
  - intros H. rewrite (H p (or_introl eq_refl)). apply IH. intros q Hq. apply H. now right.
Qed.

Lemma pass2_no_fuel ps : forall n, pass2 ps n <> P2Fuel.
Proof.
  induction ps as [|p ps IH]; cbn [pass2]; intros n; [discriminate|].
  destruct (cycle_check (pstmts p)) eqn:E; auto; try discriminate.
  now apply cycle_check_fuel in E.
Qed.

Lemma pass2_raise ps : forall n e m, pass2 ps n = P2Raise e m ->
  e = KeyError /\ exists p, In p ps /\ cycle_check (pstmts p) = CKeyError.
Proof.
  induction ps as [|p ps IH]; cbn [pass2]; intros n e m; [discriminate|].
  assert (Hrec : forall n', pass2 ps n' = P2Raise e m ->
            e = KeyError /\ exists q, In q (p :: ps) /\ cycle_check (pstmts q) = CKeyError).
  { intros n' H. apply IH in H as [He [q [Hq Hc]]]. split; auto. exists q. split; auto. now right. }
  destruct (cycle_check (pstmts p)) eqn:E; try discriminate; [apply Hrec..|].
  intros [= <- <-]. split; auto. exists p. split; auto. now left.
Qed.

Lemma ids_for_incl b D p d : In p D -> In d (phase_ids p) -> In d (ids_for b D p).
Proof.
  intros Hp Hd. unfold ids_for. destruct b; auto.
  unfold all_ids. apply in_flat_map. eauto.
Qed.

Lemma missing_zero ids s : missing ids s = 0 <-> forall d, In d (sdeps s) -> In d ids.
Proof.
  unfold missing. rewrite length_zero_iff_nil. split.
  - intros H d Hd. destruct (memb d ids) eqn:E; [now apply memb_In|].
    exfalso. assert (In d (dedup (filter (fun d => negb (memb d ids)) (sdeps s)))) as Hin.
    { apply dedup_In. apply filter_In. split; auto. now rewrite E. }
    rewrite H in Hin. destruct Hin.
  - intros H. assert (filter (fun d => negb (memb d ids)) (sdeps s) = []) as ->; [|reflexivity].
    apply filter_nil_iff. intros d Hd. apply H in Hd. apply memb_In in Hd. now rewrite Hd.
Qed.

Lemma phase_roots_err_zero b D p : In p D -> phase_roots_err (ids_for b D p) p = 0.
Proof.
  intros Hp. unfold phase_roots_err.
  assert (forallb (fun d => memb d (ids_for b D p)) (phase_roots p) = true) as ->; auto.
  apply forallb_forall. intros d Hd. apply memb_In. apply ids_for_incl; auto.
  unfold phase_roots in Hd. apply filter_In in Hd. destruct Hd as [Hd _]. exact (proj1 (dedup_In _ _) Hd).
Qed.

Lemma pass1_zero b D :
  pass1 b D = 0 <->
  forall p s d, In p D -> In s (pstmts p) -> In d (sdeps s) -> In d (ids_for b D p).
Proof.
  unfold pass1.
  assert (sum (map (fun p => phase_roots_err (ids_for b D p) p) D) = 0) as ->.
  { apply sum_map_zero. intros p Hp. now apply phase_roots_err_zero. }
  rewrite Nat.add_0_r, sum_map_zero. split.
  - intros H p s d Hp Hs Hd. specialize (H p Hp). rewrite sum_map_zero in H.
    specialize (H s Hs). rewrite missing_zero in H. auto.
  - intros H p Hp. apply sum_map_zero. intros s Hs. apply missing_zero. eauto.
Qed.

Lemma pass3_zero D : pass3 D = 0 <-> forall p, In p D -> switches_ok D p.
Proof.
  unfold pass3, switches_ok. rewrite sum_map_zero. split.
  - intros H p Hp s t Hs Hk. specialize (H p Hp). rewrite sum_map_zero in H. specialize (H s Hs).
    unfold switch_err in H. rewrite Hk in H.
    destruct (memb t (map pname D)) eqn:E; [now apply memb_In|discriminate].
  - intros H p Hp. apply sum_map_zero. intros s Hs. unfold switch_err.
    destruct (skind s) eqn:Ek; auto.
    assert (memb target (map pname D) = true) as ->; auto. apply memb_In. eauto.
Qed.

Lemma cond_errs_zero stmts : cond_errs 1 stmts = 0 <-> forall v, length (writers v stmts) <= 1.
Proof.
  unfold cond_errs. rewrite length_zero_iff_nil, filter_nil_iff. split.
  - intros H v. destruct (memb v (flat_map cond_writes stmts)) eqn:E.
    + apply memb_In in E. apply dedup_In in E. apply H in E. now apply Nat.ltb_ge in E.
    + assert (writers v stmts = []) as ->; [|cbn; lia].
      unfold writers. apply filter_nil_iff. intros s Hs.
      destruct (memb v (cond_writes s)) eqn:E2; auto.
      apply memb_In in E2. apply memb_nIn in E. exfalso. apply E. apply in_flat_map. eauto.
  - intros H v _. apply Nat.ltb_ge. apply H.
Qed.

Lemma pass4_zero D : pass4 1 D = 0 <-> forall p, In p D -> flags_single p.
Proof.
  unfold pass4, flags_single. rewrite sum_map_zero. split.
  - intros H p Hp. apply cond_errs_zero. auto.
  - intros H p Hp. apply cond_errs_zero. auto.
Qed.

Lemma verify_cases b l D :
  match verify b l D with
  | Accept => pass1 b D = 0 /\ pass2 D 0 = P2Done 0 /\ pass3 D = 0 /\ pass4 l D = 0
  | CodeGenError n => n >= 1
  | Crash e => pass1 b D = 0 /\ pass2 D 0 = P2Raise e 0
  | OutOfFuel => False
  end.
Proof.
  unfold verify. destruct (pass2 D 0) as [n2|e n2|] eqn:E2; [| |exact (pass2_no_fuel D 0 E2)];
    (destruct (Nat.eqb _ 0) eqn:E; [apply Nat.eqb_eq in E|apply Nat.eqb_neq in E; lia]).
  - assert (n2 = 0) as -> by lia. repeat split; auto; lia.
  - assert (n2 = 0) as -> by lia. split; [lia|reflexivity].
Qed.

Lemma verify_accept b l D :
  verify b l D = Accept <->
  pass1 b D = 0 /\ pass2 D 0 = P2Done 0 /\ pass3 D = 0 /\ pass4 l D = 0.
Proof.
  split; [intros H; pose proof (verify_cases b l D) as C; now rewrite H in C|].
  intros [H1 [H2 [H3 H4]]]. unfold verify. rewrite H1, H2, H3, H4. reflexivity.
Qed.

Lemma closed_acyclic_phase p : closed_acyclic (pstmts p) <-> deps_local p /\ acyclic p.
Proof. unfold closed_acyclic, deps_local, acyclic, phase_ids. tauto. Qed.

Theorem verify_iff b D : uniq_ids D -> (verify b 1 D = Accept <-> dag_wf D).
Proof.
  intros Hu. rewrite verify_accept. split.
  - intros [_ [H2 [H3 H4]]] p Hp.
    pose proof (proj1 (pass2_done D 0) H2 p Hp) as Hc.
    apply cycle_check_none in Hc; [|now apply Hu]. apply closed_acyclic_phase in Hc.
    destruct Hc as [Hl Ha]. repeat split; auto.
    + now apply (proj1 (pass3_zero D) H3).
    + now apply (proj1 (pass4_zero D) H4).
  - intros Hwf. repeat split.
    + apply pass1_zero. intros p s d Hp Hs Hd. apply ids_for_incl; auto.
      destruct (Hwf p Hp) as [Hl _]. eapply Hl; eauto.
    + apply pass2_done. intros p Hp. apply cycle_check_none; [now apply Hu|].
      apply closed_acyclic_phase. destruct (Hwf p Hp) as [Hl [Ha _]]. auto.
    + apply pass3_zero. intros p Hp. now destruct (Hwf p Hp) as [_ [_ [Hs _]]].
    + apply pass4_zero. intros p Hp. now destruct (Hwf p Hp) as [_ [_ [_ Hf]]].
Qed.

Theorem verify_terminates b l D : verify b l D <> OutOfFuel.
Proof. intros H. pose proof (verify_cases b l D) as C. now rewrite H in C. Qed.

Lemma verify_cge_pos b l D n : verify b l D = CodeGenError n -> n >= 1.
Proof. intros H. pose proof (verify_cases b l D) as C. now rewrite H in C. Qed.

(* an exception other than CodeGenerationError leaves verify_code only as KeyError, only with
   the all-phases id set, and only for a dependency on a statement of another phase *)
Theorem verify_crash b l D e : verify b l D = Crash e ->
  e = KeyError /\ b = false /\
  exists p s d, In p D /\ In s (pstmts p) /\ In d (sdeps s) /\
                ~ In d (phase_ids p) /\ In d (all_ids D).
Proof.
  intros H. pose proof (verify_cases b l D) as C. rewrite H in C. destruct C as [H1 E2].
  apply pass2_raise in E2. destruct E2 as [-> [p [Hp Hc]]].
  apply cycle_check_keyerror in Hc. destruct Hc as [s [d [Hs [Hd Hn]]]].
  pose proof (proj1 (pass1_zero b D) H1 p s d Hp Hs Hd) as Hin.
  destruct b; cbn in Hin; [contradiction|].
  repeat split; auto. exists p, s, d. auto.
Qed.

Theorem verify_no_crash_fixed l D e : verify true l D <> Crash e.
Proof. intros E. apply verify_crash in E. destruct E as [_ [E _]]. discriminate. Qed.

(* either shape of `ids`; with the one set over all phases (per_phase = false) a KeyError can
   escape instead of the message *)
Theorem verify_error_kind_partial b D : uniq_ids D -> ~ dag_wf D ->
  (exists n, n >= 1 /\ verify b 1 D = CodeGenError n) \/
  (verify b 1 D = Crash KeyError /\ b = false /\
   exists p s d, In p D /\ In s (pstmts p) /\ In d (sdeps s) /\
                 ~ In d (phase_ids p) /\ In d (all_ids D)).
Proof.
  intros Hu Hn. destruct (verify b 1 D) as [|n|e|] eqn:E.
  - exfalso. apply Hn. now apply (verify_iff b D Hu).
  - left. exists n. split; auto. eapply verify_cge_pos; eauto.
  - right. apply verify_crash in E. destruct E as [-> [-> H]]. auto.
  - now apply verify_terminates in E.
Qed.

(* per_phase = true: `ids` rebuilt per phase *)
Theorem verify_error_kind_fixed D : uniq_ids D -> ~ dag_wf D ->
  exists n, n >= 1 /\ verify true 1 D = CodeGenError n.
Proof.
  intros Hu Hn. destruct (verify_error_kind_partial true D Hu Hn) as [H|(_ & E & _)];
    [exact H|discriminate].
Qed.

Definition wit_cross : dag :=
  [mkPhase 0 0 [mkStmt 1 [2] Plain]; mkPhase 1 1 [mkStmt 2 [] Plain]].

Lemma wit_cross_uniq : uniq_ids wit_cross.
Proof.
  intros p [<-|[<-|[]]]; cbn; repeat constructor; cbn; tauto.
Qed.

Lemma wit_cross_not_wf : ~ dag_wf wit_cross.
Proof.
  intros H. destruct (H (mkPhase 0 0 [mkStmt 1 [2] Plain]) (or_introl eq_refl)) as [Hl _].
  specialize (Hl (mkStmt 1 [2] Plain) 2 (or_introl eq_refl) (or_introl eq_refl)).
  cbn in Hl. destruct Hl as [Hl|[]]. discriminate.
Qed.

Theorem verify_error_kind_refuted :
  uniq_ids wit_cross /\ ~ dag_wf wit_cross /\ verify false 1 wit_cross = Crash KeyError /\
  ~ (exists n, n >= 1 /\ verify false 1 wit_cross = CodeGenError n).
Proof.
  split; [exact wit_cross_uniq|]. split; [exact wit_cross_not_wf|].
  assert (verify false 1 wit_cross = Crash KeyError) as E by (vm_compute; reflexivity).
  split; auto. intros [n [_ H]]. rewrite E in H. discriminate.
Qed.

Definition ex_good : dag :=
  [mkPhase 0 1 [mkStmt 0 [] (Assigns [(true, 0)]); mkStmt 1 [0] Plain; mkStmt 2 [0; 1] (Switch 1);
                mkStmt 3 [1] (Assigns [(false, 0); (true, 1)])];
   mkPhase 1 0 [mkStmt 0 [] (Assigns [(true, 0)]); mkStmt 5 [0] (Switch 0)]].

Example ex_good_uniq : uniq_ids ex_good.
Proof.
  intros p [<-|[<-|[]]]; cbn; repeat constructor; cbn; intuition discriminate.
Qed.

Example ex_good_accepted : verify false 1 ex_good = Accept /\ verify true 1 ex_good = Accept.
Proof. split; vm_compute; reflexivity. Qed.

Example ex_good_wf : dag_wf ex_good.
Proof. apply (verify_iff true ex_good ex_good_uniq). now vm_compute. Qed.

(* ill-formed inputs of each kind are rejected with a message when `ids` is rebuilt per phase *)
Definition ex_cycle : dag := [mkPhase 0 0 [mkStmt 0 [2] Plain; mkStmt 1 [0] Plain; mkStmt 2 [1] Plain]].
Definition ex_two_writers : dag :=
  [mkPhase 0 0 [mkStmt 0 [] (Assigns [(true, 0)]); mkStmt 1 [0] (Assigns [(true, 0)])]].

Example ex_bad_rejected :
  verify true 1 ex_cycle = CodeGenError 1 /\ verify true 1 ex_two_writers = CodeGenError 1 /\
  verify true 1 wit_cross = CodeGenError 1 /\
  verify true 1 [mkPhase 0 0 [mkStmt 0 [] (Switch 7)]] = CodeGenError 1.
Proof. repeat split; vm_compute; reflexivity. Qed.

Example ex_cycle_not_wf : uniq_ids ex_cycle /\ ~ dag_wf ex_cycle.
Proof.
  assert (uniq_ids ex_cycle) as Hu.
  { intros p [<-|[]]; cbn; repeat constructor; cbn; intuition discriminate. }
  split; auto. intros H. apply (verify_iff true ex_cycle Hu) in H. vm_compute in H. discriminate.
Qed.

Section Plan.
  Variable stmts : list stmt.
  Notation ids := (map sid stmts).

  Definition succ_of (x : nat) : list nat :=
    match lookup stmts x with Some s => sdeps s | None => [] end.

  Definition lift (r : option (list nat)) : plan_res :=
    match r with Some a => PlanOk a | None => PlanRecursion end.

  Hypothesis Hclosed : forall s d, In s stmts -> In d (sdeps s) -> In d ids.
  Hypothesis Hacyc : forall x, ~ clos_trans nat (dep stmts) x x.

  Lemma edge_dep a b : Dfs.edge succ_of a b -> dep stmts a b.
  Proof.
    unfold Dfs.edge, succ_of. destruct (lookup stmts a) as [s|] eqn:E; [|intros []].
    apply lookup_Some in E. destruct E as [Hs <-]. now apply dep_intro.
  Qed.

  Lemma edge_path_dep a b : clos_trans nat (Dfs.edge succ_of) a b -> clos_trans nat (dep stmts) a b.
  Proof.
    induction 1 as [a b H|a b c _ IH1 _ IH2].
    - apply t_step. now apply edge_dep.
    - eapply t_trans; eauto.
  Qed.

  Lemma edge_acyclic x : ~ clos_trans nat (Dfs.edge succ_of) x x.
  Proof. intros H. apply (Hacyc x). now apply edge_path_dep. Qed.

  Lemma ids_closed a b : In a ids -> Dfs.edge succ_of a b -> In b ids.
  Proof.
    intros _ H. apply edge_dep in H. destruct H as [s [Hs [_ Hb]]]. eauto.
  Qed.

  (* add_with_deps is the library's post-order DFS, with None read as RecursionError *)
  Lemma awd_visit : forall f s acc, lookup stmts (sid s) = Some s ->
    add_with_deps stmts f s acc = lift (Dfs.visit succ_of f (sid s) acc).
  Proof.
    induction f as [|f IH]; intros s acc Hl; [reflexivity|].
    pose proof (proj1 (lookup_Some _ _ _ Hl)) as Hs.
    cbn [add_with_deps Dfs.visit]. unfold Dfs.memb. fold (memb (sid s) acc).
    destruct (memb (sid s) acc); [reflexivity|].
    assert (succ_of (sid s) = sdeps s) as Hsucc by (unfold succ_of; now rewrite Hl).
    rewrite Hsucc.
    assert (forall ds r, incl ds (sdeps s) ->
      fold_left (fun r d => match r with
                            | PlanOk a => match lookup stmts d with
                                          | None => PlanKeyError
                                          | Some s' => add_with_deps stmts f s' a
                                          end
                            | e => e end) ds (lift r) =
      lift (fold_left (fun r y => match r with Some a => Dfs.visit succ_of f y a | None => None end) ds r)) as HF.
    { induction ds as [|d ds IHd]; intros r Hin; [reflexivity|].
      cbn [fold_left]. destruct r as [a|]; cbn [lift].
      - assert (In d ids) as Hd by (eapply Hclosed; [exact Hs|apply Hin; now left]).
        destruct (lookup_In _ _ Hd) as [s' El]. destruct (lookup_Some _ _ _ El) as [Hs' Hi]. rewrite El.
        rewrite IH; [|now rewrite Hi].
        rewrite Hi. apply IHd. intros z Hz. apply Hin. now right.
      - change PlanRecursion with (lift None). apply IHd. intros z Hz. apply Hin. now right. }
    specialize (HF (sdeps s) (Some acc) (incl_refl _)). cbn [lift] in HF. rewrite HF.
    destruct (fold_left _ (sdeps s) (Some acc)); reflexivity.
  Qed.

  Lemma awd_total f s acc : lookup stmts (sid s) = Some s -> length stmts <= f ->
    exists a, add_with_deps stmts f s acc = PlanOk a.
  Proof.
    intros Hl Hf. rewrite awd_visit by assumption. pose proof (proj1 (lookup_Some _ _ _ Hl)) as Hs.
    destruct (Dfs.visit succ_of f (sid s) acc) as [a|] eqn:E; [now exists a|]. exfalso.
    revert E. apply (Dfs.adequacy succ_of edge_acyclic ids ids_closed f (sid s) acc []).
    - constructor.
    - intros z [<-|[]]. now apply in_map.
    - rewrite map_length. cbn. lia.
  Qed.

  Theorem update_plan_total depth roots : incl roots ids -> length stmts <= depth ->
    exists plan, update_plan stmts depth roots = PlanOk plan.
  Proof.
    intros Hr Hd. unfold update_plan. generalize (@nil nat) as acc.
    induction roots as [|r roots IH]; intros acc; cbn [fold_left]; [now exists acc|].
    destruct (lookup_In _ _ (Hr r (or_introl eq_refl))) as [s El].
    destruct (lookup_Some _ _ _ El) as [Hs Hi]. rewrite El.
    destruct (awd_total depth s acc) as [a Ha]; [now rewrite Hi|assumption|].
    rewrite Ha. apply IH. intros z Hz. apply Hr. now right.
  Qed.

  Lemma lookups_resolve s d : In s stmts -> In d (sdeps s) -> lookup stmts d <> None.
  Proof.
    intros Hs Hd E. apply lookup_None in E. apply E. eauto.
  Qed.
End Plan.

(* accepted methods: every id_to_stmt[...] lookup of the consumers resolves, and planning a
   step succeeds as soon as Python allows as many nested calls as the phase has statements *)
Theorem verify_consumers_total b D : uniq_ids D -> verify b 1 D = Accept ->
  forall p, In p D ->
    (forall s d, In s (pstmts p) -> In d (sdeps s) -> lookup (pstmts p) d <> None) /\
    (forall depth roots, incl roots (phase_ids p) -> length (pstmts p) <= depth ->
       exists plan, update_plan (pstmts p) depth roots = PlanOk plan).
Proof.
  intros Hu Ha p Hp. apply (verify_iff b D Hu) in Ha. destruct (Ha p Hp) as [Hl [Hc _]]. split.
  - intros s d. now apply lookups_resolve.
  - intros depth roots. now apply update_plan_total.
Qed.

Example ex_good_plan :
  update_plan (pstmts (mkPhase 0 1 [mkStmt 0 [] Plain; mkStmt 1 [0] Plain; mkStmt 2 [0; 1] Plain;
                                    mkStmt 3 [1] Plain])) 4 [2; 3] = PlanOk [0; 1; 2; 3].
Proof. vm_compute. reflexivity. Qed.

(* a chain longer than the allowed depth: the resource limit behind known finding
   interpreter_recursion_limit *)
Example ex_chain_recursion :
  update_plan [mkStmt 0 [] Plain; mkStmt 1 [0] Plain; mkStmt 2 [1] Plain] 2 [2] = PlanRecursion.
Proof. vm_compute. reflexivity. Qed.
