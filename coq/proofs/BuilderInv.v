(* The invariant behind CodeBuilder._add_statement's sparse dependency
   graph: every pair of conflicting statements is ordered by the transitive closure of
   the recorded edges (DESIGN.md appendix B), over model/BuilderCore.v. *)
From Coq Require Import List Arith Lia Relations.
Import ListNotations.
From Dagrt Require Import BuilderCore ListFacts.

Definition edge (o : list (list nat)) (i j : nat) : Prop := In i (nth j o []).
Definition prec (o : list (list nat)) : nat -> nat -> Prop := clos_trans nat (edge o).

Lemma edge_lt_len o i j : edge o i j -> j < length o.
Proof. unfold edge. intros H. destruct (lt_dec j (length o)); [assumption|].
  rewrite nth_overflow in H by lia. destruct H. Qed.
Lemma edge_mono o d i j : edge o i j -> edge (o ++ [d]) i j.
Proof. intros H. pose proof (edge_lt_len _ _ _ H). unfold edge in *. rewrite app_nth1; assumption. Qed.
Lemma prec_mono o d i j : prec o i j -> prec (o ++ [d]) i j.
Proof. induction 1; [apply t_step, edge_mono; assumption | eapply t_trans; eassumption]. Qed.
Lemma edge_new o d i : In i d -> edge (o ++ [d]) i (length o).
Proof. intros H. unfold edge. rewrite app_nth2 by lia. rewrite Nat.sub_diag. exact H. Qed.
Lemma prec_new o d i w : In w d -> i = w \/ prec o i w -> prec (o ++ [d]) i (length o).
Proof. intros Hw [->|Hp]; [|eapply t_trans; [apply prec_mono, Hp|]]; apply t_step, edge_new, Hw. Qed.

Section Inv.
  Variable V : Type.
  Variable V_eq_dec : forall a b : V, {a = b} + {a <> b}.
  Notation memb := (memb V V_eq_dec).

  Lemma memb_true v l : memb v l = true <-> In v l.
  Proof. unfold BuilderCore.memb. destruct (in_dec _ _ _); split; intros; auto; discriminate. Qed.
  Lemma memb_false v l : memb v l = false <-> ~ In v l.
  Proof. rewrite <- memb_true. symmetry. apply Bool.not_true_iff_false. Qed.

  Lemma build_snoc p s : build V V_eq_dec (p ++ [s]) = add V V_eq_dec (build V V_eq_dec p) s.
  Proof. unfold BuilderCore.build. now rewrite fold_left_app. Qed.

  Definition conflict (a b : rw V) : Prop :=
    (exists v, In v (W a) /\ (In v (R b) \/ In v (W b))) \/ (exists v, In v (R a) /\ In v (W b)).

  (* Statement i reaches, along recorded edges, the last writer of every variable it writes (or is that
     writer); for a variable it only reads it is still among the recorded readers, or it reaches the last
     writer, who took over the readers' edges when it was added.  The next statement depends on the last
     writers of all it touches and on the readers of all it writes, which is why this is enough. *)
  Definition Inv (p : list (rw V)) (b : bs V) : Prop :=
    length (out b) = length p /\
    forall i s v, nth_error p i = Some s ->
      (In v (W s) -> exists w, writer b v = Some w /\ (i = w \/ prec (out b) i w)) /\
      (In v (R s) -> ~ In v (W s) -> In i (readers b v) \/ exists w, writer b v = Some w /\ prec (out b) i w).

  Definition Covered (p : list (rw V)) (b : bs V) : Prop :=
    forall i j si sj, i < j -> nth_error p i = Some si -> nth_error p j = Some sj ->
      conflict si sj -> prec (out b) i j.

  Lemma in_wdeps (b : bs V) vs v w : In v vs -> writer b v = Some w -> In w (wdeps V b vs).
  Proof. intros Hv Hw. unfold wdeps. apply in_flat_map. exists v. split; [assumption|]. rewrite Hw. now left. Qed.

  Lemma step_ok p b s : Inv p b -> Covered p b -> Inv (p ++ [s]) (add V V_eq_dec b s) /\ Covered (p ++ [s]) (add V V_eq_dec b s).
  Proof.
    intros [Hlen HI] HC.
    set (n := length (out b)).
    set (d := wdeps V b (R s ++ W s) ++ flat_map (readers b) (W s)).
    assert (Hout : out (add V V_eq_dec b s) = out b ++ [d]) by reflexivity.
    (* an earlier statement that writes a variable s reads or writes is, or precedes, the
       recorded writer of that variable, which is among the new dependencies *)
    assert (KeyW : forall i si v, nth_error p i = Some si -> In v (W si) -> In v (R s ++ W s) ->
                   prec (out b ++ [d]) i n).
    { intros i si v Hi Hw Hv. destruct (HI i si v Hi) as [HW _]. destruct (HW Hw) as (w & Ew & Hiw).
      apply (prec_new _ _ _ w); [|exact Hiw]. apply in_or_app. left. eapply in_wdeps; eassumption. }
    assert (Key : forall i si, nth_error p i = Some si -> conflict si s -> prec (out b ++ [d]) i n).
    { intros i si Hi [[v [Hw Hrw]] | [v [Hr Hw]]].
      - apply (KeyW i si v Hi Hw). apply in_or_app. exact Hrw.
      - destruct (in_dec V_eq_dec v (W si)) as [Hwi|Hnw]; [apply (KeyW i si v Hi Hwi), in_or_app; now right|].
        destruct (HI i si v Hi) as [_ HR]. destruct (HR Hr Hnw) as [Hin | (w & Ew & Hp)].
        + apply t_step, edge_new, in_or_app. right. apply in_flat_map. exists v. split; assumption.
        + apply (prec_new _ _ _ w); [|now right].
          apply in_or_app. left. eapply in_wdeps; [|exact Ew]. apply in_or_app. now right. }
    split.
    - split; [rewrite Hout, !app_length; cbn; lia|].
      intros i s' v Hi. rewrite Hout. cbn [writer readers add]. fold n.
      apply nth_error_snoc in Hi as [Hi|[-> ->]].
      + destruct (HI i s' v Hi) as [HW HR]. split.
        * intros Hw. destruct (memb v (W s)) eqn:Em.
          -- apply memb_true in Em. exists n. split; [reflexivity|]. right.
             apply (Key i s' Hi). left. exists v. split; [assumption|now right].
          -- destruct (HW Hw) as (w & Ew & Hiw). exists w. split; [assumption|].
             destruct Hiw; [now left|right; apply prec_mono; assumption].
        * intros Hr Hnw. destruct (memb v (W s)) eqn:Em.
          -- apply memb_true in Em. right. exists n. split; [reflexivity|].
             apply (Key i s' Hi). right. exists v. split; assumption.
          -- destruct (HR Hr Hnw) as [Hin | (w & Ew & Hp)].
             ++ left. destruct (memb v (R s)); [now right|assumption].
             ++ right. exists w. split; [assumption|apply prec_mono; assumption].
      + rewrite <- Hlen. fold n. split.
        * intros Hw. apply memb_true in Hw. rewrite Hw. exists n. split; [reflexivity|now left].
        * intros Hr Hnw. apply memb_false in Hnw. rewrite Hnw.
          apply memb_true in Hr. rewrite Hr. left. now left.
    - intros i j si sj Hij Hi Hj Hc. rewrite Hout.
      apply nth_error_snoc in Hj as [Hj|[-> ->]].
      + assert (j < length p) by (apply nth_error_Some; congruence).
        rewrite nth_error_app1 in Hi by lia. apply prec_mono. eapply HC; eassumption.
      + rewrite nth_error_app1 in Hi by lia. rewrite <- Hlen. apply (Key i si Hi Hc).
  Qed.

  Theorem builder_covers : forall p, Inv p (build V V_eq_dec p) /\ Covered p (build V V_eq_dec p).
  Proof.
    induction p as [|s p IH] using rev_ind.
    - split; [split; [reflexivity|]|].
      + intros i s v Hi. destruct i; discriminate.
      + intros i j si sj _ Hi. destruct i; discriminate.
    - rewrite build_snoc. destruct IH. apply step_ok; assumption.
  Qed.

  Lemma build_covered p i j si sj :
    i < j -> nth_error p i = Some si -> nth_error p j = Some sj -> conflict si sj ->
    prec (out (build V V_eq_dec p)) i j.
  Proof. exact (proj2 (builder_covers p) i j si sj). Qed.

  Definition Back (n : nat) (b : bs V) : Prop :=
    length (out b) = n /\
    (forall v w, writer b v = Some w -> w < n) /\
    (forall v r, In r (readers b v) -> r < n) /\
    (forall j e, In e (nth j (out b) []) -> e < j).

  Lemma back_step n b s : Back n b -> Back (S n) (add V V_eq_dec b s).
  Proof.
    intros (Hl & Hw & Hr & Ho). unfold Back. cbn [add writer readers out]. rewrite Hl.
    split; [rewrite app_length; cbn; lia|]. split; [|split].
    - intros v w. destruct (memb v (W s)); [intros H; injection H as <-; lia|].
      intros H. apply Hw in H. lia.
    - intros v r. destruct (memb v (W s)); [intros []|].
      destruct (memb v (R s)); [intros [<-|H]; [lia|apply Hr in H; lia]|intros H; apply Hr in H; lia].
    - intros j e He. destruct (lt_dec j n) as [Hlt|Hge].
      + rewrite app_nth1 in He by lia. apply Ho, He.
      + destruct (Nat.eq_dec j n) as [->|Hne].
        * rewrite app_nth2, Hl, Nat.sub_diag in He by lia. cbn [nth] in He.
          rewrite in_app_iff in He. destruct He as [He|He].
          -- unfold wdeps in He. apply in_flat_map in He. destruct He as (v & _ & Hv).
             destruct (writer b v) as [w|] eqn:Ew; [|destruct Hv].
             destruct Hv as [<-|[]]. eapply Hw, Ew.
          -- apply in_flat_map in He. destruct He as (v & _ & Hv). eapply Hr, Hv.
        * rewrite nth_overflow in He; [destruct He|]. rewrite app_length, Hl. cbn. lia.
  Qed.

  Theorem back_build : forall p, Back (length p) (build V V_eq_dec p).
  Proof.
    induction p as [|s p IH] using rev_ind.
    - repeat split; try discriminate; cbn; intros; try contradiction. destruct j; destruct H.
    - rewrite build_snoc, app_length, Nat.add_1_r. apply back_step, IH.
  Qed.

  Lemma build_out_length p : length (out (build V V_eq_dec p)) = length p.
  Proof. exact (proj1 (back_build p)). Qed.

  Lemma build_edge_lt p e j : edge (out (build V V_eq_dec p)) e j -> e < j.
  Proof. destruct (back_build p) as (_ & _ & _ & G). apply G. Qed.
End Inv.
