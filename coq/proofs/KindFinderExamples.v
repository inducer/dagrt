(* Closed witnesses (vm_compute) for the kind-inference model: the full order-independence
   statement, its refutation per defect shape, and non-vacuity examples for the theorems
   order_independent_partial / order_independent / infer_kinds_phase_order. *)
From Coq Require Import List String Bool Permutation.
Import ListNotations.
From Dagrt Require Import Unify UnifyProofs KindOrder KindInfer KindRegistryProofs KindInferProofs
  KindTableProofs KindFinderProofs KindFinderFull.
Open Scope string_scope.

Definition sg (args : list string) (n : nat) (rk : rkind) : fsig :=
  {| f_args := args; f_nres := n; f_rk := rk |}.

(* some built-ins as dagrt/function_registry.py registers them, and an ODE right-hand side
   (register_ode_rhs(reg, "u", identifier="<func>f")) *)
Definition ex_reg : registry :=
  [("<builtin>elementwise_abs", sg ["x"] 1 RAbs);
   ("<builtin>dot_product", sg ["x"; "y"] 1 RDot);
   ("<builtin>array", sg ["n"] 1 RArray);
   ("<builtin>matmul", sg ["a"; "b"; "a_cols"; "b_cols"] 1 RMatMul);
   ("<builtin>svd", sg ["a"; "a_cols"] 3 RSvd);
   ("<func>f", sg ["t"; "u"] 1 (RRhs "u"))].

(* the literal lists are those of dagrt/utils.py is_state_variable and SymbolKindTable.__init__ *)
Definition mk_cfg (ut_int arr_int ins_changed set_raises prepass restart arr_only : bool) : cfg := {|
  c_ut_int := ut_int;
  c_arr_int := arr_int;
  c_ins_changed := ins_changed;
  c_set_raises := set_raises;
  c_loops_prepass := prepass;
  c_restart := restart;
  c_arr_only := arr_only;
  c_reg := ex_reg;
  c_is_state := is_state_variable ["<t>"; "<dt>"]
                  ["<state>"; "<p>"; "<ret_time_id>"; "<ret_time>"; "<ret_state>"];
  c_init_global := ["<t>"; "<dt>"]
|}.

(* Premises: no empty product in a flattened right-hand side (pymbolic.flatten never returns one); forced
   kinds are kinds, not None; neither run ends for lack of fuel. *)
Definition full_statement (c : cfg) : Prop :=
  forall fuel fuel' forced all all',
    Permutation all all' ->
    (forall it, In it all -> wf_item it) ->
    (forall p x k, In (p, x, k) forced -> k <> None) ->
    run_queue c fuel forced all <> OOutOfFuel ->
    run_queue c fuel' forced all' <> OOutOfFuel ->
    outcome_sim (run_queue c fuel forced all) (run_queue c fuel' forced all').

(* The same for the DAGCode front end: the order in which the phases dict lists the phases *)
Definition glue_statement (c : cfg) : Prop :=
  forall fuel fuel' dag dag',
    Permutation dag dag' ->
    (forall ph s, In ph dag -> In s (snd ph) -> stmt_ok s = true) ->
    infer_kinds c fuel dag <> OOutOfFuel ->
    infer_kinds c fuel' dag' <> OOutOfFuel ->
    outcome_sim (infer_kinds c fuel dag) (infer_kinds c fuel' dag').

Definition asg (lhs : string) (e : expr) : bstmt :=
  {| b_lhs := [lhs]; b_sub := false; b_loops := []; b_rhs := RExpr e e |}.

Definition asgl (lhs : string) (loops : list string) (sub : bool) (e : expr) : bstmt :=
  {| b_lhs := [lhs]; b_sub := sub; b_loops := loops; b_rhs := RExpr e e |}.

Definition calls (lhss : list string) (f : string) (args : list expr) (kwn : list string) : bstmt :=
  {| b_lhs := lhss; b_sub := false; b_loops := []; b_rhs := RCall f args kwn |}.

Lemma full_statement_refute : forall c fuel all all' o o',
  Permutation all all' -> Forall wf_item all ->
  run_queue c fuel [] all = o -> run_queue c fuel [] all' = o' ->
  o <> OOutOfFuel -> o' <> OOutOfFuel -> ~ outcome_sim o o' -> ~ full_statement c.
Proof.
  intros c fuel all all' o o' Hperm Hwf <- <- Ho Ho' Hn H. apply Hn, H; try assumption.
  - apply Forall_forall; assumption.
  - intros p x k [].
Qed.

Lemma table_equiv_differ : forall T T' k, tfind T k <> tfind T' k -> ~ table_equiv T T'.
Proof. intros T T' k Hne H. exact (Hne (H k)). Qed.

(* In the refutations below the switches the statement leaves open stay variables while the
   two runs are evaluated; only a switch that these runs look at is split first. *)

(* Defect: a loop variable set by a statement that does not count as progress.
   X: a <- i * 2        Y: c[0] <- 1  (loop variable i)
   Popping X first: X is deferred (i unknown), Y sets i and is dropped without progress,
   "no progress" => diagnostics find that X can now be inferred => AssertionError.
   Popping Y first: i is known when X is popped => a table.  Independent of the other switches
   (except the restart: the insertion of i is a change of the table). *)
Definition wX : qitem := ("p", asg "a" (EProd [EVar "i"; EConst true])).
Definition wY : qitem := ("p", asgl "c" ["i"] true (EConst true)).

Lemma full_statement_refuted : forall ui ai ic sr ao, ~ full_statement (mk_cfg ui ai ic sr false false ao).
Proof.
  intros ui ai ic sr ao.
  destruct ic;
    (eapply full_statement_refute with (fuel := 10) (all := [wX; wY]) (all' := [wY; wX]);
     [apply perm_swap|repeat constructor|vm_compute; reflexivity|vm_compute; reflexivity
     |discriminate|discriminate|exact (fun F => F)]).
Qed.

Example loop_variable_repaired :
  outcome_sim (run_queue (mk_cfg true true true true true true true) 10 [] [wX; wY])
              (run_queue (mk_cfg true true true true true true true) 10 [] [wY; wX]).
Proof. vm_compute. intros k. reflexivity. Qed.

(* Defect: inserting a new name does not set the change flag.
   z <- 1j ; y <- 1 + z   (program order; the finder pops from the end)
   y is popped first and gets Scalar(real) from the constant alone; z is inserted afterwards,
   nothing "changed", the loop stops: y stays real although it is complex. *)
Definition wZ : qitem := ("p", asg "z" (EConst false)).
Definition wS : qitem := ("p", asg "y" (ESum [EConst true; EVar "z"])).

Lemma insert_unflagged_refuted : forall sr pp rs ao,
  exists T T',
    run_queue (mk_cfg true true false sr pp rs ao) 10 [] [wZ; wS] = OTable T false /\
    run_queue (mk_cfg true true false sr pp rs ao) 10 [] [wS; wZ] = OTable T' false /\
    ~ table_equiv T T'.
Proof.
  intros sr pp rs ao. destruct pp; do 2 eexists;
    (split; [vm_compute; reflexivity|split; [vm_compute; reflexivity|]]);
    apply table_equiv_differ with (Some "p", "y"); discriminate.
Qed.

(* Defect: a failing unification is printed and ignored: the first kind wins.
   x <- <t> > 0 ; x <- <t> + 1 *)
Definition wB : qitem := ("p", asg "x" (ECmp (EVar "<t>") (EConst true))).
Definition wA : qitem := ("p", asg "x" (ESum [EVar "<t>"; EConst true])).

Lemma first_kind_wins_refuted : forall ic pp rs ao,
  exists T T',
    run_queue (mk_cfg true true ic false pp rs ao) 10 [] [wB; wA] = OTable T true /\
    run_queue (mk_cfg true true ic false pp rs ao) 10 [] [wA; wB] = OTable T' true /\
    ~ table_equiv T T'.
Proof.
  intros ic pp rs ao. destruct ic, pp; do 2 eexists;
    (split; [vm_compute; reflexivity|split; [vm_compute; reflexivity|]]);
    apply table_equiv_differ with (Some "p", "x"); discriminate.
Qed.

(* with the re-raise both orders fail *)
Example first_kind_wins_repaired :
  outcome_sim (run_queue (mk_cfg true true true true true true true) 10 [] [wB; wA])
              (run_queue (mk_cfg true true true true true true true) 10 [] [wA; wB]).
Proof. vm_compute. exact I. Qed.

(* Defect: giving up although the table changed during the pass.
   w <- 1.5 ; x <- i + w (loop i) ; y <- elementwise_abs(x)       (statements are popped from the end)
   In this order y is popped first and deferred, then x is entered as Integer (from i alone; w, not yet
   popped, is skipped by map_sum), w arrives, the retry sweep still sees x: Integer, elementwise_abs(Integer)
   cannot be inferred and no progress is made: RuntimeError -- the next pass would have raised x to Scalar.
   With the first two swapped, w is popped before x, x gets Scalar, y is retried: a table. *)
Definition wW : qitem := ("p", asg "w" (EConst true)).
Definition wXi : qitem := ("p", asgl "x" ["i"] false (ESum [EVar "i"; EVar "w"])).
Definition wAbs : qitem := ("p", asg "y" (ECall "<builtin>elementwise_abs" [EVar "x"] [])).

Lemma gives_up_early_refuted : forall ao, ~ full_statement (mk_cfg true true true true true false ao).
Proof.
  intros ao.
  eapply full_statement_refute with (fuel := 10) (all := [wW; wXi; wAbs]) (all' := [wXi; wW; wAbs]);
    [apply perm_swap|repeat constructor|vm_compute; reflexivity|vm_compute; reflexivity
    |discriminate|discriminate|exact (fun F => F)].
Qed.

Example gives_up_early_repaired :
  outcome_simb (run_queue (mk_cfg true true true true true true true) 10 [] [wW; wXi; wAbs])
              (run_queue (mk_cfg true true true true true true true) 10 [] [wXi; wW; wAbs]) = true.
Proof. vm_compute. reflexivity. Qed.

(* Defect: matmul is inferable for a Scalar but not for the UserType above it.
   a <- 1.5 ; a <- <func>f(<t>, <state>y) ; s <- matmul(a, a, 1, 1) + 1
   The order [a <- f(..); s <- ..; a <- 1.5] pops a <- 1.5 first, then s: matmul(Scalar, Scalar) is an
   Array, which the sum keeps although a then becomes the user type u and matmul(u, u) cannot be
   inferred any more; in program order a is the user type when s is popped and s is a Scalar. *)
Definition wA1 : qitem := ("p", asg "a" (EConst true)).
Definition wA2 : qitem := ("p", asg "a" (ECall "<func>f" [EVar "<t>"; EVar "<state>y"] [])).
Definition wMM : qitem :=
  ("p", asg "s" (ESum [ECall "<builtin>matmul" [EVar "a"; EVar "a"; EConst true; EConst true] []; EConst true])).

Lemma scalar_matrix_refuted : forall pp rs,
  exists T T',
    run_queue (mk_cfg true true true true pp rs false) 10 [] [wA1; wA2; wMM] = OTable T false /\
    run_queue (mk_cfg true true true true pp rs false) 10 [] [wA2; wMM; wA1] = OTable T' false /\
    ~ table_equiv T T'.
Proof.
  intros pp rs. destruct pp; do 2 eexists;
    (split; [vm_compute; reflexivity|split; [vm_compute; reflexivity|]]);
    apply table_equiv_differ with (Some "p", "s"); discriminate.
Qed.

Lemma scalar_matrix_full_refuted : forall pp rs, ~ full_statement (mk_cfg true true true true pp rs false).
Proof.
  intros pp rs. destruct (scalar_matrix_refuted pp rs) as [T [T' [E1 [E2 Hne]]]].
  apply full_statement_refute with (1 := Permutation_cons_append [wA2; wMM] wA1) (3 := E1) (4 := E2);
    [repeat constructor|discriminate|discriminate|exact Hne].
Qed.

Example scalar_matrix_repaired :
  outcome_simb (run_queue (mk_cfg true true true true true true true) 10 [] [wA1; wA2; wMM])
              (run_queue (mk_cfg true true true true true true true) 10 [] [wA2; wMM; wA1]) = true.
Proof. vm_compute. reflexivity. Qed.

(* Non-vacuity: the hypotheses of both theorems are satisfiable with a run in which a
   statement is deferred, a kind is raised from real to complex and a second pass is needed,
   with a loop variable and a subscripted assignment. *)
Definition wC : qitem := ("p", asg "w" (EProd [EVar "y"; EVar "z"; EVar "i"])).
Definition wL : qitem := ("p", asgl "v" ["i"] true (EVar "w")).

Example hypotheses_satisfiable :
  let c := mk_cfg true true true true true true true in
  let all := [wZ; wS; wC; wL] in
  let all' := [wL; wC; wS; wZ] in
  Permutation all all' /\
  (forall it, In it all -> wf_item it) /\
  (forall (p x : string) (k : okind), In (p, x, k) [("p", "z", Some KInt)] -> k <> None) /\
  exists T T',
    run_queue c 10 [("p", "z", Some KInt)] all = OTable T false /\
    run_queue c 10 [("p", "z", Some KInt)] all' = OTable T' false /\
    tfind T (Some "p", "w") = Some (Some (KScalar false)) /\
    tfind T' (Some "p", "w") = Some (Some (KScalar false)).
Proof.
  cbv zeta. split; [|split; [|split]].
  - replace [wL; wC; wS; wZ] with (rev [wZ; wS; wC; wL]) by reflexivity. apply Permutation_rev.
  - intros it [<-|[<-|[<-|[<-|[]]]]]; reflexivity.
  - intros p x k [[= <- <- <-]|[]]. discriminate.
  - do 2 eexists. split; [vm_compute; reflexivity|split; [vm_compute; reflexivity|split; reflexivity]].
Qed.

(* Non-vacuity with function calls: call statements (one with three results), a call nested
   in a sum with a keyword argument, arguments defined after their use in the list, a complex
   array that raises a result from real to complex in a second pass; two phases with a local
   variable of the same name and different kinds, presented in both dict orders. *)
Definition cM : bstmt := calls ["m"] "<builtin>array" [EConst true] [].
Definition cSvd : bstmt := calls ["u"; "s"; "v"] "<builtin>svd" [EVar "m"; EConst true] [].
Definition cD : bstmt :=
  asg "d" (ESum [ECall "<builtin>dot_product" [EVar "m"; EVar "m"] ["y"]; EConst true]).
Definition cMM : bstmt :=
  calls ["z"] "<builtin>matmul" [EVar "m"; EVar "v"; EConst true; EConst true] ["b_cols"; "a_cols"].
Definition cMc : bstmt := asg "m" (EProd [EVar "m"; EConst false]).
Definition cQ : bstmt := asg "m" (ECmp (EVar "<t>") (EConst true)).

Example hypotheses_satisfiable_calls :
  let c := mk_cfg true true true true true true true in
  let dag := [("p", [cMM; cD; cSvd; cM; cMc]); ("q", [cQ])] in
  let dag' := [("q", [cQ]); ("p", [cMc; cM; cSvd; cD; cMM])] in
  (forall ph s, In ph dag -> In s (snd ph) -> stmt_ok s = true) /\
  exists T T',
    infer_kinds c 10 dag = OTable T false /\ infer_kinds c 10 dag' = OTable T' false /\
    tfind T (Some "p", "z") = Some (Some (KArray false)) /\
    tfind T (Some "p", "s") = Some (Some (KArray false)) /\
    tfind T (Some "p", "d") = Some (Some (KScalar false)) /\
    tfind T (Some "p", "m") = Some (Some (KArray false)) /\
    tfind T (Some "q", "m") = Some (Some KBool) /\
    table_eqb T T' = true.
Proof.
  cbv zeta. split.
  - intros ph s [<-|[<-|[]]]; cbn; intros H; repeat (destruct H as [<-|H]; [reflexivity|]); destruct H.
  - do 2 eexists. repeat (split; [vm_compute; reflexivity|]). vm_compute; reflexivity.
Qed.

Lemma mk_cfg_init_ok : forall ui ai ic sr pp rs ao x,
  In x (c_init_global (mk_cfg ui ai ic sr pp rs ao)) -> c_is_state (mk_cfg ui ai ic sr pp rs ao) x = true.
Proof. intros ui ai ic sr pp rs ao x [<-|[<-|[]]]; reflexivity. Qed.

Theorem order_independent_partial_cfg : forall sr pp rs fuel fuel' forced all all' T T',
  Permutation all all' ->
  (forall it, In it all -> wf_item it) ->
  (forall p x k, In (p, x, k) forced -> k <> None) ->
  run_queue (mk_cfg true true true sr pp rs true) fuel forced all = OTable T false ->
  run_queue (mk_cfg true true true sr pp rs true) fuel' forced all' = OTable T' false ->
  table_equiv T T'.
Proof.
  intros sr pp rs. apply order_independent_partial; try reflexivity. apply mk_cfg_init_ok.
Qed.

Theorem order_independent_cfg : full_statement (mk_cfg true true true true true true true).
Proof.
  unfold full_statement. apply order_independent; try reflexivity. apply mk_cfg_init_ok.
Qed.

Theorem glue_cfg : glue_statement (mk_cfg true true true true true true true).
Proof.
  unfold glue_statement. apply infer_kinds_phase_order; try reflexivity. apply mk_cfg_init_ok.
Qed.
