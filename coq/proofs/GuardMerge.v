(* Merging adjacent conditionals with one guard (ASTSimplifyMapper.map_Block) against the
   interpreter's reading, in which every statement's guard is evaluated when the statement is
   reached.  The two readings agree when, in every merged conditional, each statement that is
   followed by another one keeps a true guard true -- what map_Block's test before a merge
   establishes syntactically -- and differ without that: the witness is the program of
   corpus/C03/raw_guard_rewritten.json (finding merged_guard_reevaluated of C03), which
   harness/c03.py runs.  A group is a guard with one body: a merged conditional with both branches
   filled, which map_Block builds from `if c`, `if not c`, `if c`, is not of that form, and
   merge_sound does not speak of it (corpus/C03/raw_guard_rewritten_in_else.json is run, not proved). *)
From Coq Require Import List Bool ZArith.
Import ListNotations.

Section Merge.
  Variable state : Type.

  Record gstmt := { guard : state -> bool; eff : state -> state }.

  (* the interpreter: guard evaluated when the statement is reached *)
  Definition exec1 (s : state) (g : gstmt) : state := if guard g s then eff g s else s.
  Definition run_each (l : list gstmt) (s : state) : state := fold_left exec1 l s.

  (* the generated code after merging: one test per group *)
  Record group := { gc : state -> bool; body : list (state -> state) }.
  Definition run_body (fs : list (state -> state)) (s : state) : state := fold_left (fun s f => f s) fs s.
  Definition run_group (s : state) (g : group) : state := if gc g s then run_body (body g) s else s.
  Definition run_merged (gs : list group) (s : state) : state := fold_left run_group gs s.

  Definition expand (g : group) : list gstmt := map (fun f => {| guard := gc g; eff := f |}) (body g).

  Definition stable_body (c : state -> bool) (fs : list (state -> state)) : Prop :=
    forall f, In f (removelast fs) -> forall s, c s = true -> c (f s) = true.
  Definition stable (g : group) : Prop := stable_body (gc g) (body g).

  Lemma skip_all c fs s : c s = false ->
    fold_left exec1 (map (fun f => {| guard := c; eff := f |}) fs) s = s.
  Proof.
    intros Hc. induction fs as [|f fs IH]; cbn [map fold_left]; [reflexivity|].
    unfold exec1 at 2. cbn [guard]. rewrite Hc. exact IH.
  Qed.

  Lemma run_all c fs : stable_body c fs -> forall s, c s = true ->
    fold_left exec1 (map (fun f => {| guard := c; eff := f |}) fs) s = run_body fs s.
  Proof.
    induction fs as [|f fs IH]; intros Hst s Hc; [reflexivity|].
    cbn [map fold_left]. unfold run_body. cbn [fold_left].
    unfold exec1 at 2. cbn [guard eff]. rewrite Hc.
    destruct fs as [|f2 fs2]; [reflexivity|].
    apply IH.
    - intros f' Hin s' Hs'. apply Hst; [|exact Hs']. cbn [removelast]. right. exact Hin.
    - apply Hst; [|exact Hc]. cbn [removelast]. left. reflexivity.
  Qed.

  Lemma group_sound g s : stable g -> run_each (expand g) s = run_group s g.
  Proof.
    intros Hst. unfold run_each, expand, run_group.
    destruct (gc g s) eqn:Hc.
    - apply run_all; assumption.
    - apply skip_all; assumption.
  Qed.

  Theorem merge_sound : forall gs, Forall stable gs ->
    forall s, run_each (flat_map expand gs) s = run_merged gs s.
  Proof.
    induction gs as [|g gs IH]; intros Hall s; [reflexivity|].
    inversion Hall as [|g' gs' Hg Hgs]; subst.
    cbn [flat_map]. unfold run_each, run_merged. rewrite fold_left_app. cbn [fold_left].
    fold (run_each (expand g) s). rewrite group_sound by exact Hg.
    apply IH. exact Hgs.
  Qed.
End Merge.

(* What map_Block's test establishes: when no statement of a group assigns a variable of the guard, the group
   is stable. *)
Section Syntactic.
  Variables var val : Type.
  Definition store := var -> val.
  Definition depends_only_on (g : store -> bool) (vs : list var) : Prop :=
    forall s s', (forall x, In x vs -> s x = s' x) -> g s = g s'.
  Definition writes_only (f : store -> store) (ws : list var) : Prop :=
    forall s x, ~ In x ws -> f s x = s x.

  Lemma disjoint_keeps g vs f ws :
    depends_only_on g vs -> writes_only f ws -> (forall x, In x vs -> ~ In x ws) ->
    forall s, g (f s) = g s.
  Proof. intros Hg Hf Hd s. apply Hg. intros x Hx. apply Hf. apply Hd. exact Hx. Qed.

  Theorem syntactic_stable (g : group store) vs :
    depends_only_on (gc store g) vs ->
    (forall f, In f (body store g) -> exists ws, writes_only f ws /\ forall x, In x vs -> ~ In x ws) ->
    stable store g.
  Proof.
    intros Hg Hb f Hin s Hs.
    assert (Hf : In f (body store g)).
    { clear -Hin. induction (body store g) as [|a l IH]; [destruct Hin|].
      destruct l as [|b l']; [destruct Hin|]. cbn [removelast] in Hin.
      destruct Hin as [<-|Hin]; [left; reflexivity|right; apply IH; exact Hin]. }
    destruct (Hb f Hf) as [ws [Hw Hd]].
    rewrite (disjoint_keeps _ vs f ws Hg Hw Hd). exact Hs.
  Qed.

  Corollary merge_sound_syntactic : forall gs : list (group store),
    Forall (fun g => exists vs, depends_only_on (gc store g) vs /\
                     forall f, In f (body store g) -> exists ws, writes_only f ws /\ forall x, In x vs -> ~ In x ws) gs ->
    forall s, run_each store (flat_map (expand store) gs) s = run_merged store gs s.
  Proof.
    intros gs Hall. apply merge_sound.
    induction Hall as [|g gs' [vs [Hg Hb]] _ IH]; constructor; [|exact IH].
    exact (syntactic_stable g vs Hg Hb).
  Qed.
End Syntactic.

(* the witness: state = (<p>x, <p>y);  `<p>x <- 0 if <p>x > 1`, `<p>y <- <p>y + 1 if <p>x > 1`, then
   `<p>x <- <p>x + 3` unguarded; <p>x = 5, <p>y = 0.  wit_interpreter is what the interpreter leaves after one
   step, wit_generated what code that merges the two conditionals leaves; map_Block, with its test, does not
   merge them. *)
Definition wst := (Z * Z)%type.
Definition w_guard : wst -> bool := fun s => (1 <? fst s)%Z.
Definition w_setx : wst -> wst := fun s => (0%Z, snd s).
Definition w_incy : wst -> wst := fun s => (fst s, (snd s + 1)%Z).
Definition w_addx : wst -> wst := fun s => ((fst s + 3)%Z, snd s).
Definition w_groups : list (group wst) :=
  [ {| gc := w_guard; body := [w_setx; w_incy] |}; {| gc := fun _ => true; body := [w_addx] |} ].
Definition w_init : wst := (5%Z, 0%Z).

Example wit_interpreter : run_each wst (flat_map (expand wst) w_groups) w_init = (3%Z, 0%Z).
Proof. vm_compute. reflexivity. Qed.
Example wit_generated : run_merged wst w_groups w_init = (3%Z, 1%Z).
Proof. vm_compute. reflexivity. Qed.

Theorem merge_refuted :
  exists (gs : list (group wst)) (s : wst), run_each wst (flat_map (expand wst) gs) s <> run_merged wst gs s.
Proof. exists w_groups, w_init. rewrite wit_interpreter, wit_generated. discriminate. Qed.

(* non-vacuity of merge_sound: a two-statement group whose first statement leaves the guard alone *)
Example stable_somewhere :
  Forall (stable wst) [ {| gc := w_guard; body := [w_incy; w_incy] |}; {| gc := fun _ => true; body := [w_addx] |} ].
Proof.
  repeat constructor; unfold stable, stable_body; cbn [gc body removelast In]; intros f [<-|[]] s Hs; exact Hs.
Qed.
