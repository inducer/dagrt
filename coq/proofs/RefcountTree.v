(* C12, one phase function.  Inv A st: refcount_inv U st; every variable of the phase that the
   source has assigned and that is unassociated is a local that no statement of A mentions; every
   variable of another phase is unassociated.  A is the list of statements that may still run, so
   the emitted code of a node n satisfies  { Inv (stmts_of n ++ A) }  emit_node n  { Inv A }
   (inside a loop body A contains the body again, and the repaired generator releases nothing). *)
From Coq Require Import List Arith Bool.
Import ListNotations.
From Dagrt Require Import ListFacts Refcount RefcountBase RefcountState.

(* run_code's two nested fixpoints, as functions of their own *)
Fixpoint run_list (v : valn) (ctx : list nat) (l : list code) (st : mstate) : outcome :=
  match l with
  | [] => ONormal st
  | c :: r => match run_code v c ctx st with
              | ONormal st' => run_list v ctx r st'
              | o => o
              end
  end.

(* k trips are left, the next one has index i *)
Fixpoint run_loop (v : valn) (ctx : list nat) (b : code) (k i : nat) (st : mstate) : outcome :=
  match k with
  | 0 => ONormal st
  | S k' => match run_code v b (i :: ctx) st with
            | ONormal st' => run_loop v ctx b k' (S i) st'
            | o => o
            end
  end.

Lemma run_code_block v ctx l st : run_code v (CBlock l) ctx st = run_list v ctx l st.
Proof.
  revert st. induction l as [|c r IH]; intros st; [reflexivity|].
  cbn. destruct (run_code v c ctx st); try reflexivity. apply IH.
Qed.

Lemma run_code_for v ctx b k st : run_code v (CFor k b) ctx st = run_loop v ctx b k 0 st.
Proof.
  cbn. generalize 0 as i. revert st. induction k as [|k IH]; intros st i; [reflexivity|].
  cbn. destruct (run_code v b (i :: ctx) st); try reflexivity. apply IH.
Qed.

Lemma run_code_if v c t e ctx st :
  run_code v (CIf c t e) ctx st = if evalg (v ctx) c then run_code v t ctx st else run_code v e ctx st.
Proof. reflexivity. Qed.

Lemma run_list_ops v ctx l st : run_list v ctx (map COp l) st = run_ops l st.
Proof.
  revert st. induction l as [|o r IH]; intros st; [reflexivity|].
  cbn. destruct (run_op o st); try reflexivity. apply IH.
Qed.

Lemma run_code_ops v ctx l st : run_code v (CBlock (map COp l)) ctx st = run_ops l st.
Proof. rewrite run_code_block. apply run_list_ops. Qed.

Lemma run_ops_app l1 l2 st :
  run_ops (l1 ++ l2) st = match run_ops l1 st with ONormal st' => run_ops l2 st' | o => o end.
Proof.
  revert st. induction l1 as [|o r IH]; intros st; [reflexivity|].
  cbn. destruct (run_op o st); try reflexivity. apply IH.
Qed.

Lemma run_ops_single o st : run_ops [o] st = run_op o st.
Proof. cbn. destruct (run_op o st); reflexivity. Qed.

Section NodeInd.
  Variable P : node -> Prop.
  Hypothesis Hs : forall s, P (NStmt s).
  Hypothesis Hb : forall l, Forall P l -> P (NBlock l).
  Hypothesis Ht : forall c t, P t -> P (NIfT c t).
  Hypothesis Hte : forall c t e, P t -> P e -> P (NIfTE c t e).
  Hypothesis Hf : forall k b, P b -> P (NFor k b).
  Fixpoint node_ind' (n : node) : P n :=
    match n with
    | NStmt s => Hs s
    | NBlock l => Hb l ((fix go (l : list node) : Forall P l :=
                          match l with
                          | [] => Forall_nil P
                          | x :: r => Forall_cons x (node_ind' x) (go r)
                          end) l)
    | NIfT c t => Ht c t (node_ind' t)
    | NIfTE c t e => Hte c t e (node_ind' t) (node_ind' e)
    | NFor k b => Hf k b (node_ind' b)
    end.
End NodeInd.

Lemma last_tbl_app l1 l2 x :
  last_tbl (l1 ++ l2) x = match last_tbl l2 x with Some i => Some i | None => last_tbl l1 x end.
Proof.
  induction l1 as [|s r IH]; cbn.
  - destruct (last_tbl l2 x); reflexivity.
  - rewrite IH. destruct (last_tbl l2 x); reflexivity.
Qed.

Lemma last_tbl_in l x i : last_tbl l x = Some i -> In i (map sid l).
Proof.
  induction l as [|s r IH]; cbn; [discriminate|].
  destruct (last_tbl r x) as [j|].
  - intros [= <-]. right. auto.
  - destruct (memv x (mentions s)); [|discriminate]. intros [= <-]. now left.
Qed.

Lemma last_tbl_mention s r x : In x (mentions s) -> exists i, last_tbl (s :: r) x = Some i.
Proof.
  intros H. cbn. destruct (last_tbl r x) as [j|]; [eauto|].
  apply memv_In in H. rewrite H. eauto.
Qed.

Lemma last_tbl_at pre s post x :
  In x (mentions s) ->
  exists i, last_tbl (pre ++ s :: post) x = Some i /\ In i (map sid (s :: post)).
Proof.
  intros H. destruct (last_tbl_mention s post x H) as [i Hi].
  exists i. rewrite last_tbl_app, Hi. split; [reflexivity|]. now apply last_tbl_in with x.
Qed.

Lemma disj_sub (S : list nat) (a b : list nat) :
  (forall i, In i S -> ~ In i b) -> incl a b -> forall i, In i S -> ~ In i a.
Proof. intros H Hi i Hs Ha. exact (H i Hs (Hi i Ha)). Qed.

Section Phase.
  Variable U : list var.
  Variables globs locs : list var.
  Let scope := globs ++ locs.
  Variable all : list stmt.
  Let tbl := last_tbl all.
  Hypothesis ND : NoDup U.
  Hypothesis scopeU : forall x, In x scope -> In x U.
  Hypothesis NDsid : NoDup (map sid all).
  Hypothesis WF : forall s, In s all -> stmt_wf scope s = true.
  Variable v : valn.
  Variable swc : bool.          (* sw_stmt_cond: the invariant holds for both shapes of lower_inst *)
  (* The switch before it in stmt_ops, emit_stmt and emit_node is sw_loop_skip, given as `true`
     throughout: with `false` the invariant fails (RefcountProofs.invariant_refuted). *)

  Definition mentioned (A : list stmt) (x : var) : Prop := exists s, In s A /\ In x (mentions s).

  Definition Jinv (A : list stmt) (st : mstate) : Prop :=
    forall x, In x scope -> defd st x = true -> vars st x = None -> ~ In x globs /\ ~ mentioned A x.
  Definition Out (st : mstate) : Prop := forall y, ~ In y scope -> vars st y = None.
  Definition Inv (A : list stmt) (st : mstate) : Prop := refcount_inv U st /\ Jinv A st /\ Out st.
  (* what is left of it at an early exit: persistent variables that are assigned are associated *)
  Definition Jg (st : mstate) : Prop :=
    forall x, In x globs -> defd st x = true -> vars st x <> None.
  Definition Q (st : mstate) : Prop := refcount_inv U st /\ Jg st /\ Out st.

  Definition post (P : mstate -> Prop) (o : outcome) : Prop :=
    match o with
    | ONormal st => P st
    | OExit st | OStopped st => Q st
    | OFault f st => is_src f /\ refcount_inv U st
    end.

  Definition usable (A : list stmt) (x : var) : Prop := In x scope /\ (In x globs \/ mentioned A x).

  Lemma mentioned_incl A A' x : incl A' A -> mentioned A' x -> mentioned A x.
  Proof. intros Hi [s [Hs Hx]]. exists s. auto. Qed.

  (* fewer statements ahead: a weaker claim *)
  Lemma Inv_mono A A' st : incl A' A -> Inv A st -> Inv A' st.
  Proof.
    intros Hi (I & J & O). split; [assumption|]. split; [|assumption]. intros x Hx Dx Vx.
    destruct (J x Hx Dx Vx) as [Hg Hm]. split; [assumption|]. intros Hm'. apply Hm.
    now apply (mentioned_incl A A').
  Qed.

  (* the trace is no part of the invariant *)
  Lemma Inv_ev A st l : Inv A st -> Inv A (ev st l).
  Proof. exact (fun H => H). Qed.

  Lemma Inv_Q A st : Inv A st -> Q st.
  Proof.
    intros (I & J & O). split; [assumption|]. split; [|assumption]. intros x Hx Dx Vx.
    assert (Hs : In x scope) by (apply in_or_app; now left).
    destruct (J x Hs Dx Vx) as [Hg _]. contradiction.
  Qed.

  Lemma post_mono (P P' : mstate -> Prop) o : (forall st, P st -> P' st) -> post P o -> post P' o.
  Proof. destruct o; cbn; auto. Qed.

  Lemma post_bind (P P' : mstate -> Prop) o (k : mstate -> outcome) :
    post P o -> (forall st, P st -> post P' (k st)) ->
    post P' (match o with ONormal st => k st | o' => o' end).
  Proof. destruct o; cbn; auto. Qed.

  (* the bind rule in the shape the sequencing matches of run_ops, run_list and run_loop have: their
     scrutinee is not a variable, so their fall-through branch `| o => o` is elaborated into branches
     that rebuild the outcome, which the conclusion of post_bind does not unify with *)
  Lemma post_seq (P P' : mstate -> Prop) o (k : mstate -> outcome) :
    post P o -> (forall st, P st -> post P' (k st)) ->
    post P' (match o with
             | ONormal st => k st
             | OExit st => OExit st | OStopped st => OStopped st | OFault f st => OFault f st
             end).
  Proof. destruct o; cbn; auto. Qed.

  Lemma usable_assoc A x st : Inv A st -> usable A x -> defd st x = true -> vars st x <> None.
  Proof.
    intros (_ & J & _) [Hs Hu] Dx Vx. destruct (J x Hs Dx Vx) as [Hg Hm]. destruct Hu; contradiction.
  Qed.

  Lemma Inv_repoint A x st st' :
    In x scope -> Inv A st -> repoint U x st st' ->
    vars st' x <> None \/ (~ In x globs /\ ~ mentioned A x) ->
    Inv A st'.
  Proof.
    intros Hx (I & J & O) (I' & Fr & D) Hx'. split; [assumption|]. split.
    - intros y Hy Dy Vy. destruct (Nat.eq_dec y x) as [->|Hne].
      + destruct Hx' as [Hx'|Hx']; [contradiction | exact Hx'].
      + rewrite D in Dy by assumption. rewrite Fr in Vy by assumption. auto.
    - intros y Hy. rewrite Fr; [auto|]. intros ->. contradiction.
  Qed.

  Lemma op_alloc A x st : In x scope -> Inv A st -> post (Inv A) (run_op (OAllocCheck x) st).
  Proof.
    intros Hx HI. cbn.
    destruct (alloc_check_spec U x st ND (scopeU x Hx) (proj1 HI)) as (st' & E & R & Vx).
    rewrite E. apply (Inv_repoint A x st st'); auto.
  Qed.

  Lemma op_use A x st : usable A x -> Inv A st -> post (Inv A) (run_op (OUse x) st).
  Proof.
    intros Hu HI. pose proof HI as (I & J & O). cbn. destruct Hu as [Hs Hu'].
    destruct (use_spec U x st (scopeU x Hs) I) as [[D E]|[[D [V E]]|[D [V E]]]]; rewrite E; cbn.
    - split; [eexists; reflexivity | assumption].
    - exfalso. apply (usable_assoc A x st HI (conj Hs Hu') D V).
    - assumption.
  Qed.

  Lemma op_move A d s st :
    In d scope -> usable A s -> s <> d -> Inv A st -> post (Inv A) (run_op (OMove d s) st).
  Proof.
    intros Hd Hu Hne HI. cbn. pose proof Hu as [Hs _].
    destruct (move_spec U d s st ND (scopeU d Hd) (scopeU s Hs) Hne (proj1 HI))
      as [[D E]|[[D [V [st' E]]]|[D [V [st' (E & R & Vd)]]]]]; rewrite E; cbn.
    - split; [eexists; reflexivity | apply HI].
    - exfalso. apply (usable_assoc A s st HI Hu D V).
    - apply (Inv_repoint A d st st'); auto.
  Qed.

  Lemma op_deinit_last A x st :
    In x scope -> ~ In x globs -> ~ mentioned A x ->
    Inv A st -> post (Inv A) (run_op (ODeinit x) st).
  Proof.
    intros Hx Hg Hm HI. cbn.
    destruct (deinit_spec U x st ND (scopeU x Hx) (proj1 HI)) as (st' & E & R & Vx & _).
    rewrite E. apply (Inv_repoint A x st st'); auto.
  Qed.

  Lemma op_simple A o st :
    (exists b, o = OMark b) \/ (exists p, o = OSetNext p) \/ o = OGoto \/ o = OStop ->
    Inv A st -> post (Inv A) (run_op o st).
  Proof. intros [[b ->]|[[p ->]|[->| ->]]] HI; cbn; [exact HI | exact HI | |]; exact (Inv_Q A _ HI). Qed.

  Lemma run_ops_post (P : mstate -> Prop) l st :
    (forall o, In o l -> forall st, P st -> post P (run_op o st)) ->
    P st -> post P (run_ops l st).
  Proof.
    revert st. induction l as [|o r IH]; intros st H HP; [exact HP|].
    cbn [run_ops]. apply (post_seq P); [apply H; [now left | exact HP]|].
    intros st1. apply IH. intros o' Ho'. apply H. now right.
  Qed.

  Lemma run_ops_post_map (P : mstate -> Prop) (f : var -> op) xs st :
    (forall x, In x xs -> forall st, P st -> post P (run_op (f x) st)) ->
    P st -> post P (run_ops (map f xs) st).
  Proof.
    intros H. apply run_ops_post. intros o Ho. apply in_map_iff in Ho.
    destruct Ho as [x [<- Hx]]. exact (H x Hx).
  Qed.

  Lemma stmt_wf_parts s : stmt_wf scope s = true ->
    (forall x, In x (mentions s) -> In x scope) /\
    (forall x, In x (reads s) -> In x (mentions s)) /\
    match kind s with
    | KMove d src => In d scope /\ src <> d /\ In src (mentions s)
    | KAlloc ds => forall x, In x ds -> In x scope
    | KExit _ => True
    end.
  Proof.
    unfold stmt_wf, stmt_vars. intros H.
    apply andb_true_iff in H. destruct H as [H H3].
    apply andb_true_iff in H. destruct H as [H1 H2].
    pose proof (subset_In _ _ H1) as Hsc. split; [|split; [apply subset_In; assumption|]].
    - intros x Hx. apply Hsc. destruct (kind s); cbn [In]; rewrite ?in_app_iff; auto.
    - destruct (kind s) as [d src|ds|e]; [|intros x Hx; apply Hsc, in_or_app; now left | exact I].
      apply andb_true_iff in H3. destruct H3 as [Ha Hb]. split; [apply Hsc; now left|]. split.
      + apply negb_true_iff in Ha. apply Nat.eqb_neq in Ha. auto.
      + now apply memv_In.
  Qed.

  (* the text of the phase from the current point on *)
  Definition at_pos (rest : list stmt) : Prop := exists pre, all = pre ++ rest.

  Lemma at_pos_skip a b : at_pos (a ++ b) -> at_pos b.
  Proof. intros [pre E]. exists (pre ++ a). now rewrite <- app_assoc. Qed.

  (* the one fact about the last-use table: statement ids do not recur, so if the table names s
     for x, nothing behind s mentions x *)
  Lemma last_here_unmentioned s post' x :
    at_pos (s :: post') -> tbl x = Some (sid s) -> ~ mentioned post' x.
  Proof.
    intros [pre E] Ht [s' [Hs' Hx]]. apply in_split in Hs'. destruct Hs' as (a & b & ->).
    destruct (last_tbl_at (pre ++ s :: a) s' b x Hx) as [j [Hj Hjin]].
    unfold tbl in Ht. rewrite <- app_assoc, <- app_comm_cons, <- E, Ht in Hj. injection Hj as <-.
    pose proof NDsid as N. rewrite E, map_app in N. apply NoDup_app_r in N. cbn [map] in N.
    inversion N as [|? ? Hn _]. apply Hn. rewrite map_app. apply in_or_app. now right.
  Qed.

  (* what emit_inst_<T> emits for s: the statement proper, then its last-use releases *)
  Lemma stmt_ops_ok (inloop : bool) s post' A st :
    at_pos (s :: post') -> (inloop = false -> incl A post') -> Inv (s :: A) st ->
    post (Inv A) (run_ops (stmt_ops true globs tbl inloop s) st).
  Proof.
    intros Hpos HA HI.
    assert (Hin : In s all) by (destruct Hpos as [pre ->]; apply in_elt).
    destruct (stmt_wf_parts s (WF s Hin)) as (Hsc & Hrm & Hk).
    assert (Hment : forall x, In x (mentions s) -> usable (s :: A) x).
    { intros x Hx. split; [auto|]. right. exists s. split; [now left | exact Hx]. }
    unfold stmt_ops. rewrite run_ops_app. apply (post_seq (Inv (s :: A))).
    - unfold stmt_core. destruct (kind s) as [d src|ds|e].
      + destruct Hk as (Hd & Hne & Hsrc). rewrite run_ops_single.
        exact (op_move _ d src st Hd (Hment src Hsrc) Hne HI).
      + rewrite run_ops_app. apply (post_seq (Inv (s :: A))).
        * apply run_ops_post_map; [|exact HI]. intros x Hx st1. apply op_alloc. auto.
        * intros st1 H1. apply run_ops_post_map; [|exact H1]. intros x Hx st2. apply op_use. auto.
      + destruct e; exact (Inv_Q _ _ HI).
    - intros st1 H1. apply (Inv_mono _ A st1 (incl_tl s (incl_refl A))) in H1.
      unfold lastuse_deinits. destruct (lastuse s && negb (true && inloop)) eqn:Hl; [|exact H1].
      (* releases are emitted only outside loop bodies, where A lies behind s in the text *)
      assert (inloop = false) as Hout by (destruct inloop; [now rewrite andb_false_r in Hl | reflexivity]).
      apply run_ops_post_map; [|exact H1]. intros x Hx st2.
      apply filter_In in Hx. destruct Hx as [Hx Hf].
      apply andb_true_iff in Hf. destruct Hf as [Hlast Hng].
      unfold last_here in Hlast. destruct (tbl x) as [i|] eqn:Ht; [|discriminate].
      apply Nat.eqb_eq in Hlast. subst i. apply op_deinit_last; auto.
      + apply negb_true_iff in Hng. now apply memv_false.
      + intros Hm. apply (last_here_unmentioned s post' x Hpos Ht).
        exact (mentioned_incl post' A x (HA Hout) Hm).
  Qed.

  (* lower_inst: the markers, and the `if` around a statement that carries its own condition
     (a statement whose condition is false does nothing: the variables whose last mention it is
     stay associated and are released at the exit label) *)
  Lemma stmt_ok (inloop : bool) ctx s post' A st :
    at_pos (s :: post') -> (inloop = false -> incl A post') -> Inv (s :: A) st ->
    post (Inv A) (run_code v (emit_stmt true swc globs tbl inloop s) ctx st).
  Proof.
    intros Hpos HA HI. unfold emit_stmt. rewrite run_code_block. cbn [run_list].
    change (run_code v (COp (OMark true)) ctx st) with (ONormal (ev st [TMark true])). cbv iota.
    pose proof (Inv_ev _ st [TMark true] HI) as HI0.
    pose proof (stmt_ops_ok inloop s post' A _ Hpos HA HI0) as Hops.
    (* the closing marker only extends the trace (Inv_ev) *)
    apply (post_seq (Inv A)); [|intros st1 H1; exact H1].
    destruct (if swc then scond s else None) as [c|]; [|rewrite run_code_ops; exact Hops].
    rewrite run_code_if. destruct (evalg (v ctx) c); [rewrite run_code_ops; exact Hops|].
    exact (Inv_mono _ A _ (incl_tl s (incl_refl A)) HI0).
  Qed.

  Lemma node_ok : forall n (inloop : bool) ctx post' A st,
    at_pos (stmts_of n ++ post') -> (inloop = false -> incl A post') -> Inv (stmts_of n ++ A) st ->
    post (Inv A) (run_code v (emit_node true swc globs tbl inloop n) ctx st).
  Proof.
    induction n as [s|l IHl|c t IHt|c t e IHt IHe|k b IHb] using node_ind';
      intros inloop ctx post' A st Hpos HA HI; cbn [emit_node stmts_of] in *.
    - apply (stmt_ok inloop ctx s post' A st Hpos HA HI).
    - (* children c :: r: c runs with r's statements added to what is ahead (A := r ++ A) and to
         the text behind it (post' := r ++ post'), which leaves the block r in the same situation *)
      rewrite run_code_block. revert st HI.
      induction IHl as [|c r Hc _ IHr]; intros st HI; cbn [map run_list flat_map] in *; [exact HI|].
      rewrite <- app_assoc in Hpos, HI.
      apply (post_seq _ _ _ _ (Hc inloop ctx _ _ st Hpos (fun H => incl_app_app (incl_refl _) (HA H)) HI)).
      apply IHr. exact (at_pos_skip _ _ Hpos).
    - rewrite run_code_if. destruct (evalg (v ctx) c).
      + apply (IHt inloop ctx post' A st Hpos HA HI).
      + exact (Inv_mono _ A st (incl_appr _ (incl_refl A)) HI).
    - rewrite run_code_if. rewrite <- app_assoc in Hpos, HI. destruct (evalg (v ctx) c).
      + apply (IHt inloop ctx _ A st Hpos (fun H => incl_appr _ (HA H))).
        refine (Inv_mono _ _ st _ HI).
        apply incl_app_app; [apply incl_refl | apply incl_appr, incl_refl].
      + apply (IHe inloop ctx post' A st (at_pos_skip _ _ Hpos) HA).
        exact (Inv_mono _ _ st (incl_appr _ (incl_refl _)) HI).
    - rewrite run_code_for.
      (* a trip may be followed by the body again *)
      assert (Hloop : forall k i st, Inv (stmts_of b ++ A) st ->
                post (Inv (stmts_of b ++ A)) (run_loop v ctx (emit_node true swc globs tbl true b) k i st)).
      { clear st HI. intros k'. induction k' as [|k' IHk]; intros i st HI; [exact HI|].
        cbn [run_loop]. apply (post_seq (Inv (stmts_of b ++ A))); [|intros st1; apply IHk].
        apply (IHb true (i :: ctx) post' _ st Hpos); [discriminate|].
        refine (Inv_mono _ _ st _ HI). apply incl_app; [apply incl_appl|]; apply incl_refl. }
      eapply post_mono; [|apply Hloop; exact HI].
      intros st1. apply Inv_mono, incl_appr, incl_refl.
  Qed.

  Lemma body_ok n ctx st :
    all = stmts_of n -> Inv (stmts_of n) st ->
    post (Inv []) (run_code v (emit_node true swc globs tbl false n) ctx st).
  Proof.
    intros Hall HI. apply (node_ok n false ctx [] [] st).
    - exists []. now rewrite app_nil_r.
    - intros _. apply incl_refl.
    - now rewrite app_nil_r.
  Qed.
End Phase.
