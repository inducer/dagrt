(* Schedules of independent steps (DESIGN.md, Appendix A), about any step function, nothing of dagrt:
   running a list in an order that only moves elements past elements they are independent of gives
   the same state (sched_run_eq), and every linear extension of a dependency relation that covers
   the non-independent pairs is such an order (linext_sched). *)
From Coq Require Import List Permutation Arith Lia.
Import ListNotations.

Section LinExt.
  Variables (A S : Type).
  Variable step : A -> S -> S.
  Variable indep : A -> A -> Prop.

  Definition run (l : list A) (s : S) : S := fold_left (fun s a => step a s) l s.

  Lemma run_app l1 l2 s : run (l1 ++ l2) s = run l2 (run l1 s).
  Proof. unfold run. apply fold_left_app. Qed.

  Inductive sched : list A -> list A -> Prop :=
  | sched_nil : sched [] []
  | sched_pick l1 a l2 l' :
      (forall b, In b l1 -> indep b a) -> sched (l1 ++ l2) l' ->
      sched (l1 ++ a :: l2) (a :: l').

  Lemma FOP_app_l (R : A -> A -> Prop) l1 l2 : ForallOrdPairs R (l1 ++ l2) -> ForallOrdPairs R l1.
  Proof. induction l1 as [|x l1 IH]; intros H; [constructor|].
    inversion H as [|? ? Hx Hr]; subst. constructor; [|auto].
    rewrite Forall_forall in *. intros y Hy. apply Hx. rewrite in_app_iff; now left. Qed.
  Lemma FOP_remove (R : A -> A -> Prop) l1 a l2 :
    ForallOrdPairs R (l1 ++ a :: l2) -> ForallOrdPairs R (l1 ++ l2).
  Proof. induction l1 as [|x l1 IH]; cbn; intros H.
    - inversion H; assumption.
    - inversion H as [|? ? Hx Hr]; subst. constructor; [|auto].
      rewrite Forall_forall in *. intros y Hy. apply Hx.
      rewrite in_app_iff in *. destruct Hy; [now left|right; now right]. Qed.
  Lemma FOP_mid (R : A -> A -> Prop) l1 a l2 b :
    ForallOrdPairs R (l1 ++ a :: l2) -> In b l1 -> R b a.
  Proof. induction l1 as [|x l1 IH]; cbn; intros H Hb; [destruct Hb|].
    inversion H as [|? ? Hx Hr]; subst. destruct Hb as [->|Hb]; [|auto].
    rewrite Forall_forall in Hx. apply Hx. rewrite in_app_iff. right; now left. Qed.

  Variable dep : A -> A -> Prop.
  Definition cov (b a : A) : Prop := ~ indep b a -> dep b a.
  Inductive linext : list A -> Prop :=
  | le_nil : linext []
  | le_cons a l' : (forall b, In b l' -> ~ dep b a) -> linext l' -> linext (a :: l').
  Hypothesis indep_dec : forall a b, {indep a b} + {~ indep a b}.

  Theorem linext_sched : forall l' l, NoDup l -> Permutation l l' ->
    ForallOrdPairs cov l -> linext l' -> sched l l'.
  Proof.
    induction l' as [|a l' IH]; intros l ND P C LE.
    - apply Permutation_sym, Permutation_nil in P. subst. constructor.
    - inversion LE as [|? ? Hdep LE']; subst.
      assert (Ha : In a l) by (eapply Permutation_in; [symmetry; exact P|now left]).
      apply in_split in Ha. destruct Ha as (l1 & l2 & ->).
      assert (P' : Permutation (l1 ++ l2) l').
      { symmetry. eapply Permutation_cons_app_inv. symmetry. exact P. }
      constructor.
      + intros b Hb. destruct (indep_dec b a) as [|Hn]; [assumption|exfalso].
        apply (Hdep b).
        * eapply Permutation_in; [exact P'|]. rewrite in_app_iff; now left.
        * exact (FOP_mid _ _ _ _ _ C Hb Hn).
      + apply IH; auto.
        * eapply NoDup_remove_1; exact ND.
        * eapply FOP_remove; exact C.
  Qed.

End LinExt.

(* Runs up to an equivalence on states and under an invariant (C02 compares stores
   extensionally, and two independent statements commute only on stores in which no loop
   counter is live). *)
Section LinExtEq.
  Variables (A S : Type).
  Variable step : A -> S -> S.
  Variable eqS : S -> S -> Prop.
  Variable Inv : S -> Prop.
  Variable indep : A -> A -> Prop.
  Hypothesis eqS_refl : forall s, eqS s s.
  Hypothesis eqS_trans : forall a b c, eqS a b -> eqS b c -> eqS a c.
  Hypothesis step_proper : forall a s s', eqS s s' -> eqS (step a s) (step a s').
  Hypothesis step_inv : forall a s, Inv s -> Inv (step a s).
  Hypothesis indep_sym : forall a b, indep a b -> indep b a.
  Hypothesis indep_comm : forall a b s, indep a b -> Inv s ->
                                        eqS (step a (step b s)) (step b (step a s)).

  Notation run := (run A S step).

  Lemma run_proper l : forall s s', eqS s s' -> eqS (run l s) (run l s').
  Proof. induction l as [|a l IH]; intros s s' H; [exact H|]. cbn. apply IH, step_proper, H. Qed.

  Lemma run_inv l : forall s, Inv s -> Inv (run l s).
  Proof. induction l as [|a l IH]; intros s H; [exact H|]. cbn. apply IH, step_inv, H. Qed.

  (* eqS is not assumed symmetric.  In this direction, which is the one sched_run_eq needs,
     indep_comm applies as it stands and indep_sym is not used. *)
  Lemma bubble_eq : forall l1 a s, Inv s -> (forall b, In b l1 -> indep b a) ->
    eqS (run (a :: l1) s) (run (l1 ++ [a]) s).
  Proof.
    induction l1 as [|b l1 IH]; intros a s Hs H; [apply eqS_refl|].
    apply eqS_trans with (run (a :: l1) (step b s)).
    - change (eqS (run l1 (step b (step a s))) (run l1 (step a (step b s)))).
      apply run_proper, indep_comm; [apply H; now left|exact Hs].
    - apply IH; [apply step_inv, Hs|intros; apply H; now right].
  Qed.

  (* the other direction, for which indep_comm has to be turned round by indep_sym *)
  Lemma bubble_eq_rev : forall l1 a s, Inv s -> (forall b, In b l1 -> indep b a) ->
    eqS (run (l1 ++ [a]) s) (run (a :: l1) s).
  Proof.
    induction l1 as [|b l1 IH]; intros a s Hs H; [apply eqS_refl|].
    apply eqS_trans with (run (a :: l1) (step b s)).
    - apply IH; [apply step_inv, Hs|intros; apply H; now right].
    - change (eqS (run l1 (step a (step b s))) (run l1 (step b (step a s)))).
      apply run_proper, indep_comm; [apply indep_sym, H; now left|exact Hs].
  Qed.

  Theorem sched_run_eq : forall l l', sched A indep l l' -> forall s, Inv s -> eqS (run l' s) (run l s).
  Proof.
    induction 1 as [|l1 a l2 l' Hind _ IH]; intros s Hs; [apply eqS_refl|].
    apply eqS_trans with (run (l1 ++ l2) (step a s)); [apply IH, step_inv, Hs|].
    replace (l1 ++ a :: l2) with ((l1 ++ [a]) ++ l2) by (rewrite <- app_assoc; reflexivity).
    rewrite (run_app A S step l1 l2), (run_app A S step (l1 ++ [a]) l2).
    apply run_proper, (bubble_eq l1 a s Hs Hind).
  Qed.

  Variable dep : A -> A -> Prop.
  Hypothesis indep_dec : forall a b, {indep a b} + {~ indep a b}.

  (* No proof on the way to this corollary uses indep_sym.  It is a hypothesis of it all the same
     (hence Proof using All): the theorem is stated for an independence relation, which is symmetric. *)
  Corollary linext_run_eq l l' s : Inv s -> NoDup l -> Permutation l l' ->
    ForallOrdPairs (cov A indep dep) l -> linext A dep l' -> eqS (run l' s) (run l s).
  Proof using All. intros Hs ND P C LE. apply sched_run_eq; [|exact Hs]. eapply linext_sched; eassumption. Qed.
End LinExtEq.
Print Assumptions linext_run_eq.

Section LinExtExact.
  Variables (A S : Type).
  Variable step : A -> S -> S.
  Variable indep : A -> A -> Prop.
  (* as above a hypothesis of every theorem of this section; only bubble uses it (through bubble_eq_rev) *)
  Hypothesis indep_sym : forall a b, indep a b -> indep b a.
  Hypothesis indep_comm : forall a b s, indep a b -> step a (step b s) = step b (step a s).

  Notation run := (run A S step).
  Notation sched := (sched A indep).

  Lemma bubble : forall l1 a s, (forall b, In b l1 -> indep b a) ->
    run (l1 ++ [a]) s = run (a :: l1) s.
  Proof. intros. apply (bubble_eq_rev A S step eq (fun _ => True) indep); auto; congruence. Qed.

  Theorem sched_run : forall l l', sched l l' -> forall s, run l' s = run l s.
  Proof using All.
    intros. apply (sched_run_eq A S step eq (fun _ => True) indep); auto; congruence.
  Qed.

  Variable dep : A -> A -> Prop.
  Hypothesis indep_dec : forall a b, {indep a b} + {~ indep a b}.
  Notation cov := (cov A indep dep).
  Notation linext := (linext A dep).

  Corollary linext_run l l' s : NoDup l -> Permutation l l' ->
    ForallOrdPairs cov l -> linext l' -> run l' s = run l s.
  Proof. intros. apply sched_run, (linext_sched A indep dep); assumption. Qed.
End LinExtExact.
Print Assumptions linext_run.
