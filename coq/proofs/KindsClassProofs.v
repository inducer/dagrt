(* C09: kinds against value classes (coq/model/Kinds.v): what [unify] returns covers what Python/numpy
   arithmetic produces, and the kinds declared for the built-ins cover what builtins_python.py returns. *)
From Coq Require Import List String Bool Arith Lia.
Import ListNotations.
Open Scope string_scope.
Open Scope list_scope.
From Dagrt Require Import Kinds.

(* Inverting [has_kind c k = true] through this view gives the seven cases at once, with the realness flags
   still variables. *)
Inductive kind_class : vclass -> kind -> Prop :=
| kc_bool : kind_class CBool KBool
| kc_int : kind_class CInt KInt
| kc_sint r : kind_class CInt (KScalar r)
| kc_sreal r : kind_class CReal (KScalar r)
| kc_scomplex : kind_class CComplex (KScalar false)
| kc_arr r r' : implb r r' = true -> kind_class (CArr r') (KArray r)
| kc_user i : kind_class (CUser i) (KUser i).

Lemma has_kind_inv : forall c k, has_kind c k = true -> kind_class c k.
Proof.
  intros c k H. destruct k as [| |r|r|i], c as [| | | | |r'|j]; try discriminate H; try constructor.
  - destruct r; [discriminate H | constructor].
  - exact H.
  - apply String.eqb_eq in H. subst. constructor.
Qed.

Lemma kind_le_sound : forall a b c, kind_le a b = true -> has_kind c a = true -> has_kind c b = true.
Proof.
  intros a b c Hle Hc.
  destruct (has_kind_inv _ _ Hc) as [| |r|r| |r r' I|i]; destruct b as [| |s|s|j];
    try discriminate Hle; try reflexivity.
  - destruct s; [discriminate Hle | reflexivity].
  - destruct s, r; try reflexivity; try discriminate Hle. exact I.
  - apply String.eqb_eq in Hle. subst j. apply String.eqb_refl.
Qed.

Lemma kind_le_refl : forall k, kind_le k k = true.
Proof.
  destruct k as [| |r|r|i]; simpl; try reflexivity; try (destruct r; reflexivity).
  apply String.eqb_refl.
Qed.

Definition hk (c : vclass) (k : kind) : Prop := has_kind c k = true.

Lemma unify_nonbool : forall k1 k2 ko,
  unify (Some k1) (Some k2) = Ok ko -> exists k, ko = Some k /\ k <> KBool.
Proof.
  intros k1 k2 ko H.
  destruct k1 as [| |r1|r1|i1], k2 as [| |r2|r2|i2]; simpl in H; try discriminate;
    try (destruct (String.eqb i1 i2); try discriminate);
    inversion H; subst; eexists; split; try reflexivity; discriminate.
Qed.

(* m = 1: + and *; m = 2: /, where int/int is left out *)
Lemma unify_join_sound : forall m k1 k2 k c1 c2 c,
  (m = 1 \/ (m = 2 /\ ~ (k1 = KInt /\ k2 = KInt))) ->
  unify (Some k1) (Some k2) = Ok (Some k) ->
  has_kind c1 k1 = true -> has_kind c2 k2 = true ->
  In c (cjoin m c1 c2) ->
  has_kind c k = true.
Proof.
  intros m k1 k2 k c1 c2 c Hm Hu H1 H2 Hin.
  destruct (has_kind_inv _ _ H1) as [| |r1|r1| |r1 a1 I1|i1], (has_kind_inv _ _ H2) as [| |r2|r2| |r2 a2 I2|i2];
    try discriminate Hu; simpl in Hu;
    try (destruct (String.eqb_spec i1 i2) as [<-|]; [simpl in Hin; rewrite String.eqb_refl in Hin | discriminate Hu]);
    injection Hu as <-.
  (* a user type or an array on either side: the class does not depend on m *)
  all: try (destruct Hin as [<-|[]];
            first [apply String.eqb_refl | exact I2 | destruct r1; try destruct r2; simpl in *; subst; reflexivity]).
  (* two scalars: the class is the larger rank, at least m *)
  all: destruct Hm as [-> | [-> Hne]]; try (exfalso; apply Hne; split; reflexivity);
    destruct Hin as [<-|[]]; try reflexivity; destruct r1; reflexivity.
Qed.

(* 0 + c  /  1 * c *)
Lemma join_int_sound : forall k c2 c,
  k <> KBool -> has_kind c2 k = true -> In c (cjoin 1 CInt c2) -> has_kind c k = true.
Proof.
  intros k c2 c Hk H2 Hin.
  destruct (has_kind_inv _ _ H2); try congruence; destruct Hin as [<-|[]]; try reflexivity; assumption.
Qed.

(* base ** integer literal *)
Lemma unify_pow_sound : forall k1 k c1 c,
  unify (Some k1) (Some (KScalar true)) = Ok (Some k) ->
  has_kind c1 k1 = true -> In c (cpow c1 CInt) ->
  has_kind c k = true.
Proof.
  intros k1 k c1 c Hu H1 Hin.
  destruct (has_kind_inv _ _ H1) as [| |r|r| |r a I|i]; try discriminate Hu; injection Hu as <-;
    simpl in Hin; repeat destruct Hin as [<-|Hin]; try destruct Hin; try reflexivity; try assumption.
  simpl. rewrite !andb_true_r. exact I.
Qed.

Lemma ccmp_scalar : forall o k1 k2 c1 c2 c,
  scalar_kind (Some k1) = true -> scalar_kind (Some k2) = true ->
  has_kind c1 k1 = true -> has_kind c2 k2 = true -> In c (ccmp o c1 c2) -> c = CBool.
Proof.
  intros o k1 k2 c1 c2 c S1 S2 H1 H2 Hin.
  destruct (has_kind_inv _ _ H1); try discriminate S1; destruct (has_kind_inv _ _ H2); try discriminate S2;
    destruct Hin as [<-|[]]; reflexivity.
Qed.

Lemma csub_sound : forall k r ki ca ci c,
  realness (Some k) = Some r -> scalar_kind (Some ki) = true ->
  has_kind ca k = true -> has_kind ci ki = true -> In c (csub ca ci) ->
  has_kind c (KScalar r) = true.
Proof.
  intros k r ki ca ci c Hr Hs Ha Hi Hin.
  destruct (has_kind_inv _ _ Ha) as [| |ra|ra| |ra a I|i]; try discriminate Hr; injection Hr as <-;
    destruct (has_kind_inv _ _ Hi); try discriminate Hs; try contradiction Hin.
  (* an array indexed by an integer *)
  all: destruct ra, a; try discriminate I; simpl in Hin; repeat destruct Hin as [<-|Hin]; try destruct Hin; reflexivity.
Qed.

Lemma classes_of_kind_sound : forall k c, In c (classes_of_kind k) -> has_kind c k = true.
Proof.
  intros k c H.
  destruct k as [| |r|r|i]; try destruct r; simpl in H; repeat destruct H as [<-|H]; try destruct H; try reflexivity.
  apply String.eqb_refl.
Qed.

Lemma cartesian_classes_sound : forall ks r,
  In r (cartesian (map classes_of_kind ks)) -> Forall2 (fun c k => has_kind c k = true) r ks.
Proof.
  induction ks as [|k ks IH]; intros r H; simpl in H.
  - destruct H as [H|[]]. subst. constructor.
  - apply in_flat_map in H. destruct H as [c [Hc H]].
    apply in_map_iff in H. destruct H as [r' [Hr H]]. subst.
    constructor; [apply classes_of_kind_sound; assumption | apply IH; assumption].
Qed.

Definition arg_rel (c : vclass) (k : okind) : Prop := exists k', k = Some k' /\ has_kind c k' = true.

Lemma rhs_kinds : forall o i n a ks, result_kinds true (FRhs o i n) a = Some ks -> ks = [KUser o].
Proof.
  intros o i n a ks H. destruct a as [|t rest]; simpl in H; try discriminate.
  repeat match type of H with (if ?b then _ else _) = _ => destruct b; try discriminate end.
  inversion H. reflexivity.
Qed.

(* matmul, linear_solve: `a.is_real_valued and b.is_real_valued` against the product of two arrays *)
Lemma arr_and_sound : forall r1 r2 a1 a2 ks,
  implb r1 a1 = true -> implb r2 a2 = true ->
  (if r1 then Some [KArray r2] else Some [KArray false]) = Some ks ->
  Forall2 (fun c k => has_kind c k = true) [CArr (a1 && a2)] ks.
Proof.
  intros r1 r2 a1 a2 ks H1 H2 Hr. destruct r1; injection Hr as <-; repeat constructor.
  simpl in H1. subst a1. exact H2.
Qed.

Definition cresult_ok (C : cfg) (s : fsig) : Prop := forall a cs ks r,
  sig_ok C s a = true ->
  Forall2 arg_rel cs a ->
  result_kinds true s a = Some ks ->
  In r (cresult C s cs) ->
  Forall2 (fun c k => has_kind c k = true) r ks.

(* the next argument: its class c, its kind k and H : has_kind c k = true; HF keeps the rest *)
Ltac arg HF c k H := destruct HF as [|c ? ? ? [k [-> H]] HF]; [try discriminate|].
(* the class/kind pairs of H that pass the function's own test Hr *)
Ltac kc H Hr := destruct (has_kind_inv _ _ H); try discriminate Hr.

Lemma cresult_unary : forall C s, In s [FNorm; FAbs; FLen; FArray; FPrint] -> cresult_ok C s.
Proof.
  intros C s Hs a cs ks r Hsig HF Hr Hin. repeat destruct Hs as [<-|Hs]; try contradiction Hs;
    arg HF c k H; (destruct HF; [|discriminate]);
    kc H Hr; try contradiction Hin; injection Hr as <-; destruct Hin as [<-|[]];
    repeat constructor; try apply String.eqb_refl.
Qed.

Lemma cresult_matrix2 : forall C s, In s [FMatMul; FLinSolve] -> cresult_ok C s.
Proof.
  intros C s Hs a cs ks r Hsig HF Hr Hin. repeat destruct Hs as [<-|Hs]; try contradiction Hs;
    arg HF c1 k1 H1; arg HF c2 k2 H2; arg HF c3 k3 H3; arg HF c4 k4 H4; (destruct HF; [|discriminate]);
    kc H1 Hr; kc H2 Hr; kc H3 Hr; kc H4 Hr; try contradiction Hin;
    destruct Hin as [<-|[]]; eapply arr_and_sound; eassumption.
Qed.

Lemma cresult_matrix1 : forall C s, In s [FTranspose; FSvd] -> cresult_ok C s.
Proof.
  intros C s Hs a cs ks r Hsig HF Hr Hin. repeat destruct Hs as [<-|Hs]; try contradiction Hs;
    arg HF c1 k1 H1; arg HF c2 k2 H2; (destruct HF; [|discriminate]);
    kc H1 Hr; kc H2 Hr; try contradiction Hin;
    injection Hr as <-; destruct Hin as [<-|[]]; repeat constructor; try assumption; apply implb_true_r.
Qed.

Lemma cresult_dot : forall C, cresult_ok C FDot.
Proof.
  intros C a cs ks r Hsig HF Hr Hin. arg HF c1 k1 H1. arg HF c2 k2 H2. destruct HF; [|discriminate].
  kc H1 Hr; kc H2 Hr; injection Hr as <-; simpl in Hin;
    repeat match type of Hin with context [if ?b then _ else _] => destruct b end;
    repeat destruct Hin as [<-|Hin]; try destruct Hin; repeat constructor.
Qed.

(* without isnan_any the built-in is elementwise, and sig_ok admits scalars only *)
Lemma cresult_isnan : forall C, cresult_ok C FIsNan.
Proof.
  intros C a cs ks r Hsig HF Hr Hin. arg HF c k H. destruct HF; [|discriminate].
  kc H Hr; injection Hr as <-; simpl in Hin, Hsig;
    destruct (isnan_any C); try discriminate Hsig; destruct Hin as [<-|[]]; repeat constructor.
Qed.

Lemma cresult_sound : forall C s a cs ks r,
  sig_ok C s a = true ->
  Forall2 arg_rel cs a ->
  result_kinds true s a = Some ks ->
  In r (cresult C s cs) ->
  Forall2 (fun c k => has_kind c k = true) r ks.
Proof.
  intros C s.
  destruct s as [| | | | | | | | | | |out ins names|argn fks];
    first [apply cresult_unary; simpl; tauto | apply cresult_matrix2; simpl; tauto
          | apply cresult_matrix1; simpl; tauto | apply cresult_dot | apply cresult_isnan | idtac];
    intros a cs ks r Hsig HF Hr Hin.
  - apply rhs_kinds in Hr. subst ks. destruct Hin as [<-|[]]. repeat constructor. apply String.eqb_refl.
  - destruct a; discriminate Hr.
Qed.
