(* The partial order induced by the (repaired) unify.  `unify true true`, the shape in which
   both asserts accept Integer, is a partial join: everything here follows from its
   commutativity, associativity and idempotence off Boolean (UnifyProofs: unify_comm, unify_assoc,
   unify_idem_defined), and from Boolean joining with nothing. *)
From Coq Require Import List String Bool.
Import ListNotations.
From Dagrt Require Import Unify UnifyProofs KindInfer.
Open Scope string_scope.

Definition UU := unify true true.

(* None is only below None: a kind that is None carries no information and is ordered by [wle]. *)
Definition kle (a b : okind) : Prop := a = b \/ (a <> None /\ UU a b = Ok b).

(* accumulators of map_sum / map_product_like start at None *)
Definition wle (a b : okind) : Prop := a = None \/ kle a b.

Lemma U_UU : forall c, c_ut_int c = true -> c_arr_int c = true -> forall a b, U c a b = UU a b.
Proof. intros c Hut Harr a b. unfold U, UU. rewrite Hut, Harr. reflexivity. Qed.

Lemma UU_none_r : forall a, UU a None = Ok a.
Proof. apply unify_none_r. Qed.

Lemma UU_comm : forall a b r, UU a b = Ok r -> UU b a = Ok r.
Proof. intros a b r H. apply res_sim_ok. rewrite <- H. apply unify_comm. Qed.

Lemma UU_assoc_l : forall a b c ab r, UU a b = Ok ab -> UU ab c = Ok r ->
  exists bc, UU b c = Ok bc /\ UU a bc = Ok r.
Proof.
  intros a b c ab r H1 H2. apply bind_ok, res_sim_ok. unfold UU in *.
  pose proof (unify_assoc a b c) as H. rewrite H1 in H. cbn in H. rewrite H2 in H. exact H.
Qed.

Lemma UU_assoc_r : forall a b c bc r, UU b c = Ok bc -> UU a bc = Ok r ->
  exists ab, UU a b = Ok ab /\ UU ab c = Ok r.
Proof.
  intros a b c bc r H1 H2.
  destruct (UU_assoc_l c b a bc r) as [ab [Hab Hr]]; auto using UU_comm.
  exists ab. auto using UU_comm.
Qed.

Lemma kle_refl : forall a, kle a a.
Proof. left; reflexivity. Qed.

Lemma kle_none_r : forall a, kle a None -> a = None.
Proof. intros a [H|[_ H]]; [assumption|]. rewrite UU_none_r in H. congruence. Qed.

Lemma kle_none_l : forall b, kle None b -> b = None.
Proof. intros b [H|[H _]]; congruence. Qed.

Lemma kle_bool_l : forall b, kle (Some KBool) b -> b = Some KBool.
Proof. intros b [<-|[_ H]]; [reflexivity|exact (unify_bool_l _ _ _ _ H)]. Qed.

Lemma kle_some : forall a b, kle a b -> a <> None -> b <> None.
Proof. intros a b H Ha Hb; subst. apply kle_none_r in H. contradiction. Qed.

Lemma kle_antisym : forall a b, kle a b -> kle b a -> a = b.
Proof.
  intros a b [H1|[_ H1]] [H2|[_ H2]]; try congruence.
  apply UU_comm in H2. congruence.
Qed.

Lemma kle_trans : forall a b c, kle a b -> kle b c -> kle a c.
Proof.
  intros a b c [->|[Ha H1]] H2; [assumption|].
  destruct H2 as [<-|[_ H2]]; right; split; try assumption.
  destruct (UU_assoc_l _ _ _ _ _ H1 H2) as [bc [Hbc H]]. congruence.
Qed.

Lemma UU_upper_l : forall a b r, UU a b = Ok r -> a <> None -> kle a r.
Proof.
  intros a b r H Ha. destruct (okind_eqb a (Some KBool)) eqn:E.
  - (* Boolean is the one kind with UU a a undefined; it joins only with None, and is then the result *)
    apply okind_eqb_eq in E; subst. left. symmetry. exact (unify_bool_l _ _ _ _ H).
  - apply okind_eqb_neq in E. right; split; [assumption|].
    (* a v r = a v (a v b) = (a v a) v b = a v b = r *)
    destruct (UU_assoc_l a a b a r) as [ab [Hab Hr]]; [apply unify_idem_defined| |]; congruence.
Qed.

Lemma UU_upper_r : forall a b r, UU a b = Ok r -> b <> None -> kle b r.
Proof. intros a b r H. apply UU_upper_l with a, UU_comm, H. Qed.

Lemma UU_some_l : forall a b r, UU a b = Ok r -> a <> None -> r <> None.
Proof. intros a b r H Ha. exact (kle_some _ _ (UU_upper_l _ _ _ H Ha) Ha). Qed.

Lemma UU_some_r : forall a b r, UU a b = Ok r -> b <> None -> r <> None.
Proof. intros a b r H. apply UU_some_l with a, UU_comm, H. Qed.

Lemma UU_lub : forall a b c, kle a c -> kle b c -> a <> b ->
  exists j, UU a b = Ok j /\ kle j c.
Proof.
  intros a b c [->|[Ha H1]] [->|[Hb H2]] Hne.
  - contradiction.
  - exists c. split; [apply UU_comm; assumption|apply kle_refl].
  - exists c. split; [assumption|apply kle_refl].
  - destruct (UU_assoc_r _ _ _ _ _ H2 H1) as [j [Hj Hjc]].
    exists j. split; [assumption|]. right; split; [eapply UU_some_l; eassumption|assumption].
Qed.

Lemma UU_mono : forall a a' b b' c', kle a a' -> kle b b' -> UU a' b' = Ok c' ->
  exists c, UU a b = Ok c /\ kle c c'.
Proof.
  intros a a' b b' c' H1 H2 H.
  destruct a as [ka|].
  2:{ apply kle_none_l in H1; subst. exists b. split; [reflexivity|]. cbn in H. congruence. }
  destruct b as [kb|].
  2:{ apply kle_none_l in H2; subst. rewrite UU_none_r in *. exists (Some ka). split; congruence. }
  assert (Ha : kle (Some ka) c').
  { apply kle_trans with a'; [assumption|]. eapply UU_upper_l; [eassumption|].
    eapply kle_some; [eassumption|discriminate]. }
  assert (Hb : kle (Some kb) c').
  { apply kle_trans with b'; [assumption|]. eapply UU_upper_r; [eassumption|].
    eapply kle_some; [eassumption|discriminate]. }
  destruct (okind_eqb (Some ka) (Some kb)) eqn:E;
    [apply okind_eqb_eq in E|apply okind_eqb_neq in E; apply UU_lub; assumption].
  injection E as <-. exists (Some ka). split; [|assumption].
  (* a = b: the join exists unless both are Boolean, and then so are a' and b' *)
  apply unify_idem_defined. intros [= ->].
  rewrite (kle_bool_l _ H1), (kle_bool_l _ H2) in H. discriminate.
Qed.

Lemma UU_mono_w : forall a a' b b' c', wle a a' -> kle b b' -> UU a' b' = Ok c' ->
  exists c, UU a b = Ok c /\ wle c c'.
Proof.
  intros a a' b b' c' [->|H1] H2 H.
  - exists b. split; [reflexivity|].
    destruct b as [kb|]; [right|left; reflexivity].
    assert (Hb' : b' <> None) by (apply (kle_some (Some kb)); [assumption|discriminate]).
    eapply kle_trans; [exact H2|]. eapply UU_upper_r; eassumption.
  - destruct (UU_mono _ _ _ _ _ H1 H2 H) as [c [Hc Hle]].
    exists c. split; [assumption|right; assumption].
Qed.

(* skipping a child on the small side keeps the accumulators related *)
Lemma UU_skip_w : forall a a' b' c', wle a a' -> UU a' b' = Ok c' -> wle a c'.
Proof.
  intros a a' b' c' [->|H1] H; [left; reflexivity|].
  destruct a as [ka|]; [right|left; reflexivity].
  assert (Ha' : a' <> None) by (apply (kle_some (Some ka)); [assumption|discriminate]).
  eapply kle_trans; [exact H1|]. eapply UU_upper_l; eassumption.
Qed.

Lemma wle_none_r : forall a, wle a None -> a = None.
Proof. intros a [H|H]; [assumption|apply kle_none_r; assumption]. Qed.

Lemma wle_kle : forall a b, wle a b -> a <> None -> kle a b.
Proof. intros a b [H|H] Ha; [contradiction|assumption]. Qed.

(* what `set` observes when nothing changes *)
Lemma nochange_kle : forall k old, k <> None -> (old = k \/ UU k old = Ok old) -> kle k old.
Proof. intros k old Hk [->|H]; [left; reflexivity|right; split; assumption]. Qed.

Lemma kle_int_int : kle (Some KInt) (Some KInt).
Proof. apply kle_refl. Qed.

(* the order on what a mapper sees of a table (KindInfer.lookup, lookup_kim) *)
Definition lk_le (lk lk' : string -> option okind) : Prop :=
  forall x k, lk x = Some k -> exists k', lk' x = Some k' /\ kle k k'.

Definition lk_nonone (lk : string -> option okind) : Prop :=
  forall x k, lk x = Some k -> k <> None.
