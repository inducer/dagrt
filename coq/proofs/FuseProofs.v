(* C16, model/Fuse.v, structure.  The unique-name generator returns fresh names, so the substitution of
   disambiguate_identifiers renames exactly the shared names the predicate selects (sub_renamed) and is
   injective on the names in use.  fuse_stmts returns unique ids, intact dependencies and both methods;
   its two parts share only kept names in the repaired shape.  Nothing here runs out of fuel. *)
From Coq Require Import List ZArith NArith String Ascii Bool Arith Lia FinFun.
Import ListNotations.
From Dagrt Require Import Lang Fuse ListFacts StringFacts LangProofs.
Local Open Scope list_scope.

Lemma mem_In x l : mem x l = true <-> In x l.
Proof. apply existsb_str_In. Qed.
Lemma mem_false x l : mem x l = false <-> ~ In x l.
Proof. apply existsb_str_nIn. Qed.

Lemma search_fresh : forall fuel names base num c nm,
  search fuel names base num = Some (c, nm) -> ~ In nm names.
Proof.
  induction fuel as [|f IH]; intros names base num c nm H; cbn [search] in H; [discriminate|].
  destruct (mem (numbered base num) names) eqn:E.
  - eapply IH; exact H.
  - injection H as _ <-. now apply mem_false.
Qed.

Lemma ung_call_spec g b n g' :
  ung_call g b = Some (n, g') -> ~ In n (u_names g) /\ u_names g' = n :: u_names g.
Proof.
  unfold ung_call.
  set (bc := match ctr_get b (u_ctr g) with Some c => (b, Some c) | None => _ end).
  destruct (snd bc) as [k|].
  - destruct (search _ _ _ k) as [[c nm]|] eqn:E; [|discriminate].
    intros H. injection H as <- <-. split; [eapply search_fresh; exact E|reflexivity].
  - destruct (mem (fst bc) (u_names g)) eqn:M.
    + destruct (search _ _ _ 0%N) as [[c nm]|] eqn:E; [|discriminate].
      intros H. injection H as <- <-. split; [eapply search_fresh; exact E|reflexivity].
    + intros H. injection H as <- <-. split; [now apply mem_false|reflexivity].
Qed.

Lemma slookup_In x m y : slookup x m = Some y -> In (x, y) m.
Proof.
  induction m as [|[k v] m IH]; cbn [slookup]; [discriminate|].
  destruct (String.eqb_spec x k) as [->|N]; intros H.
  - injection H as <-. now left.
  - right. auto.
Qed.
Lemma slookup_None x m : slookup x m = None <-> ~ In x (map fst m).
Proof.
  induction m as [|[k v] m IH]; cbn [slookup map fst]; [tauto|].
  destruct (String.eqb_spec x k) as [->|N].
  - split; [discriminate|]. intros H. exfalso. apply H. now left.
  - rewrite IH. cbn [In]. split; intros H; [intros [E|E]; [now apply N|now apply H]|tauto].
Qed.
Lemma sub_notin m x : ~ In x (map fst m) -> sub m x = x.
Proof. intros H. unfold sub. apply slookup_None in H. now rewrite H. Qed.
Lemma sub_in m x : In x (map fst m) -> In (x, sub m x) m.
Proof.
  intros H. unfold sub. destruct (slookup x m) as [y|] eqn:E.
  - now apply slookup_In.
  - apply slookup_None in E. contradiction.
Qed.
Lemma sub_in_snd m x : In x (map fst m) -> In (sub m x) (map snd m).
Proof. intros H. apply sub_in in H. apply (in_map snd) in H. exact H. Qed.

Lemma disamb_spec pred : forall order g m m',
  disamb pred g order m = Some m' ->
  exists ext, m' = m ++ ext /\ map fst ext = filter pred order /\
              (forall n, In n (map snd ext) -> ~ In n (u_names g)) /\ NoDup (map snd ext).
Proof.
  induction order as [|c r IH]; intros g m m' H; cbn [disamb] in H.
  - injection H as <-. exists []. rewrite app_nil_r. repeat split; [intros n []|constructor].
  - cbn [filter]. destruct (pred c).
    + destruct (ung_call g c) as [[n g']|] eqn:E; [|discriminate].
      destruct (ung_call_spec _ _ _ _ E) as [Hn Hg].
      destruct (IH _ _ _ H) as (ext & -> & F & Fr & ND).
      exists ((c, n) :: ext). rewrite <- app_assoc. cbn [app map fst snd]. rewrite F.
      repeat split.
      * intros x [<-|Hx]; [exact Hn|]. specialize (Fr x Hx). rewrite Hg in Fr.
        intros Hin. apply Fr. now right.
      * constructor; [|exact ND]. intros Hin. specialize (Fr n Hin). rewrite Hg in Fr. apply Fr. now left.
    + exact (IH _ _ _ H).
Qed.

Section Subst.
  Variables lf bf : bool.
  Variable pred : var -> bool.
  Variables (clash : list var) (a b : list fstmt) (m : smap).
  Hypothesis Hm : subst_of lf bf pred clash a b = Some m.
  Hypothesis Hc : clash_enum (idents lf bf a) (idents lf bf b) clash.

  Lemma subst_fst : map fst m = filter pred clash.
  Proof.
    unfold subst_of in Hm. destruct (disamb_spec _ _ _ _ _ Hm) as (ext & E & F & _). cbn in E. now subst.
  Qed.
  Lemma subst_dom x : In x (map fst m) <-> (In x (idents lf bf a) /\ In x (idents lf bf b)) /\ pred x = true.
  Proof. rewrite subst_fst, filter_In. destruct Hc as [_ H]. now rewrite H. Qed.
  Lemma subst_fst_nodup : NoDup (map fst m).
  Proof. rewrite subst_fst. apply NoDup_filter. apply Hc. Qed.
  Lemma subst_snd_nodup : NoDup (map snd m).
  Proof.
    unfold subst_of in Hm. destruct (disamb_spec _ _ _ _ _ Hm) as (ext & E & _ & _ & ND). cbn in E. now subst.
  Qed.
  Lemma subst_fresh n : In n (map snd m) -> ~ In n (idents lf bf a) /\ ~ In n (idents lf bf b).
  Proof.
    unfold subst_of in Hm. destruct (disamb_spec _ _ _ _ _ Hm) as (ext & E & _ & Fr & _). cbn in E. subst ext.
    intros H. specialize (Fr n H). cbn [ung_init u_names] in Fr. rewrite in_app_iff in Fr. tauto.
  Qed.

  Lemma sub_renamed x :
    sub m x <> x <-> (In x (idents lf bf a) /\ In x (idents lf bf b)) /\ pred x = true.
  Proof.
    rewrite <- subst_dom. split.
    - intros H. destruct (in_dec string_dec x (map fst m)) as [I|I]; [exact I|].
      exfalso. apply H. now apply sub_notin.
    - intros H E. pose proof (sub_in_snd _ _ H) as S. rewrite E in S.
      apply subst_fresh in S. apply subst_dom in H. tauto.
  Qed.
  Lemma sub_kept x : pred x = false -> sub m x = x.
  Proof.
    intros H. apply sub_notin. rewrite subst_dom. intros [_ E]. congruence.
  Qed.
  Lemma sub_fresh x : sub m x <> x -> ~ In (sub m x) (idents lf bf a) /\ ~ In (sub m x) (idents lf bf b).
  Proof.
    intros H. apply subst_fresh. apply sub_in_snd. apply sub_renamed in H. now apply subst_dom.
  Qed.

  Lemma shared_kept x y : In x (idents lf bf a) -> In y (idents lf bf b) -> x = sub m y -> x = y /\ pred y = false.
  Proof.
    intros Hx Hy ->. destruct (string_dec (sub m y) y) as [E|N].
    - split; [exact E|]. rewrite E in Hx. destruct (pred y) eqn:P; [|reflexivity].
      exfalso. exact (proj2 (sub_renamed y) (conj (conj Hx Hy) P) E).
    - exfalso. exact (proj1 (sub_fresh y N) Hx).
  Qed.

  Lemma sub_inj x y :
    In x (idents lf bf a ++ idents lf bf b) -> In y (idents lf bf a ++ idents lf bf b) ->
    sub m x = sub m y -> x = y.
  Proof.
    intros Hx Hy E.
    destruct (in_dec string_dec x (map fst m)) as [Ix|Ix], (in_dec string_dec y (map fst m)) as [Iy|Iy].
    - (* two pairs of m with the same second component *)
      exact (f_equal fst (NoDup_map_inj snd m _ _ subst_snd_nodup (sub_in _ _ Ix) (sub_in _ _ Iy) E)).
    - exfalso. rewrite (sub_notin _ _ Iy) in E. pose proof (sub_in_snd _ _ Ix) as S. rewrite E in S.
      apply subst_fresh in S. rewrite in_app_iff in Hy. tauto.
    - exfalso. rewrite (sub_notin _ _ Ix) in E. pose proof (sub_in_snd _ _ Iy) as S. rewrite <- E in S.
      apply subst_fresh in S. rewrite in_app_iff in Hx. tauto.
    - now rewrite (sub_notin _ _ Ix), (sub_notin _ _ Iy) in E.
  Qed.
End Subst.

Lemma vars_ren r e : vars (ren r e) = map r (vars e).
Proof.
  induction e as [z|b| |x|a IH|c t e C T E|o a b A B|o l IH] using expr_ind'; cbn [ren vars map]; try reflexivity.
  - exact IH.
  - now rewrite C, T, E, !map_app.
  - now rewrite A, B, map_app.
  - rewrite flat_map_map, map_flat_map. apply flat_map_ext_in.
    intros x Hx. rewrite Forall_forall in IH. now apply IH.
Qed.

Section Names.
  Variables lf bf : bool.
  Variable r : var -> var.

  Lemma kind_reads_ren lv k : kind_reads lf bf (ren_kind lv r k) = map r (kind_reads lf bf k).
  Proof.
    destruct k as [x sb rhs loops|xs f args kw|comp tid time e| | | | ]; cbn [ren_kind kind_reads map]; try reflexivity.
    - rewrite !map_app, vars_ren. f_equal. f_equal.
      + destruct lf; [|reflexivity]. destruct sb as [ie|]; cbn [option_map map]; [apply vars_ren|reflexivity].
      + destruct bf; [|reflexivity]. rewrite flat_map_map, map_flat_map. apply flat_map_ext_in.
        intros [[i lo] hi] _. cbn [fst snd]. now rewrite !vars_ren, map_app.
    - rewrite map_app, !flat_map_map, !map_flat_map. f_equal; apply flat_map_ext_in.
      + intros a _. apply vars_ren.
      + intros [n e] _. cbn [fst snd]. apply vars_ren.
    - now rewrite map_app, !vars_ren.
  Qed.
  Lemma kind_writes_ren lv k : kind_writes (ren_kind lv r k) = map r (kind_writes k).
  Proof. destruct k; reflexivity. Qed.
  Lemma loopvars_ren k : loopvars (ren_kind true r k) = map r (loopvars k).
  Proof.
    destruct k as [x sb rhs loops|xs f args kw|comp tid time e| | | | ]; cbn [ren_kind loopvars map]; try reflexivity.
    rewrite !map_map. apply map_ext. intros [[i lo] hi]. reflexivity.
  Qed.

  Lemma freads_ren lv st : freads lf bf (rename_stmt true lv r st) = map r (freads lf bf st).
  Proof.
    unfold freads, reads, rename_stmt, lower. cbn [skd scond fkd fcond].
    now rewrite map_app, kind_reads_ren, vars_ren.
  Qed.
  Lemma fwrites_ren g lv st : fwrites (rename_stmt g lv r st) = map r (fwrites st).
  Proof. unfold fwrites, writes, rename_stmt, lower. cbn [skd fkd]. apply kind_writes_ren. Qed.

  Lemma idents_ren lv l : idents lf bf (map (rename_stmt true lv r) l) = map r (idents lf bf l).
  Proof.
    unfold idents. rewrite flat_map_map, map_flat_map. apply flat_map_ext_in.
    intros st _. now rewrite map_app, freads_ren, fwrites_ren.
  Qed.
End Names.

Lemma fresh_ids_spec : forall b g news,
  fresh_ids g b = Some news ->
  map fst news = map fid b /\ NoDup (map snd news) /\ (forall n, In n (map snd news) -> ~ In n (u_names g)).
Proof.
  induction b as [|st b IH]; intros g news H; cbn [fresh_ids] in H.
  - injection H as <-. repeat split; [constructor|intros n []].
  - destruct (ung_call g (fid st)) as [[n g']|] eqn:E; [|discriminate].
    destruct (fresh_ids g' b) as [news'|] eqn:E'; [|discriminate]. injection H as <-.
    destruct (ung_call_spec _ _ _ _ E) as [Hn Hg]. destruct (IH _ _ E') as (F & ND & Fr).
    cbn [map fst snd]. rewrite F. repeat split.
    + constructor; [|exact ND]. intros Hin. specialize (Fr n Hin). rewrite Hg in Fr. apply Fr. now left.
    + intros x [<-|Hx]; [exact Hn|]. specialize (Fr x Hx). rewrite Hg in Fr. intros Hin. apply Fr. now right.
Qed.

Lemma id_lookup_In k l v : id_lookup k l = Some v -> In (k, v) l.
Proof.
  induction l as [|[k' v'] l IH]; cbn [id_lookup]; [discriminate|].
  destruct (id_lookup k l) as [w|].
  - intros H. injection H as <-. right. now apply IH.
  - destruct (String.eqb_spec k k') as [->|N]; [|discriminate]. intros H. injection H as <-. now left.
Qed.
Lemma id_lookup_nodup k v l : NoDup (map fst l) -> In (k, v) l -> id_lookup k l = Some v.
Proof.
  induction l as [|[k' v'] l IH]; cbn [id_lookup map fst]; intros ND H; [destruct H|].
  inversion ND as [|? ? Hk ND']; subst. destruct H as [H|H].
  - injection H as -> ->. destruct (id_lookup k l) as [w|] eqn:E.
    + exfalso. apply Hk. apply id_lookup_In in E. apply (in_map fst) in E. exact E.
    + now rewrite String.eqb_refl.
  - now rewrite (IH ND' H).
Qed.

(* the id dictionary as a total function, the identity off its keys *)
Definition idf (idm : list (string * string)) (k : string) : string :=
  match id_lookup k idm with Some v => v | None => k end.

Lemma remap_deps_spec idm : forall deps ds,
  remap_deps idm deps = FOk ds ->
  ds = map (idf idm) deps /\ forall d, In d deps -> exists d', id_lookup d idm = Some d'.
Proof.
  induction deps as [|d r IH]; intros ds H; cbn [remap_deps] in H.
  - injection H as <-. split; [reflexivity|intros d []].
  - destruct (id_lookup d idm) as [d'|] eqn:E; [|discriminate].
    destruct (remap_deps idm r) as [r'| | |] eqn:E'; try discriminate. injection H as <-.
    destruct (IH _ eq_refl) as [-> Hall]. split.
    + cbn [map]. f_equal. unfold idf. now rewrite E.
    + intros x [<-|Hx]; [eauto|auto].
Qed.

Definition relabeled (idm : list (string * string)) (st st' : fstmt) : Prop :=
  In (fid st, fid st') idm /\ fdeps st' = map (idf idm) (fdeps st) /\
  (forall d, In d (fdeps st) -> exists d', id_lookup d idm = Some d') /\
  fcond st' = fcond st /\ fkd st' = fkd st.

Lemma relabeled_id idm st st' : relabeled idm st st' -> In (fid st, fid st') idm.
Proof. now intros [H _]. Qed.
Lemma relabeled_deps idm st st' : relabeled idm st st' -> fdeps st' = map (idf idm) (fdeps st).
Proof. now intros (_ & H & _). Qed.
Lemma relabeled_deps_known idm st st' d :
  relabeled idm st st' -> In d (fdeps st) -> exists d', id_lookup d idm = Some d'.
Proof. intros (_ & _ & H & _). apply H. Qed.
Lemma relabeled_same idm st st' : relabeled idm st st' -> fcond st' = fcond st /\ fkd st' = fkd st.
Proof. now intros (_ & _ & _ & H). Qed.

Lemma relabel_spec idm : forall b news b',
  relabel idm news b = FOk b' -> map fst news = map fid b -> incl news idm ->
  map fid b' = map snd news /\ Forall2 (relabeled idm) b b'.
Proof.
  induction b as [|st b IH]; intros news b' H F I.
  - destruct news; [|discriminate]. cbn in H. injection H as <-. split; [reflexivity|constructor].
  - destruct news as [|[k n] news]; [discriminate|]. cbn [map fst] in F. injection F as Fk F.
    cbn [relabel] in H.
    destruct (remap_deps idm (fdeps st)) as [ds| | |] eqn:E; try discriminate.
    destruct (relabel idm news b) as [r'| | |] eqn:E'; try discriminate. injection H as <-.
    destruct (IH _ _ E' F) as [M F2]; [intros x Hx; apply I; now right|].
    destruct (remap_deps_spec _ _ _ E) as [-> Hall].
    split; [cbn [map fid snd]; now rewrite M|].
    constructor; [|exact F2]. unfold relabeled. cbn [fid fdeps fcond fkd].
    repeat split; auto. subst k. apply I. now left.
Qed.

Theorem fuse_streams_spec a b l :
  fuse_streams a b = FOk l ->
  exists idm b', l = (a ++ b')%list /\ Forall2 (relabeled idm) b b' /\
                 map fst idm = map fid b /\ map snd idm = map fid b' /\
                 NoDup (map fid b') /\ (forall x, In x (map fid b') -> ~ In x (map fid a)).
Proof.
  unfold fuse_streams. destruct (fresh_ids _ b) as [news|] eqn:E; [|discriminate].
  destruct (relabel news news b) as [b'| | |] eqn:E'; try discriminate. intros H. injection H as <-.
  destruct (fresh_ids_spec _ _ _ E) as (F & ND & Fr).
  destruct (relabel_spec _ _ _ _ E' F (incl_refl _)) as [M F2].
  exists news, b'. rewrite M. repeat split; auto.
Qed.

Theorem fuse_streams_ids_unique a b l :
  fuse_streams a b = FOk l -> NoDup (map fid a) -> NoDup (map fid l).
Proof.
  intros H Na. destruct (fuse_streams_spec _ _ _ H) as (idm & b' & -> & _ & _ & _ & Nb & D).
  rewrite map_app. apply NoDup_app_intro; auto. intros x Ha Hb. exact (D x Hb Ha).
Qed.

Theorem fuse_streams_deps a b l :
  fuse_streams a b = FOk l -> NoDup (map fid b) ->
  exists (f : string -> string) b',
    l = (a ++ b')%list /\
    Forall2 (fun st st' => fid st' = f (fid st) /\ fdeps st' = map f (fdeps st)) b b' /\
    (forall x y, In x (map fid b) -> In y (map fid b) -> f x = f y -> x = y) /\
    (forall st', In st' b' -> incl (fdeps st') (map fid b')).
Proof.
  intros H Nb. destruct (fuse_streams_spec _ _ _ H) as (idm & b' & -> & F2 & Ff & Fs & Nb' & D).
  assert (NDf : NoDup (map fst idm)) by now rewrite Ff.
  assert (Hlk : forall k v, In (k, v) idm -> idf idm k = v).
  { intros k v Hin. unfold idf. now rewrite (id_lookup_nodup _ _ _ NDf Hin). }
  exists (idf idm), b'. repeat split.
  - revert F2. apply Forall2_impl. intros st st' R.
    split; [symmetry; apply Hlk, (relabeled_id _ _ _ R)|exact (relabeled_deps _ _ _ R)].
  - (* injective on the ids of b: the new ids are distinct *)
    intros x y Hx Hy E. rewrite <- Ff in Hx, Hy.
    apply in_map_iff in Hx as ([kx vx] & <- & Hx). apply in_map_iff in Hy as ([ky vy] & <- & Hy).
    cbn [fst] in *. rewrite (Hlk _ _ Hx), (Hlk _ _ Hy) in E.
    assert (NDs : NoDup (map snd idm)) by now rewrite Fs.
    exact (f_equal fst (NoDup_map_inj snd idm _ _ NDs Hx Hy E)).
  - intros st' Hst d Hd. rewrite <- Fs.
    clear -F2 Hst Hd. induction F2 as [|st0 st0' b b' R _ IH]; [destruct Hst|].
    destruct Hst as [<-|Hst]; [|auto].
    rewrite (relabeled_deps _ _ _ R) in Hd. apply in_map_iff in Hd. destruct Hd as (d0 & <- & Hd0).
    destruct (relabeled_deps_known _ _ _ _ R Hd0) as (d' & E). unfold idf. rewrite E.
    apply id_lookup_In in E. apply (in_map snd) in E. exact E.
Qed.

Lemma Forall2_map_l {A B C} (f : A -> B) (P : B -> C -> Prop) l l' :
  Forall2 P (map f l) l' <-> Forall2 (fun x y => P (f x) y) l l'.
Proof.
  revert l'. induction l as [|x l IH]; intros l'; cbn [map]; split; intros H; inversion H; subst; constructor;
    try assumption; now apply IH.
Qed.

Lemma idents_same lf bf l l' :
  Forall2 (fun st st' => fcond st' = fcond st /\ fkd st' = fkd st) l l' -> idents lf bf l' = idents lf bf l.
Proof.
  induction 1 as [|st st' l l' [Hc Hk] _ IH]; [reflexivity|]. unfold idents in *. cbn [flat_map].
  rewrite IH. unfold freads, fwrites, reads, writes, lower. cbn [skd scond]. now rewrite Hc, Hk.
Qed.

Section FuseStmts.
  Variables lf bf : bool.
  Variables gd lv : bool.           (* sw_guard, sw_loopv *)
  Variable pred : var -> bool.
  Variables (clash : list var) (a b l : list fstmt).
  Hypothesis H : fuse_stmts lf bf gd lv pred clash a b = FOk l.

  Lemma fuse_stmts_streams :
    exists m, subst_of lf bf pred clash a b = Some m /\
              fuse_streams a (map (rename_stmt gd lv (sub m)) b) = FOk l.
  Proof.
    unfold fuse_stmts in H. destruct (subst_of lf bf pred clash a b) as [m|]; [|discriminate].
    destruct (existsb _ b); [discriminate|]. eauto.
  Qed.

  Lemma fuse_stmts_spec :
    exists m idm b',
      subst_of lf bf pred clash a b = Some m /\
      l = (a ++ b')%list /\
      Forall2 (fun st st' => relabeled idm (rename_stmt gd lv (sub m) st) st') b b' /\
      map fst idm = map fid b /\ map snd idm = map fid b' /\
      NoDup (map fid b') /\ (forall x, In x (map fid b') -> ~ In x (map fid a)).
  Proof.
    destruct fuse_stmts_streams as (m & Hm & Hs).
    destruct (fuse_streams_spec _ _ _ Hs) as (idm & b' & -> & F2 & Ff & Fs & ND & D).
    exists m, idm, b'. rewrite map_map in Ff. cbn [rename_stmt fid] in Ff.
    rewrite Forall2_map_l in F2. repeat split; auto.
  Qed.

  Theorem fuse_stmts_ids_unique : NoDup (map fid a) -> NoDup (map fid l).
  Proof. destruct fuse_stmts_streams as (m & _ & Hs). exact (fuse_streams_ids_unique _ _ _ Hs). Qed.

  Theorem fuse_stmts_deps : NoDup (map fid b) ->
    exists (f : string -> string) b',
      l = (a ++ b')%list /\
      Forall2 (fun st st' => fid st' = f (fid st) /\ fdeps st' = map f (fdeps st)) b b' /\
      (forall x y, In x (map fid b) -> In y (map fid b) -> f x = f y -> x = y) /\
      (forall st', In st' b' -> incl (fdeps st') (map fid b')).
  Proof.
    intros Nb. destruct fuse_stmts_streams as (m & _ & Hs).
    destruct (fuse_streams_deps _ _ _ Hs) as (f & b' & -> & F2 & Inj & Cl).
    { rewrite map_map. exact Nb. }
    exists f, b'. rewrite map_map in Inj. cbn [rename_stmt fid] in Inj.
    rewrite Forall2_map_l in F2. repeat split; auto.
  Qed.

  (* guards (gd) and loop variables (lv) of the second method are renamed only in the repaired shape *)
  Theorem fuse_stmts_contains :
    exists m b',
      subst_of lf bf pred clash a b = Some m /\ l = (a ++ b')%list /\
      Forall2 (fun st st' => fcond st' = (if gd then ren (sub m) (fcond st) else fcond st) /\
                             fkd st' = ren_kind lv (sub m) (fkd st)) b b'.
  Proof.
    destruct fuse_stmts_spec as (m & idm & b' & Hm & -> & F2 & _).
    exists m, b'. repeat split; auto.
    revert F2. apply Forall2_impl. intros st st' R. exact (relabeled_same _ _ _ R).
  Qed.
End FuseStmts.

Section Naming.
  Variables lf bf : bool.
  Variable lv : bool.
  Variable pred : var -> bool.
  Variables (clash : list var) (a b l : list fstmt).
  Hypothesis H : fuse_stmts lf bf true lv pred clash a b = FOk l.
  Hypothesis Hc : clash_enum (idents lf bf a) (idents lf bf b) clash.

  Lemma fuse_stmts_idents :
    exists m b', subst_of lf bf pred clash a b = Some m /\ l = (a ++ b')%list /\
                 idents lf bf b' = map (sub m) (idents lf bf b).
  Proof.
    destruct (fuse_stmts_spec _ _ _ _ _ _ _ _ _ H) as (m & idm & b' & Hm & -> & F2 & _).
    exists m, b'. repeat split; auto.
    rewrite <- (idents_ren lf bf (sub m) lv b). apply idents_same.
    apply Forall2_map_l. revert F2. apply Forall2_impl. intros st st' R. exact (relabeled_same _ _ _ R).
  Qed.

  Theorem temporaries_disjoint :
    exists b', l = (a ++ b')%list /\
      forall y, In y (idents lf bf a) -> In y (idents lf bf b') ->
                In y (idents lf bf b) /\ pred y = false.
  Proof.
    destruct fuse_stmts_idents as (m & b' & Hm & -> & Hi). exists b'. split; [reflexivity|].
    intros y Ha Hb. rewrite Hi in Hb. apply in_map_iff in Hb. destruct Hb as (x & <- & Hx).
    destruct (shared_kept lf bf pred clash a b m Hm Hc _ x Ha Hx eq_refl) as [-> P]. auto.
  Qed.
End Naming.

Lemma pget_pset_same k v l : pget k (pset k v l) = Some v.
Proof.
  induction l as [|[k' v'] l IH]; cbn [pset pget]; [now rewrite String.eqb_refl|].
  destruct (String.eqb_spec k k') as [->|N]; cbn [pget].
  - now rewrite String.eqb_refl.
  - destruct (String.eqb_spec k k'); [contradiction|exact IH].
Qed.
Lemma pget_pset_other k k' v l : k' <> k -> pget k' (pset k v l) = pget k' l.
Proof.
  intros N. induction l as [|[k0 v0] l IH]; cbn [pset pget].
  - destruct (String.eqb_spec k' k); [contradiction|reflexivity].
  - destruct (String.eqb_spec k k0) as [->|N0]; cbn [pget].
    + destruct (String.eqb_spec k' k0); [contradiction|reflexivity].
    + destruct (String.eqb_spec k' k0); [reflexivity|exact IH].
Qed.

Section Dags.
  Variables lf bf : bool.
  Variable is_state : var -> bool.
  Variables th pr gd lv : bool.

  Notation ftp := (fuse_two_phases lf bf is_state pr gd lv).

  Theorem fuse_two_phases_both n p clash pa pb ph :
    ftp n p clash (Some pa) (Some pb) = FOk ph ->
    ph_next pa = ph_next pb /\ ph_name ph = ph_name pa /\ ph_next ph = ph_next pa /\
    fuse_stmts lf bf gd lv (eff_pred is_state pr p) clash (ph_stmts pa) (ph_stmts pb) = FOk (ph_stmts ph).
  Proof.
    cbn [fuse_two_phases]. destruct (String.eqb_spec (ph_next pa) (ph_next pb)) as [E|N]; cbn [negb]; [|discriminate].
    destruct (fuse_stmts _ _ _ _ _ _ _ _) as [l| | |]; try discriminate.
    intros H. injection H as <-. cbn. auto.
  Qed.
  Theorem fuse_two_phases_next_differs n p clash pa pb :
    ph_next pa <> ph_next pb -> ftp n p clash (Some pa) (Some pb) = FValueError (VNextPhase n).
  Proof.
    intros N. cbn [fuse_two_phases]. destruct (String.eqb_spec (ph_next pa) (ph_next pb)); [contradiction|reflexivity].
  Qed.
  Lemma fuse_two_phases_single n p clash pa :
    ftp n p clash (Some pa) None = FOk pa /\ ftp n p clash None (Some pa) = FOk pa.
  Proof. split; reflexivity. Qed.

  Lemma fuse_phases_spec p clashes d1 d2 : forall names acc res,
    fuse_phases lf bf is_state th pr gd lv p clashes d1 d2 names acc = FOk res -> NoDup names ->
    (forall n, In n names ->
       exists ph, ftp n (if th then p else None) (oget n clashes) (pget n (d_phases d1)) (pget n (d_phases d2)) = FOk ph
                  /\ pget n res = Some ph) /\
    (forall n, ~ In n names -> pget n res = pget n acc).
  Proof.
    induction names as [|n r IH]; intros acc res H ND; cbn [fuse_phases] in H.
    - injection H as <-. split; [intros n []|reflexivity].
    - inversion ND as [|? ? Hn ND']; subst.
      destruct (ftp n _ _ _ _) as [ph| | |] eqn:E; try discriminate.
      destruct (IH _ _ H ND') as [A B]. split.
      + intros k [<-|Hk]; [|auto]. exists ph. split; [exact E|].
        rewrite (B n Hn). apply pget_pset_same.
      + intros k Hk. rewrite B by (intros Hin; apply Hk; now right).
        apply pget_pset_other. intros ->. apply Hk. now left.
  Qed.

  (* th: the caller's predicate reaches fuse_two_phases only when it is threaded through *)
  Theorem fuse_two_dags_spec p order clashes d1 d2 d :
    fuse_two_dags lf bf is_state th pr gd lv p order clashes d1 d2 = FOk d -> NoDup order ->
    d_init d1 = d_init d2 /\ d_init d = d_init d1 /\
    (forall n, In n order ->
       exists ph, ftp n (if th then p else None) (oget n clashes) (pget n (d_phases d1)) (pget n (d_phases d2)) = FOk ph
                  /\ pget n (d_phases d) = Some ph) /\
    (forall n, ~ In n order -> pget n (d_phases d) = None).
  Proof.
    unfold fuse_two_dags. destruct (fuse_phases _ _ _ _ _ _ _ _ _ _ _ _ _) as [phs| | |] eqn:E; try discriminate.
    destruct (String.eqb_spec (d_init d1) (d_init d2)) as [Ei|Ni]; cbn [negb]; [|discriminate].
    intros H ND. injection H as <-. cbn [d_init d_phases].
    destruct (fuse_phases_spec _ _ _ _ _ _ _ E ND) as [A B]. repeat split; auto.
  Qed.
  Theorem fuse_two_dags_init_differs p order clashes d1 d2 d :
    d_init d1 <> d_init d2 -> fuse_two_dags lf bf is_state th pr gd lv p order clashes d1 d2 <> FOk d.
  Proof.
    intros N. unfold fuse_two_dags. destruct (fuse_phases _ _ _ _ _ _ _ _ _ _ _ _ _); try discriminate.
    destruct (String.eqb_spec (d_init d1) (d_init d2)); [contradiction|discriminate].
  Qed.
End Dags.

(* No result is FOutOfFuel: the fuel the model gives the name search, |names|+1, always suffices. *)

Lemma dec_inj a b : dec a = dec b -> a = b.
Proof. apply string_of_N_inj. Qed.

Lemma numbered_inj base a b : numbered base a = numbered base b -> a = b.
Proof.
  unfold numbered. intros H. apply append_inv_head in H. injection H as H. now apply dec_inj.
Qed.

Lemma search_none : forall fuel names base num,
  search fuel names base num = None ->
  forall k, (k < fuel)%nat -> In (numbered base (num + N.of_nat k)) names.
Proof.
  induction fuel as [|f IH]; intros names base num H k Hk; [lia|].
  cbn [search] in H. destruct (mem (numbered base num) names) eqn:E; [|discriminate].
  destruct k as [|k].
  - rewrite N.add_0_r. now apply mem_In.
  - replace (num + N.of_nat (S k))%N with (N.succ num + N.of_nat k)%N by lia.
    apply IH; [exact H|lia].
Qed.

(* decimal printing is injective, so |names|+1 candidates cannot all be taken *)
Lemma search_total names base num : search (S (List.length names)) names base num <> None.
Proof.
  intros H. apply (Nat.nle_succ_diag_l (List.length names)).
  apply (candidates_length (fun k => numbered base (num + N.of_nat k)) [] names);
    [constructor | apply incl_nil_l | | auto | exact (search_none _ _ _ _ H)].
  intros a b E. apply numbered_inj in E. lia.
Qed.

Theorem ung_call_total g b : ung_call g b <> None.
Proof.
  unfold ung_call.
  set (bc := match ctr_get b (u_ctr g) with Some c => (b, Some c) | None => _ end).
  destruct (snd bc) as [k|].
  - pose proof (search_total (u_names g) (fst bc) k) as T.
    destruct (search _ _ _ k) as [[c nm]|]; [discriminate|contradiction].
  - destruct (mem (fst bc) (u_names g)).
    + pose proof (search_total (u_names g) (fst bc) 0%N) as T.
      destruct (search _ _ _ 0%N) as [[c nm]|]; [discriminate|contradiction].
    + discriminate.
Qed.

Theorem fresh_ids_total : forall b g, fresh_ids g b <> None.
Proof.
  induction b as [|st b IH]; intros g; cbn [fresh_ids]; [discriminate|].
  pose proof (ung_call_total g (fid st)) as T.
  destruct (ung_call g (fid st)) as [[n g']|]; [|contradiction].
  specialize (IH g'). destruct (fresh_ids g' b); [discriminate|contradiction].
Qed.

Lemma disamb_total pred : forall order g m, disamb pred g order m <> None.
Proof.
  induction order as [|c r IH]; intros g m; cbn [disamb]; [discriminate|].
  destruct (pred c); [|apply IH].
  pose proof (ung_call_total g c) as T. destruct (ung_call g c) as [[n g']|]; [apply IH|contradiction].
Qed.

Lemma remap_deps_no_fuel idm : forall deps, remap_deps idm deps <> FOutOfFuel /\
                                            forall w, remap_deps idm deps <> FValueError w.
Proof.
  induction deps as [|d r IH]; cbn [remap_deps]; [split; [|intros w]; discriminate|].
  destruct (id_lookup d idm); [|split; [|intros w]; discriminate].
  destruct (remap_deps idm r); try exact IH. split; [|intros w]; discriminate.
Qed.

Lemma relabel_no_fuel idm : forall b news, relabel idm news b <> FOutOfFuel /\
                                           forall w, relabel idm news b <> FValueError w.
Proof.
  induction b as [|st b IH]; intros [|[k n] news]; cbn [relabel]; try (split; [|intros w]; discriminate).
  destruct (remap_deps_no_fuel idm (fdeps st)) as [D1 D2]. destruct (remap_deps idm (fdeps st)) as [ds|w0|k0|].
  - specialize (IH news). destruct (relabel idm news b); try exact IH. split; [|intros w]; discriminate.
  - now destruct (D2 w0).
  - split; [|intros w]; discriminate.
  - now destruct D1.
Qed.

Lemma fuse_streams_no_fuel a b : fuse_streams a b <> FOutOfFuel.
Proof.
  unfold fuse_streams. pose proof (fresh_ids_total b (ung_init (map fid a))) as T.
  destruct (fresh_ids _ b) as [news|]; [|contradiction].
  pose proof (proj1 (relabel_no_fuel news b news)) as R1.
  destruct (relabel news news b); try discriminate. exact R1.
Qed.

Theorem fuse_two_dags_no_fuel lf bf is_state th pr gd lv p order clashes d1 d2 :
  fuse_two_dags lf bf is_state th pr gd lv p order clashes d1 d2 <> FOutOfFuel.
Proof.
  assert (S : forall pred clash a b, fuse_stmts lf bf gd lv pred clash a b <> FOutOfFuel).
  { intros pred clash a b. unfold fuse_stmts, subst_of.
    pose proof (disamb_total pred clash (ung_init (idents lf bf a ++ idents lf bf b)) []) as T.
    destruct (disamb _ _ _ _); [|contradiction].
    destruct (existsb _ b); [discriminate|apply fuse_streams_no_fuel]. }
  assert (P : forall n q clash p1 p2, fuse_two_phases lf bf is_state pr gd lv n q clash p1 p2 <> FOutOfFuel).
  { intros n q clash [pa|] [pb|]; cbn [fuse_two_phases]; try discriminate.
    destruct (negb _); [discriminate|]. specialize (S (eff_pred is_state pr q) clash (ph_stmts pa) (ph_stmts pb)).
    destruct (fuse_stmts _ _ _ _ _ _ _ _); try discriminate. contradiction. }
  assert (L : forall names acc, fuse_phases lf bf is_state th pr gd lv p clashes d1 d2 names acc <> FOutOfFuel).
  { induction names as [|n r IH]; intros acc; cbn [fuse_phases]; [discriminate|].
    specialize (P n (if th then p else None) (oget n clashes) (pget n (d_phases d1)) (pget n (d_phases d2))).
    destruct (fuse_two_phases _ _ _ _ _ _ _ _ _ _ _); try discriminate; [apply IH|contradiction]. }
  unfold fuse_two_dags. specialize (L order []).
  destruct (fuse_phases _ _ _ _ _ _ _ _ _ _ _ _ _); try discriminate; [|contradiction].
  destruct (negb _); discriminate.
Qed.
