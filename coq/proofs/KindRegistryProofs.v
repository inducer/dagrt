(* The result kinds of registered functions (coq/model/KindInfer.v: resolve, result_kinds, call_kinds) are
   monotone in the argument kinds, None being below everything: where get_result_kinds fails on the larger
   arguments it fails on the smaller, and where it returns ks' it fails on the smaller or returns ks <= ks'
   pointwise.  This holds for the shape in which the matrix built-ins are unable unless their matrix
   arguments are arrays (c_arr_only) and is what order independence needs of the registry
   (KindInferProofs.infer_mono); for the other shape it is false: matmul_not_mono_refuted. *)
From Coq Require Import List String Bool.
Import ListNotations.
From Dagrt Require Import ListFacts Unify UnifyProofs KindOrder KindInfer.
From Dagrt Require ResolveRel.
Open Scope string_scope.

(* [resolve] after [split_args] (resolve_args) is parametric in what the arguments are: KindInfer's copies of
   the two functions are convertible to those of Kinds.v, about which ResolveRel.v proves it *)
Lemma resolve_split_rel : forall {A B} (R : A -> B -> Prop) names vals vals' kwn,
  Forall2 R vals vals' ->
  match resolve names (fst (split_args vals kwn)) (snd (split_args vals kwn)),
        resolve names (fst (split_args vals' kwn)) (snd (split_args vals' kwn)) with
  | Some a, Some a' => Forall2 R a a'
  | None, None => True
  | _, _ => False
  end.
Proof. exact @ResolveRel.resolve_split_rel. Qed.

(* small-side result against big-side result *)
Definition krel (r r' : option (list kind)) : Prop :=
  match r' with
  | None => r = None
  | Some ks' => r = None \/ exists ks, r = Some ks /\ Forall2 kle (map (@Some kind) ks) (map (@Some kind) ks')
  end.

Lemma krel_same : forall r, krel r r.
Proof.
  intros [ks|]; cbn; [|reflexivity]. right. exists ks. split; [reflexivity|].
  induction ks; cbn; constructor; [apply kle_refl|assumption].
Qed.

Lemma krel_none : forall r', krel None r'.
Proof. intros [ks|]; cbn; auto. Qed.

(* Arrays are ordered by their flags: a complex array is above the real one. *)
Definition flag_le (r r' : bool) : Prop := r' = true -> r = true.

Lemma kle_arr_arr : forall r r', flag_le r r' -> kle (Some (KArray r)) (Some (KArray r')).
Proof.
  intros [] [] H; unfold kle, UU; cbn; auto; try (right; split; [discriminate|reflexivity]).
  specialize (H eq_refl). discriminate.
Qed.

Lemma both_real_flag_le : forall r r', both_real r r' = r' -> flag_le r r'.
Proof. intros r r' H ->. rewrite both_real_andb, andb_true_r in H. assumption. Qed.

Lemma kle_array_l : forall r b, kle (Some (KArray r)) b ->
  exists r', b = Some (KArray r') /\ flag_le r r'.
Proof.
  intros r b [<-|[_ H]]; [exists r; split; [reflexivity|exact (fun E => E)]|].
  unfold UU in H. destruct b as [[]|]; cbn in H; try discriminate.
  injection H as H. eexists; split; [reflexivity|apply both_real_flag_le, H].
Qed.

Lemma kle_array_r : forall a r', kle a (Some (KArray r')) ->
  a = Some KInt \/ (exists r, a = Some (KScalar r) /\ flag_le r r') \/ (exists r, a = Some (KArray r) /\ flag_le r r').
Proof.
  intros a r' [->|[Hn H]]; [right; right; exists r'; split; [reflexivity|exact (fun E => E)]|].
  unfold UU in H. destruct a as [[]|]; cbn in H; try discriminate; try congruence; auto;
    injection H as H; right; [left|right]; (eexists; split; [reflexivity|apply both_real_flag_le, H]).
Qed.

(* small-side against big-side realness of a matrix result (None: the built-in raises) *)
Definition flag_rel (o o' : option bool) : Prop :=
  match o' with
  | None => o = None
  | Some r' => o = None \/ exists r, o = Some r /\ flag_le r r'
  end.

Lemma flag_rel_none : forall o', flag_rel None o'.
Proof. intros [r'|]; cbn; auto. Qed.

(* The matrix built-ins answer for arrays only, so it is enough to know what is above an array. *)
Lemma mat1_mono : forall x x', wle x x' -> flag_rel (mat1 true x) (mat1 true x').
Proof.
  intros x x' H. destruct x as [[]|]; try apply flag_rel_none.
  destruct H as [H|H]; [discriminate|]. destruct (kle_array_l _ _ H) as [r' [-> Hr]].
  right. eexists; split; [reflexivity|assumption].
Qed.

Lemma mat2_mono : forall x x' y y', wle x x' -> wle y y' ->
  flag_rel (mat2 true x y) (mat2 true x' y').
Proof.
  intros x x' y y' Hx Hy. destruct x as [[]|]; try apply flag_rel_none.
  destruct y as [[]|]; try apply flag_rel_none.
  destruct Hx as [Hx|Hx]; [discriminate|]. destruct Hy as [Hy|Hy]; [discriminate|].
  destruct (kle_array_l _ _ Hx) as [rx' [-> Hrx]]. destruct (kle_array_l _ _ Hy) as [ry' [-> Hry]].
  right. eexists; split; [reflexivity|].
  intro E. apply andb_true_iff in E. destruct E as [E1 E2]. rewrite (Hrx E1), (Hry E2). reflexivity.
Qed.

(* n arrays of one realness: one statement for the built-ins with one result and for svd with three; where it is
   used the `match .. with Some r => Some [KArray r; ..] | None => None end` of result_kinds is this option_map
   by conversion *)
Lemma krel_arrays : forall n o o', flag_rel o o' ->
  krel (option_map (fun r => repeat (KArray r) n) o) (option_map (fun r => repeat (KArray r) n) o').
Proof.
  intros n o o' H. destruct o' as [r'|]; cbn.
  - destruct H as [->|[r [-> Hr]]]; [left; reflexivity|]. right. eexists; split; [reflexivity|].
    induction n; cbn; constructor; [apply kle_arr_arr; assumption|assumption].
  - rewrite H. reflexivity.
Qed.

(* elementwise_abs keeps the class of its argument and makes it real.  A user type is only
   below itself; above a Scalar are Scalars, Arrays and user types, and the real Scalar is
   below the real Array and below every user type. *)
Lemma abs_mono : forall x x', wle x x' ->
  krel (result_kinds true RAbs [x]) (result_kinds true RAbs [x']).
Proof.
  intros x x' [->|Hk]; [apply krel_none|].
  destruct Hk as [->|[_ Hk]]; [apply krel_same|].
  unfold UU in Hk.
  destruct x as [[]|], x' as [[]|]; cbn in Hk |- *; try discriminate; auto;
    right; eexists; (split; [reflexivity|]); (constructor; [|constructor]);
    first [ apply kle_refl | right; split; [discriminate|first [reflexivity|exact Hk]] ].
Qed.

Lemma result_kinds_mono : forall rk a a', Forall2 wle a a' ->
  krel (result_kinds true rk a) (result_kinds true rk a').
Proof.
  intros rk a a' H.
  (* Both lists have the same length, so both sides take the same branch of result_kinds.  The lists are taken
     apart up to five elements, one more than the longest signature (four arguments): a list of the wrong length
     gives None on both sides, a built-in that ignores its arguments the same result; krel_same closes all of these.
     Left are the five built-ins that read an argument, in the order of rkind. *)
  destruct rk; try (cbn; apply krel_same);
    (destruct H as [|x1 x1' ? ? H1 H]; [apply krel_same|]);
    (destruct H as [|x2 x2' ? ? H2 H]; [try apply krel_same|]);
    try (destruct H as [|x3 x3' ? ? H3 H]; [try apply krel_same|]);
    try (destruct H as [|x4 x4' ? ? H4 H]; [try apply krel_same|]);
    try (destruct H as [|x5 x5' ? ? H5 H]; [try apply krel_same|]);
    try apply krel_same.
  - apply abs_mono; assumption.
  - apply (krel_arrays 1), mat2_mono; assumption.
  - apply (krel_arrays 1), mat1_mono; assumption.
  - apply (krel_arrays 1), mat2_mono; assumption.
  - apply (krel_arrays 3), mat1_mono; assumption.
Qed.

Lemma call_kinds_cases : forall ao sg,
  (exists ks, forall vals kwn, call_kinds ao sg vals kwn = Some ks) \/
  (forall vals kwn, call_kinds ao sg vals kwn =
     match resolve (f_args sg) (fst (split_args vals kwn)) (snd (split_args vals kwn)) with
     | None => None
     | Some a => result_kinds ao (f_rk sg) a
     end).
Proof.
  intros ao sg. unfold call_kinds.
  destruct (f_rk sg); [right; intros; destruct (split_args vals kwn); reflexivity..|left; eauto].
Qed.

Theorem call_kinds_mono : forall sg vals vals' kwn, Forall2 wle vals vals' ->
  krel (call_kinds true sg vals kwn) (call_kinds true sg vals' kwn).
Proof.
  intros sg vals vals' kwn H.
  destruct (call_kinds_cases true sg) as [[ks E]|E]; rewrite !E; [apply krel_same|].
  pose proof (resolve_split_rel wle (f_args sg) vals vals' kwn H) as Hr.
  destruct (resolve (f_args sg) _ (snd (split_args vals kwn))) as [a|],
           (resolve (f_args sg) _ (snd (split_args vals' kwn))) as [a'|];
    cbn in Hr; try contradiction; [apply result_kinds_mono; assumption|reflexivity].
Qed.

(* matmul accepts a Scalar where it refuses the UserType above it: defined below, undefined above *)
Lemma matmul_not_mono_refuted :
  let sg := {| f_args := ["a"; "b"; "a_cols"; "b_cols"]; f_nres := 1; f_rk := RMatMul |} in
  let lo := [Some (KScalar true); Some (KScalar true); Some (KScalar true); Some (KScalar true)] in
  let hi := [Some (KUser "u"); Some (KUser "u"); Some (KScalar true); Some (KScalar true)] in
  Forall2 wle lo hi /\ ~ krel (call_kinds false sg lo []) (call_kinds false sg hi []).
Proof.
  cbv zeta. split.
  - constructor; [right; right; split; [discriminate|reflexivity]|].
    constructor; [right; right; split; [discriminate|reflexivity]|].
    constructor; [right; apply kle_refl|]. constructor; [right; apply kle_refl|constructor].
  - vm_compute. discriminate.
Qed.

(* non-vacuity: a defined, strictly increasing instance of call_kinds_mono *)
Example call_kinds_mono_ex :
  let sg := {| f_args := ["a"; "b"; "a_cols"; "b_cols"]; f_nres := 1; f_rk := RMatMul |} in
  call_kinds true sg [Some (KArray true); Some (KArray true); None; None] [] = Some [KArray true] /\
  call_kinds true sg [Some (KArray false); Some (KArray true); None; Some (KScalar true)] [] = Some [KArray false] /\
  call_kinds true sg [Some (KScalar true); Some (KArray true); None; None] [] = None /\
  call_kinds true sg [Some (KArray true)] ["b"] = None /\
  call_kinds true sg [Some (KArray true); None; None; Some (KArray false)] ["b_cols"; "a_cols"; "b"]
    = Some [KArray false].
Proof. repeat split; reflexivity. Qed.
