(* C19 -- the lexer returns exactly the token list of a rendered text when every token is
   followed by a character that does not merge with it; the printed form of an expression with
   lexable names is such a token list. *)
From Coq Require Import List ZArith NArith String Ascii Bool Arith Lia.
Import ListNotations.
From Dagrt Require Import GenC19 Print Parse ExprInd StringFacts LexTokens.
Open Scope list_scope.
Open Scope nat_scope.

Fixpoint nextc (ts : list token) (c : option ascii) : option ascii :=
  match ts with
  | [] => c
  | t :: r => match tok_str t with String d _ => Some d | EmptyString => nextc r c end
  end.

Fixpoint lexok (ts : list token) (c : option ascii) : bool :=
  match ts with
  | [] => true
  | t :: r => tok_ok t (nextc r c) && lexok r c
  end.

Lemma first_char_render ts s : first_char (render ts ++ s)%string = nextc ts (first_char s).
Proof.
  induction ts as [|t r IH]; [reflexivity|].
  cbn [render nextc]. rewrite append_assoc. destruct (tok_str t); [exact IH | reflexivity].
Qed.

Theorem lex_render : forall ts,
  lexok ts None = true -> forall k, String.length (render ts) <= k -> lex_go k (render ts) = Ok ts.
Proof.
  induction ts as [|t r IH]; intros H k Hk; [apply lex_go_nil|].
  cbn [lexok] in H. apply andb_true_iff in H as [Ht Hr].
  destruct (tok_ok_nonempty t _ Ht) as (d & r0 & Et).
  cbn [render] in *. rewrite length_append in Hk.
  pose proof (lex_step_tok t (render r)) as Hs.
  rewrite <- (append_nil_r (render r)), first_char_render, append_nil_r in Hs. specialize (Hs Ht).
  destruct k as [|f]; [rewrite Et in Hk; cbn in Hk; lia|].
  rewrite Et in *. cbn [append] in *. cbn [lex_go]. rewrite Hs.
  rewrite IH; [reflexivity | exact Hr | cbn [String.length] in Hk; lia].
Qed.

Corollary lex_render_ok ts : lexok ts None = true -> lex (render ts) = Ok ts.
Proof. intros H. apply lex_render; [exact H | apply Nat.le_refl]. Qed.

Lemma nextc_app a b c : nextc (a ++ b) c = nextc a (nextc b c).
Proof.
  induction a as [|t r IH]; [reflexivity|]. cbn [app nextc]. destruct (tok_str t); [exact IH|reflexivity].
Qed.

Lemma lexok_app a b c : lexok (a ++ b) c = lexok a (nextc b c) && lexok b c.
Proof.
  induction a as [|t r IH]; [reflexivity|]. cbn [app lexok]. rewrite IH, nextc_app, andb_assoc. reflexivity.
Qed.

(* A character that may follow any token that can end a printed expression: the token does not merge with it.
   Blank, `)`, `]`, `,` are what the printer puts after an operand; `*` is there for the products
   and powers, printed without blanks (an operand never ends in `*`); `(` and `[` for the function
   of a call and the aggregate of a subscript (an identifier or `)` before them lexes the same). *)
Definition safe (c : option ascii) : bool :=
  match c with
  | None => true
  | Some d => Ascii.eqb d " " || Ascii.eqb d ")" || Ascii.eqb d "]" || Ascii.eqb d "," || Ascii.eqb d "*"
              || Ascii.eqb d "(" || Ascii.eqb d "["
  end.

(* A character an expression can start with, as seen from the token before it: none of those that
   tok_ok forbids behind TSp (a blank), TAssign and TCmp (`=`), TTimes (`*`), TOver (`/`). *)
Definition startc (c : option ascii) : bool :=
  match c with
  | None => false
  | Some d => negb (is_ws d) && negb (Ascii.eqb d "=") && negb (Ascii.eqb d "*") && negb (Ascii.eqb d "/")
  end.

Lemma safe_cases c : safe c = true ->
  c = None \/ c = Some " "%char \/ c = Some ")"%char \/ c = Some "]"%char \/ c = Some ","%char
  \/ c = Some "*"%char \/ c = Some "("%char \/ c = Some "["%char.
Proof.
  destruct c as [d|]; [|auto]. cbn [safe]. intros H.
  repeat (apply orb_true_iff in H as [H|H]); apply Ascii.eqb_eq in H; subst; auto 10.
Qed.

Ltac safe_all H := apply safe_cases in H;
  destruct H as [->|[->|[->|[->|[->|[->|[->| ->]]]]]]].

Lemma id_ok_safe x c : is_ident x = true -> safe c = true -> tok_ok (TId x) c = true.
Proof. intros Hx Hc. cbn [tok_ok]. rewrite Hx. safe_all Hc; reflexivity. Qed.
Lemma int_ok_safe n c : safe c = true -> tok_ok (TInt n) c = true.
Proof. intros Hc. safe_all Hc; reflexivity. Qed.
Lemma gt_ok_safe c : safe c = true -> tok_ok (TCmp CGt) c = true.
Proof. intros Hc. safe_all Hc; reflexivity. Qed.

Lemma class_startc (f : ascii -> bool) d :
  f d = true -> forallb (fun k => negb (f k)) [" "; "010"; "009"; "="; "*"; "/"]%char = true ->
  startc (Some d) = true.
Proof.
  intros H Hf. cbn [forallb] in Hf. repeat (apply andb_true_iff in Hf as [?%negb_true_iff Hf]).
  cbn [startc]. unfold is_ws. now rewrite !(class_neq f d) by assumption.
Qed.

Lemma id_start_startc d : is_id_start d = true -> startc (Some d) = true.
Proof. intros H. now apply (class_startc is_id_start). Qed.
Lemma digit_startc d : is_digit d = true -> startc (Some d) = true.
Proof. intros H. now apply (class_startc is_digit). Qed.
Lemma id_start_not_lt_eq d :
  is_id_start d = true -> (Ascii.eqb d "<" || Ascii.eqb d "=") = false /\ (Ascii.eqb d ">" || Ascii.eqb d "=") = false.
Proof. intros H. now rewrite !(class_neq is_id_start d) by (exact H || reflexivity). Qed.

Lemma ident_first x : is_ident x = true -> exists d r, x = String d r /\ is_id_start d = true.
Proof.
  unfold is_ident. intros H. repeat (apply andb_true_iff in H as [H _]).
  destruct x as [|d r]; [discriminate|]. apply andb_true_iff in H as [H _]. eauto.
Qed.

(* Token lists as arrows between classes of characters: ts lexes back whenever a character of class
   post follows, and begins with one of class pre.  Two lists compose when the second begins with
   what the first allows; a separator is Fits safe startc. *)
Definition Fits (pre post : option ascii -> bool) (ts : list token) : Prop :=
  (forall c, post c = true -> lexok ts c = true) /\ (forall c, pre (nextc ts c) = true).

(* the printed form of an operand: Fits startc safe, written out *)
Definition Good (ts : list token) : Prop :=
  (forall c, safe c = true -> lexok ts c = true) /\ (forall c, startc (nextc ts c) = true).

Lemma fits_app pre mid post X Y : Fits pre mid X -> Fits mid post Y -> Fits pre post (X ++ Y).
Proof.
  intros [X1 X2] [Y1 Y2]. split; intros c.
  - intros Hc. rewrite lexok_app, (X1 _ (Y2 c)), (Y1 _ Hc). reflexivity.
  - rewrite nextc_app. apply X2.
Qed.

Lemma good_sep A sep B : Fits safe startc sep -> Good A -> Good B -> Good (A ++ sep ++ B).
Proof. intros Hs GA GB. exact (fits_app _ safe _ _ _ GA (fits_app _ startc _ _ _ Hs GB)). Qed.

Lemma startc_inv c :
  startc c = true ->
  exists d, c = Some d /\ is_ws d = false /\ Ascii.eqb d "=" = false /\ Ascii.eqb d "*" = false
            /\ Ascii.eqb d "/" = false.
Proof.
  destruct c as [d|]; [|discriminate]. cbn [startc]. intros H.
  repeat (apply andb_true_iff in H as [H ?%negb_true_iff]). apply negb_true_iff in H. eauto 6.
Qed.

(* nothing is asked of what follows a bracket *)
Definition bracket (t : token) : bool := match t with TLPar | TRPar | TLBrk | TRBrk => true | _ => false end.

Lemma fits_bracket t (pre post : option ascii -> bool) :
  bracket t = true -> pre (nextc [t] None) = true -> Fits pre post [t].
Proof. destruct t; try discriminate; intros _ Hd; (split; intros c; [reflexivity | exact Hd]). Qed.

Lemma good_paren ts : Good ts -> Good (paren ts).
Proof.
  intros G. change (paren ts) with ([TLPar] ++ ts ++ [TRPar]).
  apply (fits_app _ startc), (fits_app _ safe); [|exact G|]; apply fits_bracket; reflexivity.
Qed.

Lemma good_paren_if b ts : Good ts -> Good (paren_if b ts).
Proof. destruct b; [apply good_paren | auto]. Qed.

Definition spaced (tok : token) : Prop :=
  tok_ok tok (Some " "%char) = true /\ exists d r, tok_str tok = String d r /\ is_ws d = false.

Ltac spaced_tok := split; [reflexivity | eexists _, _; split; reflexivity].

Lemma spaced_nary o : o <> NProd -> spaced (nary_tok o).
Proof. destruct o; try congruence; intros _; spaced_tok. Qed.
Lemma spaced_bin o : o <> BPow -> spaced (bin_tok o).
Proof. destruct o as [| | | |[]]; try congruence; intros _; spaced_tok. Qed.

Lemma sp3_sep tok : spaced tok -> Fits safe startc [TSp; tok; TSp].
Proof.
  intros (Htok & d & r & Et & Hd). split; [|reflexivity]. intros c (e & -> & He & _)%startc_inv.
  cbn [lexok nextc tok_str]. rewrite Et. cbn [tok_ok ocheck]. rewrite Hd, Htok, He. reflexivity.
Qed.

Lemma tight_sep tok : tok = TTimes \/ tok = TPow -> Fits safe startc [tok].
Proof.
  intros Htok. split; [|intros c; destruct Htok as [-> | ->]; reflexivity].
  intros c (e & -> & _ & _ & He & _)%startc_inv. destruct Htok as [-> | ->]; cbn; rewrite ?He; reflexivity.
Qed.

Lemma comma_sep : Fits safe startc [TComma; TSp].
Proof. split; [|reflexivity]. intros c (e & -> & He & _)%startc_inv. cbn. rewrite He. reflexivity. Qed.

Lemma nary_sep_ok o : Fits safe startc (nary_sep [TSp] o).
Proof. destruct o; try (apply tight_sep; now left); apply sp3_sep, spaced_nary; discriminate. Qed.

Lemma bin_sep_ok o : Fits safe startc (bin_sep [TSp] o).
Proof. destruct o; try (apply tight_sep; now right); apply sp3_sep, spaced_bin; discriminate. Qed.

Lemma good_sep3 A tok B : spaced tok -> Good A -> Good B -> Good (A ++ [TSp; tok; TSp] ++ B).
Proof. intros Ht. apply good_sep, sp3_sep, Ht. Qed.

Lemma good_bin o A B : Good A -> Good B -> Good (A ++ bin_sep [TSp] o ++ B).
Proof. apply good_sep, bin_sep_ok. Qed.

Lemma good_join sep l : Fits safe startc sep -> l <> [] -> Forall Good l -> Good (join sep l).
Proof.
  intros Hs Hne HF. induction l as [|x r IH]; [congruence|].
  inversion HF as [|? ? GX HF']; subst. destruct r as [|y r]; [exact GX|].
  change (join sep (x :: y :: r)) with (x ++ sep ++ join sep (y :: r)).
  exact (good_sep _ _ _ Hs GX (IH ltac:(discriminate) HF')).
Qed.

Lemma good_var x : wf_name x = true -> Good (var_toks x).
Proof.
  unfold wf_name, var_toks. destruct x as [|c x]; [discriminate|].
  destruct (Ascii.eqb c "<") eqn:E.
  - destruct (split_gt x) as [[t u]|]; [|discriminate]. intros H. apply andb_true_iff in H as [Ht Hu].
    destruct (ident_first t Ht) as (dt & rt & -> & Hdt).
    destruct (id_start_not_lt_eq dt Hdt) as [Hlt Hgt].
    destruct u as [|du ru].
    + split.
      * intros c0 Hc. cbn [lexok nextc tok_str cmp_str]. rewrite (gt_ok_safe c0 Hc).
        cbn [tok_ok ocheck]. rewrite Hlt, Ht. reflexivity.
      * intros c0. reflexivity.
    + destruct (ident_first _ Hu) as (d2 & r2 & E2 & Hd2). injection E2 as <- <-.
      destruct (id_start_not_lt_eq du Hd2) as [_ Hgt2].
      split.
      * intros c0 Hc. cbn [lexok nextc tok_str cmp_str]. rewrite (id_ok_safe _ c0 Hu Hc).
        cbn [tok_ok ocheck]. rewrite Hlt, Ht, Hgt2. reflexivity.
      * intros c0. reflexivity.
  - intros H. destruct (ident_first _ H) as (d & r & E2 & Hd). injection E2 as <- <-. split.
    + intros c0 Hc. cbn [lexok andb nextc]. rewrite (id_ok_safe _ c0 H Hc). reflexivity.
    + intros c0. cbn [nextc tok_str]. apply id_start_startc. exact Hd.
Qed.

Lemma good_int z q : Good (print [TSp] q (EInt z)).
Proof.
  cbn [print]. destruct (z <? 0)%Z.
  - apply good_paren_if. split.
    + intros c Hc. cbn [lexok andb nextc]. rewrite (int_ok_safe (Z.to_N (- z)) c Hc). reflexivity.
    + intros c. reflexivity.
  - split.
    + intros c Hc. cbn [lexok andb nextc]. rewrite (int_ok_safe (Z.to_N z) c Hc). reflexivity.
    + intros c. cbn [nextc]. destruct (int_text (Z.to_N z)) as (d & ds & -> & Hd & _).
      apply digit_startc. exact Hd.
Qed.

Lemma good_not X : Good X -> Good (TNot :: [TSp] ++ X).
Proof.
  intros G. apply (fits_app _ startc _ [TNot; TSp] X); [|exact G]. split; [|reflexivity].
  intros c (e & -> & He & _)%startc_inv. cbn. rewrite He. reflexivity.
Qed.

Lemma good_kwitem k X : is_ident k = true -> Good X -> Good (TId k :: TAssign :: X).
Proof.
  intros Hk G. apply (fits_app _ startc _ [TId k; TAssign] X); [|exact G]. split.
  - intros c (e & -> & _ & He & _)%startc_inv. cbn [lexok nextc tok_str tok_ok ocheck]. rewrite Hk, He. reflexivity.
  - intros c. cbn [nextc tok_str]. destruct (ident_first k Hk) as (d & r & -> & Hd). apply id_start_startc. exact Hd.
Qed.

Lemma good_call F items :
  Good F -> Forall Good items -> Good (F ++ [TLPar] ++ join (TComma :: [TSp]) items ++ [TRPar]).
Proof.
  intros GF HI. apply (fits_app _ safe); [exact GF|]. destruct items as [|x r].
  - apply (fits_app _ safe); apply fits_bracket; reflexivity.
  - apply (fits_app _ startc), (fits_app _ safe); try (apply fits_bracket; reflexivity).
    apply good_join; [exact comma_sep | discriminate | exact HI].
Qed.

Lemma good_sub A I : Good A -> Good I -> Good (A ++ [TLBrk] ++ I ++ [TRBrk]).
Proof.
  intros GA GI. apply (fits_app _ safe); [exact GA|].
  apply (fits_app _ startc), (fits_app _ safe); [|exact GI|]; apply fits_bracket; reflexivity.
Qed.

Lemma wf_expr_operand c : wf_expr c && negb (is_tuple c) = true -> wf_expr c = true.
Proof. intros H. apply andb_true_iff in H. tauto. Qed.

Definition PG (e : expr) : Prop :=
  wf_names e = true -> wf_expr e = true -> forall q, Good (print [TSp] q e).

Lemma good_list l :
  Forall PG l -> forallb wf_names l = true ->
  forallb (fun c => wf_expr c && negb (is_tuple c)) l = true ->
  forall q, Forall Good (map (print [TSp] q) l).
Proof.
  intros HF Hn Hw q. apply Forall_forall. intros ts Hts. apply in_map_iff in Hts as (e & <- & Hin).
  rewrite Forall_forall in HF. rewrite forallb_forall in Hn, Hw.
  apply HF; auto. apply wf_expr_operand. auto.
Qed.

Theorem good_print : forall e, PG e.
Proof.
  induction e using expr_ind'; intros Hn Hw q.
  - apply good_int.
  - cbn [print]. destruct b; (split; [intros c Hc; reflexivity | intros c; reflexivity]).
  - cbn [print]. apply good_var. exact Hn.
  - rewrite print_nary. apply good_paren_if. cbn [wf_names] in Hn. cbn [wf_expr] in Hw.
    apply andb_true_iff in Hw as [Hlen Hw].
    assert (Hne : map (operand_toks [TSp] o) l <> []) by (destruct l; discriminate).
    assert (HG : Forall Good (map (operand_toks [TSp] o) l)).
    { apply Forall_forall. intros ts Hts. apply in_map_iff in Hts as (e & <- & Hin).
      rewrite Forall_forall in H. rewrite forallb_forall in Hn, Hw.
      assert (He : forall q', Good (print [TSp] q' e)) by (intros q'; apply H; auto; apply wf_expr_operand; auto).
      destruct o; try apply He. apply good_paren_if. apply He. }
    exact (good_join _ _ (nary_sep_ok o) Hne HG).
  - cbn [print]. apply good_paren_if. cbn [wf_names] in Hn. apply andb_true_iff in Hn as [Hn1 Hn2].
    cbn [wf_expr] in Hw. apply andb_true_iff in Hw as [Hw _]. apply andb_true_iff in Hw as [Hw _].
    apply andb_true_iff in Hw as [Hw1 Hw2].
    pose proof (fun q' => IHe1 Hn1 Hw1 q') as G1. pose proof (fun q' => IHe2 Hn2 Hw2 q') as G2.
    destruct o; apply good_bin; try apply good_paren_if; auto.
  - cbn [print]. apply good_paren_if. cbn [wf_names] in Hn. cbn [wf_expr] in Hw.
    apply andb_true_iff in Hw as [Hw _]. apply good_not. apply IHe; auto.
  - cbn [print]. apply good_paren_if. cbn [wf_names] in Hn. apply andb_true_iff in Hn as [Hn Hn3].
    apply andb_true_iff in Hn as [Hn1 Hn2].
    cbn [wf_expr] in Hw. do 3 (apply andb_true_iff in Hw as [Hw _]). apply andb_true_iff in Hw as [Hw Hw3].
    apply andb_true_iff in Hw as [Hw1 Hw2].
    change (print [TSp] PR_LOGICAL_OR e2 ++ [TSp] ++ [TIf] ++ [TSp] ++ print [TSp] PR_LOGICAL_OR e1
            ++ [TSp] ++ [TElse] ++ [TSp] ++ print [TSp] PR_LOGICAL_OR e3)
      with (print [TSp] PR_LOGICAL_OR e2 ++ [TSp; TIf; TSp]
            ++ (print [TSp] PR_LOGICAL_OR e1 ++ [TSp; TElse; TSp] ++ print [TSp] PR_LOGICAL_OR e3)).
    apply (good_sep3 _ TIf); [spaced_tok | apply IHe2; auto |].
    apply (good_sep3 _ TElse); [spaced_tok | apply IHe1; auto | apply IHe3; auto].
  - cbn [print]. cbn [wf_names] in Hn. apply andb_true_iff in Hn as [Hn Hnk]. apply andb_true_iff in Hn as [Hnf Hna].
    cbn [wf_expr] in Hw. apply andb_true_iff in Hw as [Hw _]. apply andb_true_iff in Hw as [Hw Hwk].
    apply andb_true_iff in Hw as [Hw Hwa]. apply andb_true_iff in Hw as [Hwf _].
    apply good_call; [apply IHe; auto|].
    apply Forall_app. split; [apply good_list; auto|].
    apply Forall_forall. intros ts Hts. apply in_map_iff in Hts as (kv & <- & Hin).
    rewrite Forall_forall in H0. rewrite forallb_forall in Hnk, Hwk.
    specialize (Hnk kv Hin). apply andb_true_iff in Hnk as [Hk Hv].
    apply good_kwitem; [exact Hk|]. apply H0; auto. apply wf_expr_operand. auto.
  - rewrite print_sub. apply good_paren_if.
    rewrite wf_names_sub in Hn. apply andb_true_iff in Hn as [Hn1 Hn2].
    rewrite wf_expr_sub in Hw. apply andb_true_iff in Hw as [Hw Hwi]. apply andb_true_iff in Hw as [Hw1 _].
    apply andb_true_iff in Hwi as [Hlen Hwl].
    apply good_sub; [apply IHe1; auto|].
    apply (good_join _ _ comma_sep); [|apply good_list; auto].
    destruct (items_shape e2 Hlen) as (i1 & l & -> & _). discriminate.
  - discriminate.
Qed.

(* wf_expr is needed: an n-ary node without children prints as nothing, which begins with no character *)
Theorem lex_print e :
  wf_names e = true -> wf_expr e = true -> lex (print_string e) = Ok (print [TSp] PR_NONE e).
Proof.
  intros Hn Hw. unfold print_string. apply lex_render_ok.
  destruct (good_print e Hn Hw PR_NONE) as [G _]. apply G. reflexivity.
Qed.
