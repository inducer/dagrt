(* Definition before use for the four passes (no side condition on the expressions; the conditional-expression
   expander only in its repaired shape): it holds of what a pass puts in the place of a leaf, TransformStmt.derived
   (derived_dbu, over TransformSyn.hoist_wsyn) and TransformSd.sdderived (sdderived_dbu). *)
From Coq Require Import List ZArith NArith String Ascii Bool Arith Lia Permutation.
Import ListNotations.
From Dagrt Require Import Lang LangProofs Sched Transform TransformSem TransformSide TransformBasics TransformHoist
     TransformSpec TransformMappers TransformLeaf TransformStmt TransformSd TransformTree TransformProofs
     TransformSyn ListFacts.

Definition kindy (cond : expr) (k k' : skind) (ns : list tstmt) : Prop :=
  wsynV cond (flat_map vars (kexprs k)) (flat_map vars (kexprs k')) ns.

Lemma kindy_id cond k : kindy cond k k [].
Proof. apply wsynV_id. Qed.

Lemma khoist_wsyn {p cond k k' ns N I} : khoist p cond k k' ns N I -> kindy cond k k' ns.
Proof.
  intros H. destruct H as [k|x rhs rhs' ns N I H|x ie ie' rhs rhs' ns N I H|comp tid time time' e e' ns N I H
                           |xs fn args kw fn' ks' l' ns N I pp kv H Es]; unfold kindy; cbn [kexprs].
  - apply wsynV_id.
  - cbn [flat_map app]. rewrite !app_nil_r. exact (hoist_wsynG H).
  - exact (hoists_wsynV H).
  - exact (hoists_wsynV H).
  - apply split_at_spec in Es. destruct Es as [-> _].
    apply (wsynV_incl _ _ _ _ _ _ (incl_refl _)) with (2 := hoist_wsynG H). cbn [vars].
    rewrite !flat_map_app. apply incl_app; [apply incl_appl, incl_refl|apply incl_appr, flat_map_incl, combine_snd_incl].
Qed.

Definition def_before_use (s : tstmt) (l : list tstmt) : Prop :=
  forall G D, (forall x, In x (rvars s) -> In x G -> In x D) -> dbuD G D l.

Lemma dbu_self s : def_before_use s [s].
Proof. intros G D H. now apply dbuD_one. Qed.

Theorem derived_dbu p s l N I : derived p s l N I -> def_before_use s l.
Proof.
  intros (ns & k' & deps' & -> & Hk) G D H. unfold rvars in H.
  destruct (khoist_wsyn Hk G D) as [D1 R1].
  { intros x Hx. apply H, in_app_iff. now right. }
  { intros x Hx. apply H, in_app_iff. now left. }
  apply dbuD_app; [exact D1|]. apply dbuD_one. unfold rvars. cbn [tcond tkd].
  apply known_app; [|exact R1]. apply known_appl. intros x Hx. apply H, in_app_iff. now left.
Qed.

Lemma sd_loop_y s vs : forall st sb ids ns st',
  sd_loop s vs st = TOk ((sb, ids, ns), st') ->
  wrs ns = map snd sb /\
  Forall (fun n => exists v, In v vs /\ rvars n = vars (tcond s) ++ [v]) ns.
Proof.
  intros st sb ids ns st' E. destruct (sd_loop_r _ _ _ _ _ _ _ E) as (N & I & _ & C).
  exact (conj (copies_wrs C) (copies_rvars C)).
Qed.

Lemma kexprs_subst sb k :
  forall x, In x (flat_map vars (kexprs (ksubst sb k))) -> In x (flat_map vars (kexprs k)) \/ In x (map snd sb).
Proof.
  intros x Hx. destruct k as [y sub rhs loops|xs fn args kw|comp tid time e| | | |]; cbn [ksubst kexprs] in *;
    try contradiction.
  - rewrite !flat_map_app in *. rewrite !in_app_iff in *. destruct Hx as [Hx|[Hx|Hx]]; [tauto| |].
    + cbn [flat_map] in *. rewrite app_nil_r in *. apply vars_subst in Hx. tauto.
    + induction loops as [|[[i lo] hi] loops IHl]; cbn [map flat_map fst snd app] in *; [contradiction|].
      rewrite !in_app_iff in *. destruct Hx as [Hx|[Hx|Hx]].
      * apply vars_subst in Hx. tauto.
      * apply vars_subst in Hx. tauto.
      * destruct (IHl Hx) as [[H|[H|H]]|H]; tauto.
  - rewrite map_snd_combine in Hx by now rewrite !map_length. rewrite <- map_app in Hx. now apply vars_subst_list.
  - cbn [flat_map] in *. rewrite !in_app_iff in *. cbn [In] in *.
    destruct Hx as [Hx|[Hx|[]]]; apply vars_subst in Hx; tauto.
Qed.

Lemma loops_vars (loops : list (var * expr * expr)) x :
  In x (flat_map (fun l => vars (snd (fst l)) ++ vars (snd l)) loops) ->
  In x (flat_map vars (flat_map (fun l => [snd (fst l); snd l]) loops)).
Proof.
  induction loops as [|[[i lo] hi] loops IH]; cbn [flat_map fst snd app]; [auto|].
  rewrite !in_app_iff. intros [[H|H]|H]; auto.
Qed.

Lemma sreads_rvars lsr lbr s : incl (sreads lsr lbr s) (rvars s).
Proof.
  unfold sreads, reads, rvars. destruct s as [id deps cond k]. cbn [to_stmt scond skd tcond tkd].
  intros x Hx. rewrite in_app_iff in *. destruct Hx as [Hx|Hx]; [right|now left].
  destruct k as [y sub rhs loops|xs fn args kw|comp tid time e| | | |]; cbn [kind_reads kexprs] in *; try contradiction.
  - rewrite !flat_map_app. rewrite !in_app_iff in *. destruct Hx as [Hx|[Hx|Hx]].
    + right. left. cbn [flat_map]. apply in_app_iff. now left.
    + destruct lsr; [|contradiction]. destruct sub; [|contradiction]. left. cbn [flat_map]. apply in_app_iff. now left.
    + destruct lbr; [|contradiction]. right. right. now apply loops_vars.
  - rewrite flat_map_app. rewrite in_app_iff in *. destruct Hx as [Hx|Hx]; [now left|right].
    now rewrite flat_map_map.
  - cbn [flat_map]. rewrite !in_app_iff in *. tauto.
Qed.

Lemma sdderived_dbu lsr lbr s l N I : sdderived lsr lbr s l N I -> def_before_use s l.
Proof.
  intros [|vs sb ids ns N0 I0 Hrw C]; [apply dbu_self|].
  assert (Hvs : incl vs (rvars s)).
  { intros v Hv. exact (sreads_rvars lsr lbr s v (proj1 (read_and_written_sub lsr lbr s v (Hrw v Hv)))). }
  pose proof (copies_rvars C) as Hr. pose proof (copies_wrs C) as Hw. clear C.
  intros G D H. apply dbuD_app.
  - (* the copies read the guard and one original variable each *)
    assert (Hall : forall D0, incl D D0 -> dbuD G D0 ns).
    { clear Hw. induction Hr as [|n ns (v' & Hv' & Hn) _ IHn]; intros D0 Hi; [apply dbuD_nil|].
      change (n :: ns) with ([n] ++ ns). apply dbuD_app.
      - apply dbuD_one. intros x Hx Hg. rewrite Hn in Hx. apply Hi. apply in_app_iff in Hx.
        destruct Hx as [Hx|[<-|[]]]; (apply H; [|exact Hg]); [unfold rvars; apply in_app_iff; now left|now apply Hvs].
      - apply IHn. apply incl_appl. exact Hi. }
    apply Hall. apply incl_refl.
  - apply dbuD_one. intros x Hx Hg. unfold rvars in Hx. cbn [tcond tkd] in Hx. apply in_app_iff in Hx.
    destruct Hx as [Hx|Hx].
    + apply in_app_iff. left. apply H; [unfold rvars; apply in_app_iff; now left|exact Hg].
    + apply kexprs_subst in Hx. destruct Hx as [Hx|Hx].
      * apply in_app_iff. left. apply H; [unfold rvars; apply in_app_iff; now right|exact Hg].
      * apply in_app_iff. right. now rewrite Hw.
Qed.

Lemma ms_sd_y lsr lbr sds ords s :
  loopfree (tkd s) = true ->
  forall st l st', ms_sd lsr lbr sds ords s st = TOk (l, st') -> def_before_use s l.
Proof.
  intros Hlf st l st' E. destruct (ms_sd_r _ _ _ _ _ _ _ _ Hlf E) as (N & I & _ & D).
  exact (sdderived_dbu _ _ _ _ _ _ D).
Qed.

Definition lf (s : tstmt) : bool := loopfree (tkd s).

(* ff = true: the expander in its repaired shape *)
Theorem def_before_use_thm lsr lbr snv sds fixed ff ords :
  ff = true ->
  forall t t' st',
    forallb lf (tstmts t) = true ->
    eliminate_self_dependencies lsr lbr snv sds ords t = TOk (t', st') \/
    isolate_function_arguments lsr lbr snv t = TOk (t', st') \/
    isolate_function_calls lsr lbr snv fixed t = TOk (t', st') \/
    expand_IfThenElse lsr lbr snv ff t = TOk (t', st') ->
    derives def_before_use t t'.
Proof.
  intros -> t t' st' Hl [E|[E|[E|E]]]; (eapply run_pass_derives; [|exact E|exact Hl]); intros s st0 l0 st1 Hs Hm.
  - now apply (ms_sd_y lsr lbr sds ords s Hs st0 l0 st1).
  - destruct (ms_fai_r s st0 l0 st1 Hs Hm) as (N & I & _ & D). exact (derived_dbu _ _ _ _ _ D).
  - destruct (ms_fci_r fixed s st0 l0 st1 Hs Hm) as (N & I & _ & D). exact (derived_dbu _ _ _ _ _ D).
  - destruct (ms_ite_r s st0 l0 st1 Hs Hm) as (N & I & _ & D). exact (derived_dbu _ _ _ _ _ D).
Qed.

Lemma def_before_use_fresh s l G :
  def_before_use s l -> (forall x, In x (rvars s) -> ~ In x G) -> dbuD G [] l.
Proof. intros H Hf. apply H. intros x Hx Hg. exfalso. now apply (Hf x Hx). Qed.

(* one run in a single statement each; nothing rests on them *)
Theorem fai_y e : forall cond bdeps, yspec cond e (fai cond bdeps e).
Proof. intros cond bdeps. exact (rspec_yspec _ _ _ _ (fai_rspec e cond bdeps)). Qed.

Theorem fci_y fixed e : forall cond bdeps, yspec cond e (fci fixed cond bdeps e).
Proof. intros cond bdeps. exact (rspec_yspec _ _ _ _ (fci_rspec fixed e cond bdeps)). Qed.

Theorem ite_y e : forall cond bdeps, yspec cond e (ite true e cond bdeps).
Proof. intros cond bdeps. exact (rspec_yspec _ _ _ _ (ite_rspec e cond bdeps)). Qed.

