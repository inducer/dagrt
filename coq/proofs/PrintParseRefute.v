(* C19 -- the full round-trip statement is false of the model: four witnesses, each a defect of
   pymbolic's printer/parser pair (outside /repo), each checked by computation.  The same four
   expressions are corpus/C19/refuted_*.json and are replayed on the real code by the check. *)
From Coq Require Import List ZArith String Bool.
Import ListNotations.
From Dagrt Require Import GenC19 Print Parse.
Open Scope string_scope.

Definition full_statement : Prop :=
  forall e, wf_expr e = true -> wf_names e = true ->
  exists e', parse_string (print_string e) = Ok e'
             /\ print_string e' = print_string e
             /\ vars e' = vars e
             /\ forall rho Ffun Fsub Fquot Fnegpow,
                  eval rho Ffun Fsub Fquot Fnegpow e' = eval rho Ffun Fsub Fquot Fnegpow e.

Lemma refuted_by e :
  wf_expr e = true -> wf_names e = true ->
  (forall e', parse_string (print_string e) = Ok e' -> print_string e' = print_string e ->
     (forall rho Ffun Fsub Fquot Fnegpow,
        eval rho Ffun Fsub Fquot Fnegpow e' = eval rho Ffun Fsub Fquot Fnegpow e) -> False) ->
  ~ full_statement.
Proof. intros Hw Hn K H. destruct (H e Hw Hn) as (e' & Hp & Hs & _ & Hev). exact (K e' Hp Hs Hev). Qed.

Definition nof3 : string -> list Z -> list (string * Z) -> option Z := fun _ _ _ => None.
Definition nof2 : Z -> Z -> option Z := fun _ _ => None.
Definition nofs : Z -> list Z -> option Z := fun _ _ => None.

(* (a**2)**3 prints a**2**3, which is a**(2**3): 64 vs 256 at a = 2 *)
Definition wit_pow : expr := EBin BPow (EBin BPow (EVar "a") (EInt 2)) (EInt 3).

Lemma wit_pow_reparsed :
  parse_string (print_string wit_pow) = Ok (EBin BPow (EVar "a") (EBin BPow (EInt 2) (EInt 3))).
Proof. vm_compute. reflexivity. Qed.

Lemma refuted_pow : ~ full_statement.
Proof.
  apply (refuted_by wit_pow eq_refl eq_refl). intros e' Hp _ Hev.
  rewrite wit_pow_reparsed in Hp. injection Hp as <-.
  specialize (Hev (fun _ => 2%Z) nof3 nofs nof2 nof2).
  vm_compute in Hev. discriminate.
Qed.

(* a < (bb == bb) prints a < bb == bb, which is (a < bb) == bb: at a=0, bb=2  1 vs 0 *)
Definition wit_cmp : expr :=
  EBin (BCmp CLt) (EVar "a") (EBin (BCmp CEq) (EVar "bb") (EVar "bb")).

Lemma refuted_cmp : ~ full_statement.
Proof.
  apply (refuted_by wit_cmp eq_refl eq_refl). intros e' Hp _ Hev.
  vm_compute in Hp. injection Hp as <-.
  specialize (Hev (fun x => if String.eqb x "a" then 0%Z else 2%Z) nof3 nofs nof2 nof2).
  vm_compute in Hev. discriminate.
Qed.

(* f(x if c else y, z): the else-branch is parsed with min_precedence 0 and swallows ", z" *)
Definition wit_if : expr :=
  ECall (EVar "<func>f") [EIf (EVar "c") (EVar "x") (EVar "y"); EVar "z"] [].

Lemma wit_if_reparsed :
  parse_string (print_string wit_if)
  = Ok (ECall (EVar "<func>f") [EIf (EVar "c") (EVar "x") (ETuple [EVar "y"; EVar "z"])] []).
Proof. vm_compute. reflexivity. Qed.

Lemma refuted_if : ~ full_statement.
Proof.
  apply (refuted_by wit_if eq_refl eq_refl). intros e' Hp Hs _.
  rewrite wit_if_reparsed in Hp. injection Hp as <-.
  vm_compute in Hs. discriminate.
Qed.

(* a + True: the parser asserts is_arithmetic_expression on the operands *)
Definition wit_bool : expr := ENary NSum [EVar "a"; EBool true].

Lemma refuted_bool : ~ full_statement.
Proof.
  apply (refuted_by wit_bool eq_refl eq_refl). intros e' Hp _ _.
  vm_compute in Hp. discriminate.
Qed.

(* each witness is structurally sane and leaves `printable` through no_defect alone *)
Example wit_shapes :
  (wf_expr wit_pow, no_defect wit_pow, wf_expr wit_cmp, no_defect wit_cmp,
   wf_expr wit_if, no_defect wit_if, wf_expr wit_bool, no_defect wit_bool)
  = (true, false, true, false, true, false, true, false).
Proof. vm_compute. reflexivity. Qed.
