(* What the models of the controller (C04), the lowering (C05) and the verifier (C10) share: the
   id -> statement map, the fuel measure and the invariant of the two iterative searches, two
   facts about finite acyclic dependency graphs, and a recursive post-order depth-first search
   with its specification and fuel bound (DESIGN.md, appendix D). *)
From Coq Require Import List Arith Lia Bool Relations.
Import ListNotations.
From Dagrt Require Import ListFacts.

(* `{s.id: s for s in statements}`: the last statement with a given id wins.  Each model has its
   own record of statements and its own copy of this function, convertible to [lookup_by sid]. *)
Section Lookup.
  Context {A : Type} (key : A -> nat).

  Fixpoint lookup_by (l : list A) (i : nat) : option A :=
    match l with
    | [] => None
    | s :: r => match lookup_by r i with
                | Some t => Some t
                | None => if key s =? i then Some s else None
                end
    end.

  Lemma lookup_by_Some l i s : lookup_by l i = Some s -> In s l /\ key s = i.
  Proof.
    induction l as [|a r IH]; cbn; [discriminate|].
    destruct (lookup_by r i) as [t|].
    - intros [= <-]. destruct (IH eq_refl). auto.
    - destruct (key a =? i) eqn:Ea; [|discriminate].
      intros [= <-]. apply Nat.eqb_eq in Ea. auto.
  Qed.

  Lemma lookup_by_None l i : lookup_by l i = None <-> ~ In i (map key l).
  Proof.
    induction l as [|a r IH]; cbn; [tauto|].
    destruct (lookup_by r i) as [t|] eqn:E.
    - split; [discriminate|]. intros H. exfalso. apply H. right.
      destruct (lookup_by_Some _ _ _ E) as [H1 <-]. now apply in_map.
    - destruct (key a =? i) eqn:Ea.
      + apply Nat.eqb_eq in Ea. split; [discriminate|]. intros H. exfalso. auto.
      + apply Nat.eqb_neq in Ea. tauto.
  Qed.

  Lemma lookup_by_In l i : In i (map key l) -> exists s, lookup_by l i = Some s.
  Proof.
    intros H. destruct (lookup_by l i) as [s|] eqn:E; [eauto|].
    apply lookup_by_None in E. contradiction.
  Qed.

  Lemma lookup_by_NoDup l s : NoDup (map key l) -> In s l -> lookup_by l (key s) = Some s.
  Proof.
    intros ND Hs. destruct (lookup_by_In l (key s) (in_map key l s Hs)) as [t E]. rewrite E.
    destruct (lookup_by_Some _ _ _ E) as [Ht Ek]. f_equal. eapply NoDup_map_inj; eauto.
  Qed.

  (* The measure of the iterative searches (DagAst.topo, Verify.cyc): what the statements not yet
     visited will push on the stack.  It drops by the statement's cost when a statement is entered. *)
  Variable cost : A -> nat.

  Definition unvisited_cost (visited : list nat) (l : list A) : nat :=
    fold_right (fun a n => (if existsb (Nat.eqb (key a)) visited then 0 else cost a) + n) 0 l.

  Lemma unvisited_cost_nil l : unvisited_cost [] l = fold_right (fun a n => cost a + n) 0 l.
  Proof. reflexivity. Qed.

  Lemma unvisited_cost_cons visited a l :
    unvisited_cost visited (a :: l) =
    (if existsb (Nat.eqb (key a)) visited then 0 else cost a) + unvisited_cost visited l.
  Proof. reflexivity. Qed.

  Lemma unvisited_cost_mono x visited l : unvisited_cost (x :: visited) l <= unvisited_cost visited l.
  Proof.
    induction l as [|a r IH]; [apply Nat.le_refl|]. rewrite !unvisited_cost_cons. cbn [existsb].
    destruct (key a =? x), (existsb (Nat.eqb (key a)) visited); cbn [orb]; lia.
  Qed.

  Lemma unvisited_cost_enter a visited l :
    In a l -> ~ In (key a) visited ->
    unvisited_cost (key a :: visited) l + cost a <= unvisited_cost visited l.
  Proof.
    intros Hin Hn. apply existsb_nat_nIn in Hn.
    induction l as [|b r IH]; [destruct Hin|]. rewrite !unvisited_cost_cons. cbn [existsb].
    destruct Hin as [->|Hin].
    - pose proof (unvisited_cost_mono (key a) visited r). rewrite Nat.eqb_refl, Hn. cbn [orb]. lia.
    - specialize (IH Hin).
      destruct (key b =? key a), (existsb (Nat.eqb (key b)) visited); cbn [orb]; lia.
  Qed.
End Lookup.

Section Graph.
  Variable R : nat -> nat -> Prop.

  Lemma acyclic_of_rank (rank : nat -> nat) :
    (forall a b, R a b -> rank b < rank a) -> forall x, ~ clos_trans nat R x x.
  Proof.
    intros H x Hx.
    assert (G : forall a b, clos_trans nat R a b -> rank b < rank a).
    { induction 1 as [a b He|a b c _ IH1 _ IH2]; [auto|lia]. }
    specialize (G x x Hx). lia.
  Qed.

  (* In a finite acyclic graph every node is reached from a root: walk against the edges; the
     nodes passed are distinct, so the walk stops within length U steps, and it stops at a root. *)
  Variable U : list nat.
  Variable root : nat -> Prop.
  Hypothesis acyclic : forall x, ~ clos_trans nat R x x.
  Hypothesis up : forall x, In x U -> root x \/ exists y, In y U /\ R y x.

  Lemma climb : forall k x seen, In x U -> NoDup seen -> incl seen U ->
    (forall y, In y seen -> clos_trans nat R x y) -> length U <= k + length seen ->
    exists r, In r U /\ root r /\ clos_refl_trans nat R r x.
  Proof.
    induction k as [|k IH]; intros x seen Hx ND Hincl Hreach Hlen;
      assert (ND2 : NoDup (x :: seen))
        by (constructor; [intros H; exact (acyclic x (Hreach x H)) | assumption]);
      assert (Hi2 : incl (x :: seen) U) by (intros y [<-|Hy]; auto).
    - pose proof (NoDup_incl_length ND2 Hi2) as Hl. cbn [length] in Hl. lia.
    - destruct (up x Hx) as [Hr|(y & Hy & Hyx)]; [exists x; auto using rt_refl|].
      destruct (IH y (x :: seen) Hy ND2 Hi2) as (r & Hr & Hroot & Hry).
      + intros z [<-|Hz]; [now apply t_step|].
        eapply t_trans; [apply t_step; exact Hyx|auto].
      + cbn [length]. lia.
      + exists r. repeat split; auto. eapply rt_trans; [exact Hry|now apply rt_step].
  Qed.

  Lemma reach_from_root x : In x U -> exists r, In r U /\ root r /\ clos_refl_trans nat R r x.
  Proof.
    intros Hx. apply (climb (length U) x []); auto using NoDup_nil, incl_nil_l.
    - intros y [].
    - cbn. lia.
  Qed.
End Graph.

(* A depth-first search with an explicit stack (DagAst.topo, Verify.cyc).  An id is grey while it is
   in `visiting`, finished once it is in `order`.  One turn pops the top of the stack when it is
   visited - finishing it if it is grey - or enters it and pushes what it depends on. *)
Section Iter.
  Variable R : nat -> nat -> Prop.
  Variable roots0 : list nat.   (* what the search is started with *)

  Inductive post_order : list nat -> Prop :=
  | po_nil : post_order []
  | po_snoc l x : post_order l -> (forall d, R x d -> In d l) -> ~ In x l -> post_order (l ++ [x]).

  Lemma post_order_closed l : post_order l -> forall x y, In x l -> clos_trans nat R x y -> In y l.
  Proof.
    intros P x y Hx Hxy. revert Hx. induction Hxy as [x y He|x y z _ IH1 _ IH2]; [|auto].
    induction P as [|l a _ IH Hd _]; intros Hx; [destruct Hx|].
    rewrite in_app_iff in *. destruct Hx as [Hx|[<-|[]]]; left; auto.
  Qed.

  Lemma post_order_acyclic l : post_order l -> forall x, In x l -> ~ clos_trans nat R x x.
  Proof.
    induction 1 as [|l a P IH Hd Hn]; intros x Hx Hc; [destruct Hx|].
    apply in_app_or in Hx as [Hx|[<-|[]]]; [exact (IH x Hx Hc)|].
    apply Hn. apply clos_trans_t1n in Hc. inversion Hc as [? H1|d ? H1 H2]; subst; [auto|].
    apply clos_t1n_trans in H2. exact (post_order_closed l P d a (Hd d H1) H2).
  Qed.

  (* A grey x owns the part of the stack above it: what it depends on is finished or in there, and
     everything in there descends from it.  An id can be on the stack several times; `~ In x above`
     says that the frame of x starts at its topmost occurrence, so that a grey id on top of the stack
     has nothing above it and can be finished. *)
  Definition frame (stack order : list nat) (x : nat) : Prop :=
    exists above below, stack = above ++ x :: below /\ ~ In x above /\
      (forall d, R x d -> In d order \/ In d above) /\
      (forall y, In y above -> clos_trans nat R x y).

  Lemma frame_top s rest order : frame (s :: rest) order s -> forall d, R s d -> In d order.
  Proof.
    intros (above & below & Hs & Hn & Hd & _) d He.
    apply head_split in Hs as [(-> & _)|(a' & -> & _)]; [|destruct Hn; now left].
    destruct (Hd d He) as [?|[]]. assumption.
  Qed.

  (* order' is order when a stale s is popped, order ++ [s] when s is finished *)
  Lemma frame_pop s rest order order' x :
    frame (s :: rest) order x -> x <> s -> (forall d, In d order \/ d = s -> In d order') ->
    frame rest order' x.
  Proof.
    intros (above & below & Hs & Hn & Hd & Hr) Hne Ho.
    apply head_split in Hs as [(_ & E & _)|(a' & -> & ->)]; [congruence|].
    exists a', below. split; [reflexivity|]. split; [intros H; apply Hn; now right|]. split.
    - intros d Hd'. destruct (Hd d Hd') as [?|[<-|?]]; auto.
    - intros y Hy. apply Hr. now right.
  Qed.

  Lemma frame_push s rest order x new :
    frame (s :: rest) order x -> x <> s -> ~ In x new -> (forall y, In y new -> R s y) ->
    frame (new ++ s :: rest) order x.
  Proof.
    intros (above & below & Hs & Hn & Hd & Hr) Hne Hnn Hnew.
    exists (new ++ above), below. split; [rewrite Hs, app_assoc; reflexivity|].
    split; [rewrite in_app_iff; tauto|]. split.
    - intros d Hd'. rewrite in_app_iff. destruct (Hd d Hd'); auto.
    - intros y Hy. apply in_app_or in Hy as [Hy|Hy]; [|auto].
      apply t_trans with s; [|apply t_step; auto].
      apply Hr. apply head_split in Hs as [(_ & E & _)|(a' & -> & _)]; [congruence|now left].
  Qed.

  Record DInv (stack visiting visited order : list nat) : Prop := {
    I_post : post_order order;
    I_vis : forall x, In x visited <-> In x visiting \/ In x order;
    I_disj : forall x, In x visiting -> ~ In x order;
    I_frame : forall x, In x visiting -> frame stack order x;
    I_roots : forall r, In r roots0 -> In r stack \/ In r order }.

  Lemma dinv_init : DInv (rev roots0) [] [] [].
  Proof.
    constructor; [constructor | intros x; cbn; tauto | intros x [] | intros x [] |].
    intros r Hr. left. now apply in_rev in Hr.
  Qed.

  Lemma dinv_done visiting visited order : DInv [] visiting visited order ->
    post_order order /\ (forall r, In r roots0 -> In r order).
  Proof.
    intros [Ipost _ _ _ Iroots]. split; [assumption|].
    intros r Hr. destruct (Iroots r Hr) as [[]|?]. assumption.
  Qed.

  (* the top of the stack is grey: it is finished; visiting' is visiting without it *)
  Lemma dinv_finish s rest visiting visiting' visited order :
    DInv (s :: rest) visiting visited order -> In s visiting ->
    (forall x, In x visiting' <-> In x visiting /\ x <> s) ->
    DInv rest visiting' visited (order ++ [s]).
  Proof.
    intros [Ipost Ivis Idisj Iframe Iroots] Eg Hg'. constructor.
    - constructor; [assumption|exact (frame_top _ _ _ (Iframe s Eg))|apply Idisj; assumption].
    - intros x. rewrite Ivis, Hg', in_app_iff. cbn [In].
      destruct (Nat.eq_dec x s) as [->|Hne]; [tauto|].
      assert (s <> x) by congruence. tauto.
    - intros x Hx. apply Hg' in Hx as [Hx Hne].
      rewrite in_app_iff. intros [Ho|[E|[]]]; [revert Ho; apply Idisj; assumption|congruence].
    - intros x Hx. apply Hg' in Hx as [Hx Hne]. apply (frame_pop s rest order); auto.
      intros d [H| ->]; apply in_or_app; [now left|right; now left].
    - intros r Hr. rewrite in_app_iff. destruct (Iroots r Hr) as [[<-|?]|?]; auto.
      right. right. now left.
  Qed.

  (* the top of the stack was finished before *)
  Lemma dinv_stale s rest visiting visited order :
    DInv (s :: rest) visiting visited order -> In s visited -> ~ In s visiting ->
    DInv rest visiting visited order.
  Proof.
    intros [Ipost Ivis Idisj Iframe Iroots] Ev Eg.
    assert (Ho : In s order) by (apply Ivis in Ev; tauto).
    constructor; try assumption.
    - intros x Hx. apply (frame_pop s rest order); auto; [congruence|]. now intros d [H| ->].
    - intros r Hr. destruct (Iroots r Hr) as [[<-|?]|?]; auto.
  Qed.

  (* an edge from the unvisited top of the stack to a grey id closes a cycle *)
  Lemma grey_cycle s rest visiting visited order d :
    DInv (s :: rest) visiting visited order -> ~ In s visited -> R s d -> In d (s :: visiting) ->
    clos_trans nat R d d.
  Proof.
    intros [_ Ivis _ Iframe _] Ev He [<-|Hd]; [now apply t_step|].
    destruct (Iframe d Hd) as (above & below & Hs & _ & _ & Hr).
    apply t_trans with s; [|now apply t_step]. apply Hr.
    apply head_split in Hs as [(_ & -> & _)|(a' & -> & _)]; [|now left].
    destruct Ev. apply Ivis. now left.
  Qed.

  (* The top of the stack is unvisited: it becomes grey, and `new`, what it depends on, is pushed.
     Were a grey id pushed, the frame of that id would no longer start at its topmost occurrence.
     That none is pushed is a premise because the two searches know it for different reasons:
     Verify.cyc tests it and reports a cycle otherwise (a real one: grey_cycle), DagAst.topo runs
     on an acyclic graph (dinv_enter_acyclic). *)
  Lemma dinv_enter s rest visiting visited order new :
    DInv (s :: rest) visiting visited order -> ~ In s visited ->
    (forall y, In y new <-> R s y) -> (forall y, In y new -> ~ In y (s :: visiting)) ->
    DInv (new ++ s :: rest) (s :: visiting) (s :: visited) order.
  Proof.
    intros [Ipost Ivis Idisj Iframe Iroots] Ev Hnew Hng.
    assert (Hg : ~ In s visiting) by (intros H; apply Ev, Ivis; now left).
    assert (Hno : ~ In s order) by (intros H; apply Ev, Ivis; now right).
    constructor; try assumption.
    - intros x. cbn [In]. rewrite Ivis. tauto.
    - intros x [<-|Hx]; [assumption|apply Idisj; assumption].
    - intros x [<-|Hx].
      + exists new, rest. split; [reflexivity|]. split; [intros H; apply (Hng s H); now left|]. split.
        * intros d Hd. right. now apply Hnew.
        * intros y Hy. apply t_step. now apply Hnew.
      + apply frame_push; auto; [congruence | intros H; apply (Hng x H); now right | apply Hnew].
    - intros r Hr. rewrite in_app_iff. destruct (Iroots r Hr); auto.
  Qed.

  Lemma dinv_enter_acyclic s rest visiting visited order new :
    (forall x, ~ clos_trans nat R x x) ->
    DInv (s :: rest) visiting visited order -> ~ In s visited -> (forall y, In y new <-> R s y) ->
    DInv (new ++ s :: rest) (s :: visiting) (s :: visited) order.
  Proof.
    intros Hacyc I Ev Hnew. apply dinv_enter; auto.
    intros y Hy Hg. apply (Hacyc y). apply Hnew in Hy. eapply grey_cycle; eassumption.
  Qed.
End Iter.

Section Dfs.
  Variable succ : nat -> list nat.     (* deps of a node *)
  Definition edge (a b : nat) : Prop := In b (succ a).
  Definition reach : nat -> nat -> Prop := clos_refl_trans nat edge.
  Hypothesis acyclic : forall x, ~ clos_trans nat edge x x.

  Definition memb (x : nat) (l : list nat) : bool := existsb (Nat.eqb x) l.
  Lemma memb_In x l : memb x l = true <-> In x l.
  Proof. apply existsb_nat_In. Qed.
  Lemma memb_nIn x l : memb x l = false <-> ~ In x l.
  Proof. apply existsb_nat_nIn. Qed.

  Fixpoint visit (fuel : nat) (x : nat) (acc : list nat) : option (list nat) :=
    match fuel with
    | 0 => None
    | S f =>
      if memb x acc then Some acc else
      match fold_left (fun r y => match r with Some a => visit f y a | None => None end)
                      (succ x) (Some acc) with
      | Some a => Some (a ++ [x])
      | None => None
      end
    end.

  Definition visits (fuel : nat) (ys : list nat) (acc : list nat) : option (list nat) :=
    fold_left (fun r y => match r with Some a => visit fuel y a | None => None end) ys (Some acc).

  Lemma fold_none f ys : fold_left (fun r y => match r with Some a => visit f y a | None => None end) ys None = None.
  Proof. induction ys; cbn; auto. Qed.
  Lemma visits_cons f y ys acc :
    visits f (y :: ys) acc = match visit f y acc with Some a => visits f ys a | None => None end.
  Proof. unfold visits. cbn. destruct (visit f y acc); [reflexivity|apply fold_none]. Qed.

  Inductive post : list nat -> Prop :=
  | post_nil : post []
  | post_snoc l x : post l -> incl (succ x) l -> ~ In x l -> post (l ++ [x]).

  Lemma post_NoDup l : post l -> NoDup l.
  Proof. induction 1; [constructor | now apply NoDup_snoc]. Qed.

  Lemma edge_reach_trans x y z : edge x y -> reach y z -> clos_trans nat edge x z.
  Proof. intros Hxy Hyz. apply clos_rt_rt1n in Hyz. revert x Hxy.
    induction Hyz as [y|y w z Hyw _ IH]; intros x Hxy.
    - apply t_step; assumption.
    - eapply t_trans; [apply t_step; exact Hxy|]. apply IH. exact Hyw. Qed.

  Definition SpecV f := forall x acc r, post acc -> visit f x acc = Some r ->
        exists new, r = acc ++ new /\ post r /\ In x r /\ (forall z, In z new -> reach x z).
  Definition SpecS f := forall ys acc r, post acc -> visits f ys acc = Some r ->
        exists new, r = acc ++ new /\ post r /\ incl ys r /\
                    (forall z, In z new -> exists y, In y ys /\ reach y z).

  Lemma specS_of_specV f : SpecV f -> SpecS f.
  Proof.
    intros HV ys. induction ys as [|y ys IH]; intros acc r P H.
    - cbn in H. injection H as <-. exists []. rewrite app_nil_r.
      repeat split; auto; intros z Hz; destruct Hz.
    - rewrite visits_cons in H. destruct (visit f y acc) as [a|] eqn:Ea; [|discriminate].
      destruct (HV _ _ _ P Ea) as (n1 & -> & Pa & Hy & R1).
      destruct (IH _ _ Pa H) as (n2 & -> & Pr & Hincl & R2).
      exists (n1 ++ n2). rewrite app_assoc. split; [reflexivity|]. split; [assumption|]. split.
      + intros z [<-|Hz]; [rewrite in_app_iff; now left|apply Hincl; assumption].
      + intros z Hz. rewrite in_app_iff in Hz. destruct Hz as [Hz|Hz].
        * exists y. split; [now left|apply R1; assumption].
        * destruct (R2 _ Hz) as (y' & Hy' & Hr). exists y'. split; [now right|assumption].
  Qed.

  Theorem visit_spec : forall f, SpecV f.
  Proof.
    induction f as [|f IHv]; intros x acc r P H; [discriminate|].
    pose proof (specS_of_specV f IHv) as IHs.
    cbn [visit] in H. destruct (memb x acc) eqn:Em.
    - injection H as <-. exists []. rewrite app_nil_r. apply memb_In in Em.
      repeat split; auto. intros z Hz; destruct Hz.
    - fold (visits f (succ x) acc) in H.
      destruct (visits f (succ x) acc) as [a|] eqn:Ea; [|discriminate]. injection H as <-.
      destruct (IHs _ _ _ P Ea) as (new & -> & Pa & Hincl & Hreach).
      exists (new ++ [x]). rewrite app_assoc. split; [reflexivity|].
      assert (Hx : ~ In x (acc ++ new)).
      { rewrite in_app_iff. intros [Hin|Hin].
        - apply memb_nIn in Em. auto.
        - destruct (Hreach _ Hin) as (y & Hy & Hyx).
          apply (acyclic x). eapply edge_reach_trans; eassumption. }
      split; [constructor; assumption|].
      split; [rewrite in_app_iff; right; now left|].
      intros z Hz. rewrite in_app_iff in Hz. destruct Hz as [Hz|[<-|[]]].
      + destruct (Hreach _ Hz) as (y & Hy & Hyz).
        eapply rt_trans; [apply rt_step; exact Hy|exact Hyz].
      + apply rt_refl.
  Qed.

  (* Fuel: in a finite universe U closed under succ the recursion stack is a duplicate-free chain,
     so its depth is at most |U|. *)
  Variable U : list nat.
  Hypothesis U_closed : forall a b, In a U -> edge a b -> In b U.

  (* the recursion stack: x0 -> x1 -> ... -> xk, most recent first *)
  Inductive chain : list nat -> Prop :=
  | chain_one x : chain [x]
  | chain_cons y x p : edge x y -> chain (x :: p) -> chain (y :: x :: p).

  Lemma chain_reach_head : forall p y, chain (y :: p) -> forall z, In z p -> clos_trans nat edge z y.
  Proof.
    intros p. induction p as [|x p IH]; intros y C z Hz; [destruct Hz|].
    inversion C as [|? ? ? Exy C']; subst.
    destruct Hz as [<-|Hz]; [apply t_step; assumption|].
    eapply t_trans; [apply IH; eassumption|apply t_step; assumption].
  Qed.

  Lemma chain_NoDup : forall p, chain p -> NoDup p.
  Proof.
    induction 1 as [x|y x p Exy C IH]; [repeat constructor; intros []|].
    constructor; [|assumption].
    intros [E|Hin].
    - subst x. apply (acyclic y). apply t_step. exact Exy.
    - apply (acyclic y). eapply t_trans; [|apply t_step; exact Exy].
      destruct p as [|w p]; [destruct Hin|].
      apply (chain_reach_head (w :: p) x C). exact Hin.
  Qed.

  Lemma adequacy : forall f x acc p, chain (x :: p) -> incl (x :: p) U ->
    length (x :: p) + f >= length U + 1 -> visit f x acc <> None.
  Proof.
    induction f as [|f IH]; intros x acc p C Hin Hlen.
    - exfalso. pose proof (chain_NoDup _ C) as ND.
      pose proof (NoDup_incl_length ND Hin). lia.
    - cbn [visit]. destruct (memb x acc); [discriminate|].
      fold (visits f (succ x) acc).
      assert (HS : forall ys acc', incl ys (succ x) -> visits f ys acc' <> None).
      { induction ys as [|y ys IHys]; intros acc' Hys; [discriminate|].
        rewrite visits_cons.
        assert (Ey : edge x y) by (apply Hys; now left).
        destruct (visit f y acc') as [a|] eqn:Ea.
        - apply IHys. intros z Hz. apply Hys. now right.
        - exfalso. revert Ea. apply (IH y acc' (x :: p)).
          + constructor; assumption.
          + intros z [<-|Hz]; [|apply Hin; assumption].
            eapply U_closed; [apply Hin; now left|exact Ey].
          + cbn in *. lia. }
      specialize (HS (succ x) acc (incl_refl _)).
      destruct (visits f (succ x) acc); [discriminate|congruence].
  Qed.

  Corollary visit_total x acc : In x U -> visit (length U + 1) x acc <> None.
  Proof. intros Hx. apply (adequacy _ x acc []); [constructor| |cbn; lia].
    intros z [<-|[]]. assumption. Qed.
End Dfs.
Print Assumptions visit_spec.
Print Assumptions visit_total.
