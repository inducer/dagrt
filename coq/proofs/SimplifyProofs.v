(* Proofs about model/Simplify.v (C06).
   Trace preservation is proved once, for the trace of model/DagAst.v whose entries carry the
   enclosing loop nest (the observable of C05); `trace`, the observable of C06, is its first
   projection (trace_ltrace). *)
From Coq Require Import List Arith Bool Lia.
Import ListNotations.
From Dagrt Require Import ListFacts Simplify DagAst.

Section ast_ind'.
  Variable P : ast -> Prop.
  Hypothesis HL : forall n, P (Leaf n).
  Hypothesis HN : P Null.
  Hypothesis HB : forall l, Forall P l -> P (Block l).
  Hypothesis HI : forall c t, P t -> P (IfT c t).
  Hypothesis HE : forall c t e, P t -> P e -> P (IfTE c t e).
  Hypothesis HF : forall x b, P b -> P (For x b).
  Fixpoint ast_ind' (t : ast) : P t :=
    match t with
    | Leaf n => HL n
    | Null => HN
    | Block l => HB l ((fix go (l : list ast) : Forall P l :=
                          match l with
                          | [] => Forall_nil P
                          | x :: l' => Forall_cons x (ast_ind' x) (go l')
                          end) l)
    | IfT c t => HI c t (ast_ind' t)
    | IfTE c t e => HE c t e (ast_ind' t) (ast_ind' e)
    | For x b => HF x b (ast_ind' b)
    end.
End ast_ind'.

Lemma cond_eqb_eq a : forall b, cond_eqb a b = true -> a = b.
Proof.
  induction a as [| |a IH|n]; intros [| |b|m] H; cbn in H; try discriminate; auto.
  - f_equal. auto.
  - apply Nat.eqb_eq in H. now subst.
Qed.

Lemma strip_not_nonnot c : forall t e c' t2 e2,
  strip_not c t e = (c', t2, e2) -> forall d, c' <> CNot d.
Proof.
  induction c as [| |c IH|n]; intros t e c' t2 e2 H d; cbn [strip_not] in H;
    try (injection H as <- <- <-; discriminate).
  eapply IH; eassumption.
Qed.

Lemma rbind_ok {A B} (r : res A) (f : A -> res B) b :
  rbind r f = Ok b -> exists a, r = Ok a /\ f a = Ok b.
Proof. destruct r; cbn; intros H; try discriminate. eauto. Qed.

(* the children loop of `simp` on a block *)
Definition simp_list (r g : bool) : list ast -> res (list ast) :=
  fix go l := match l with
              | [] => Ok []
              | x :: l' => rbind (simp r g x) (fun x' => rbind (go l') (fun q => Ok (x' :: q)))
              end.

Lemma simp_Block r g l : simp r g (Block l) = rbind (simp_list r g l) (simp_block r g l).
Proof. reflexivity. Qed.

Lemma simp_list_Ok r g l q :
  simp_list r g l = Ok q <-> Forall2 (fun x x' => simp r g x = Ok x') l q.
Proof.
  revert q. induction l as [|x l IH]; intros q; cbn [simp_list].
  - split; [intros [= <-]; constructor | now inversion 1].
  - split.
    + intros H. apply rbind_ok in H as (x' & Ex & H). apply rbind_ok in H as (q' & Eq & [= <-]).
      constructor; [assumption | now apply IH].
    + inversion 1 as [|? x' ? q' Ex Hq]; subst. apply IH in Hq. fold (simp_list r g l).
      now rewrite Ex, Hq.
Qed.

Lemma flat_map_Forall2 {A B C} (f : A -> list C) (g : B -> list C) l q :
  Forall2 (fun x y => f x = g y) l q -> flat_map f l = flat_map g q.
Proof. induction 1; cbn; congruence. Qed.

(* One turn of the `while children_queue:` loop of map_Block on a non-empty queue, from (current
   child, queue, children) to the same three.  The last step is allowed for every next child:
   whatever is shown of a turn below holds of it whatever that child is. *)
Inductive qturn (r : bool) : ast -> list ast -> list ast -> ast -> list ast -> list ast -> Prop :=
| qt_null cur q acc : qturn r cur (Null :: q) acc cur q acc
| qt_block cur ch q acc : qturn r cur (Block ch :: q) acc cur ((if r then rev ch else ch) ++ q) acc
| qt_merge c t1 e1 t2 e2 q acc :
    qturn r (IfTE c t1 e1) (IfTE c t2 e2 :: q) acc
            (IfTE c (flat_block [t1; t2]) (flat_block [e1; e2])) q acc
| qt_next cur nx q acc : qturn r cur (nx :: q) acc nx q (acc ++ [cur]).

Lemma qloop_turn r f cur nx q acc :
  exists cur' q' acc', qturn r cur (nx :: q) acc cur' q' acc' /\
    qloop r (S f) cur (nx :: q) acc = qloop r f cur' q' acc'.
Proof.
  assert (Hn : exists cur' q' acc', qturn r cur (nx :: q) acc cur' q' acc' /\
                 qloop r f nx q (acc ++ [cur]) = qloop r f cur' q' acc')
    by (do 3 eexists; split; [apply qt_next | reflexivity]).
  destruct nx as [n| |ch|c2 t2|c2 t2 e2|x b]; try exact Hn.
  - do 3 eexists. split; [apply qt_null | reflexivity].
  - do 3 eexists. split; [apply qt_block | reflexivity].
  - destruct cur as [n1| |ch1|c1 t1|c1 t1 e1|x1 b1]; try exact Hn.
    cbn [qloop]. destruct (cond_eqb c1 c2) eqn:Eq; [|exact Hn].
    apply cond_eqb_eq in Eq as <-. do 3 eexists. split; [apply qt_merge | reflexivity].
Qed.

Section LTr.
  Variable v : nat -> bool.
  Variable trips : nat -> nat.
  Notation ltr := (ltrace v trips).
  Notation ltrl nest := (flat_map (ltrace v trips nest)).

  Lemma map_repeat_app {A B} (f : A -> B) n (l : list A) :
    map f (repeat_app n l) = repeat_app n (map f l).
  Proof. induction n as [|n IH]; cbn; [reflexivity|]. now rewrite map_app, IH. Qed.

  Lemma trace_ltrace : forall t nest, trace v trips t = map fst (ltr nest t).
  Proof.
    induction t as [n| |l IH|c t IHt|c t e IHt IHe|x b IHb] using ast_ind'; intros nest;
      cbn [ltrace trace]; try reflexivity.
    - rewrite map_flat_map. apply flat_map_ext_in. rewrite Forall_forall in IH. auto.
    - destruct (evalc v c); [apply IHt|reflexivity].
    - destruct (evalc v c); [apply IHt|apply IHe].
    - now rewrite map_repeat_app, <- IHb.
  Qed.

  Lemma ltrace_flat_block nest nodes : ltr nest (flat_block nodes) = ltrl nest nodes.
  Proof.
    unfold flat_block. cbn [ltrace].
    induction nodes as [|n ns IH]; [reflexivity|].
    cbn [flat_map]. rewrite flat_map_app, IH. f_equal.
    destruct n; cbn [ltrace flat_map]; rewrite ?app_nil_r; reflexivity.
  Qed.

  Lemma strip_not_ltrace nest c : forall t e c' t2 e2,
    strip_not c t e = (c', t2, e2) ->
    (if evalc v c' then ltr nest t2 else ltr nest e2) = (if evalc v c then ltr nest t else ltr nest e).
  Proof.
    induction c as [| |c IH|n]; intros t e c' t2 e2 H; cbn [strip_not] in H;
      try (injection H as <- <- <-; reflexivity).
    rewrite (IH _ _ _ _ _ H). cbn [evalc]. destruct (evalc v c); reflexivity.
  Qed.

  Lemma simp_ite_ltrace nest c t e :
    ltr nest (simp_ite c t e) = if evalc v c then ltr nest t else ltr nest e.
  Proof.
    unfold simp_ite. destruct (strip_not c t e) as [[c' t2] e2] eqn:E.
    rewrite <- (strip_not_ltrace nest _ _ _ _ _ _ E). cbn [ltrace].
    destruct (evalc v c') eqn:Ec.
    - destruct t2; try reflexivity.
      destruct (cond_eqb c' c0) eqn:Eq; [|reflexivity].
      apply cond_eqb_eq in Eq. subst c0. cbn [ltrace]. now rewrite Ec.
    - destruct e2; try reflexivity.
      destruct (cond_eqb c' c0) eqn:Eq; [|reflexivity].
      apply cond_eqb_eq in Eq. subst c0. cbn [ltrace]. now rewrite Ec.
  Qed.

  Lemma qturn_ltrace nest cur q acc cur' q' acc' : qturn false cur q acc cur' q' acc' ->
    ltrl nest acc' ++ ltr nest cur' ++ ltrl nest q' = ltrl nest acc ++ ltr nest cur ++ ltrl nest q.
  Proof.
    destruct 1; cbn [flat_map ltrace].
    - reflexivity.
    - now rewrite flat_map_app.
    - rewrite !ltrace_flat_block. cbn [flat_map]. rewrite !app_nil_r.
      destruct (evalc v c); now rewrite <- !app_assoc.
    - rewrite flat_map_app. cbn [flat_map]. now rewrite app_nil_r, <- !app_assoc.
  Qed.

  Lemma qloop_ltrace nest : forall fuel cur q acc l,
    qloop false fuel cur q acc = Some l ->
    ltrl nest l = ltrl nest acc ++ ltr nest cur ++ ltrl nest q.
  Proof.
    induction fuel as [|f IH]; intros cur q acc l H; [discriminate|].
    destruct q as [|nx q].
    - injection H as <-. rewrite flat_map_app. cbn. now rewrite !app_nil_r.
    - destruct (qloop_turn false f cur nx q acc) as (cur' & q' & acc' & T & E).
      rewrite E in H. rewrite (IH _ _ _ _ H). now apply qturn_ltrace.
  Qed.

  Lemma pop_nonnull_ltrace nest q : forall cur q', pop_nonnull q = Some (cur, q') ->
    ltrl nest q = ltr nest cur ++ ltrl nest q'.
  Proof.
    induction q as [|x q IH]; intros cur q' H; [discriminate|].
    cbn [pop_nonnull] in H. destruct x; try (injection H as <- <-; reflexivity).
    cbn [flat_map ltrace]. cbn. auto.
  Qed.

  Lemma pop_nonnull_None_ltrace nest q : pop_nonnull q = None -> ltrl nest q = [].
  Proof.
    induction q as [|x q IH]; intros H; [reflexivity|].
    cbn [pop_nonnull] in H. destruct x; try discriminate. cbn. auto.
  Qed.

  Lemma simp_block_ltrace nest g orig q t' :
    ltrl nest q = ltrl nest orig ->
    simp_block false g orig q = Ok t' -> ltr nest t' = ltrl nest orig.
  Proof.
    intros Hq H. unfold simp_block in H. destruct q as [|x q0].
    - injection H as <-. reflexivity.
    - set (q := x :: q0) in *. clearbody q.
      destruct (pop_nonnull q) as [[cur q']|] eqn:Ep.
      + destruct (qloop false (S (size_list q')) cur q' []) as [l|] eqn:El; [|discriminate].
        pose proof (qloop_ltrace nest _ _ _ _ _ El) as Ht. cbn [flat_map app] in Ht.
        rewrite <- Hq, (pop_nonnull_ltrace nest _ _ _ Ep), <- Ht.
        destruct l as [|a [|b l]]; injection H as <-; try reflexivity.
        cbn. now rewrite app_nil_r.
      + rewrite <- Hq, (pop_nonnull_None_ltrace nest _ Ep).
        destruct g; [injection H as <-; reflexivity|discriminate].
  Qed.

  Theorem simp_ltrace g : forall t nest t', simp false g t = Ok t' -> ltr nest t' = ltr nest t.
  Proof.
    induction t as [n| |l IH|c t IHt|c t e IHt IHe|x b IHb] using ast_ind'; intros nest t' H.
    - injection H as <-. reflexivity.
    - injection H as <-. reflexivity.
    - rewrite simp_Block in H. apply rbind_ok in H as (q & Hq & Hb).
      cbn [ltrace]. eapply simp_block_ltrace; [|exact Hb].
      symmetry. apply flat_map_Forall2. apply simp_list_Ok in Hq. clear Hb.
      induction Hq as [|x x' l q Ex _ IHq]; inversion IH; subst; constructor; auto.
      symmetry. auto.
    - cbn [simp] in H. apply rbind_ok in H. destruct H as (t1 & E1 & H). injection H as <-.
      cbn [ltrace]. now rewrite (IHt _ _ E1).
    - cbn [simp] in H.
      assert (Hgen : rbind (simp false g t) (fun t1 => rbind (simp false g e)
                 (fun e1 => Ok (simp_ite c t1 e1))) = Ok t' -> ltr nest t' = ltr nest (IfTE c t e)).
      { intros H0. apply rbind_ok in H0. destruct H0 as (t1 & E1 & H0).
        apply rbind_ok in H0. destruct H0 as (e1 & E2 & H0). injection H0 as <-.
        rewrite simp_ite_ltrace. cbn [ltrace]. now rewrite (IHt _ _ E1), (IHe _ _ E2). }
      destruct c; try (now apply Hgen); cbn [ltrace evalc]; auto.
    - cbn [simp] in H. apply rbind_ok in H. destruct H as (b1 & E1 & H). injection H as <-.
      cbn [ltrace]. now rewrite (IHb _ _ E1).
  Qed.

  Lemma pre_ltrace : forall t nest, ltr nest (pre t) = ltr nest t.
  Proof.
    induction t as [n| |l IH|c t IHt|c t e IHt IHe|x b IHb] using ast_ind'; intros nest;
      cbn [pre ltrace]; try congruence.
    - rewrite flat_map_map. apply flat_map_ext_in. rewrite Forall_forall in IH. auto.
    - rewrite IHt. destruct (evalc v c); reflexivity.
    - rewrite IHt, IHe. reflexivity.
  Qed.

  Lemma is_null_ltrace nest t : is_null t = true -> ltr nest t = [].
  Proof. destruct t; [discriminate|reflexivity|discriminate..]. Qed.

  Lemma ltrl_drop_null nest l : ltrl nest (filter (fun x => negb (is_null x)) l) = ltrl nest l.
  Proof.
    induction l as [|x l IH]; [reflexivity|]. cbn [filter].
    destruct x; cbn [is_null negb flat_map]; now rewrite IH.
  Qed.

  Lemma post_ltrace : forall t nest, ltr nest (post t) = ltr nest t.
  Proof.
    induction t as [n| |l IH|c t IHt|c t e IHt IHe|x b IHb] using ast_ind'; intros nest;
      cbn [post ltrace]; try congruence.
    - assert (H : ltrl nest (filter (fun x => negb (is_null x)) (map post l)) = ltrl nest l).
      { rewrite ltrl_drop_null, flat_map_map. apply flat_map_ext_in.
        rewrite Forall_forall in IH. auto. }
      rewrite <- H.
      destruct (filter _ (map post l)) as [|a [|b r]]; try reflexivity.
      cbn. now rewrite app_nil_r.
    - now rewrite IHt.
    - rewrite <- IHt, <- IHe.
      destruct (is_null (post t)) eqn:Et, (is_null (post e)) eqn:Ee; cbn [ltrace evalc];
        rewrite ?(is_null_ltrace _ _ Et), ?(is_null_ltrace _ _ Ee); destruct (evalc v c); reflexivity.
  Qed.

  Lemma post_top_ltrace t nest : ltr nest (post_top t) = ltr nest t.
  Proof.
    unfold post_top. rewrite <- (post_ltrace t). destruct (post t); reflexivity.
  Qed.

  Theorem simplify_ltrace g t nest t' : simplify false g t = Ok t' -> ltr nest t' = ltr nest t.
  Proof.
    unfold simplify. intros H. apply rbind_ok in H. destruct H as (t1 & E & H).
    injection H as <-. rewrite post_top_ltrace, (simp_ltrace _ _ _ _ E). apply pre_ltrace.
  Qed.
End LTr.

Section Tr.
  Variable v : nat -> bool.
  Variable trips : nat -> nat.
  Notation tr := (trace v trips).

  Lemma trace_of_ltrace t t' : ltrace v trips [] t' = ltrace v trips [] t -> tr t' = tr t.
  Proof. intros H. now rewrite !(trace_ltrace v trips _ []), H. Qed.

  Theorem simp_trace g t t' : simp false g t = Ok t' -> tr t' = tr t.
  Proof. intros H. apply trace_of_ltrace, (simp_ltrace v trips g t [] t' H). Qed.

  Lemma pre_trace t : tr (pre t) = tr t.
  Proof. apply trace_of_ltrace, pre_ltrace. Qed.

  Lemma post_trace t : tr (post t) = tr t.
  Proof. apply trace_of_ltrace, post_ltrace. Qed.

  Lemma post_top_trace t : tr (post_top t) = tr t.
  Proof. apply trace_of_ltrace, post_top_ltrace. Qed.

  Theorem simplify_trace g t t' : simplify false g t = Ok t' -> tr t' = tr t.
  Proof. intros H. apply trace_of_ltrace, (simplify_ltrace v trips g t [] t' H). Qed.
End Tr.

Lemma size_list_app l1 l2 : size_list (l1 ++ l2) = size_list l1 + size_list l2.
Proof. unfold size_list. induction l1; cbn; lia. Qed.
Lemma size_list_rev l : size_list (rev l) = size_list l.
Proof. induction l; cbn; [reflexivity|]. rewrite size_list_app. cbn. unfold size_list in *. lia. Qed.
Lemma size_pos t : 1 <= size t.
Proof. destruct t; cbn; lia. Qed.

Lemma qturn_size r cur q acc cur' q' acc' :
  qturn r cur q acc cur' q' acc' -> size_list q' < size_list q.
Proof.
  assert (E : forall x l, size_list (x :: l) = size x + size_list l) by reflexivity.
  destruct 1; rewrite E.
  - cbn [size]. lia.
  - rewrite size_list_app. cbn [size]. fold (size_list ch). destruct r; rewrite ?size_list_rev; lia.
  - cbn [size]. lia.
  - pose proof (size_pos nx). lia.
Qed.

Lemma qloop_fuel r : forall fuel cur q acc, size_list q < fuel -> qloop r fuel cur q acc <> None.
Proof.
  induction fuel as [|f IH]; intros cur q acc H; [lia|].
  destruct q as [|nx q]; [discriminate|].
  destruct (qloop_turn r f cur nx q acc) as (cur' & q' & acc' & T & ->).
  apply IH. apply qturn_size in T. lia.
Qed.

Lemma simp_block_total r orig q : exists t', simp_block r true orig q = Ok t'.
Proof.
  unfold simp_block. destruct q as [|x q0]; [eauto|].
  destruct (pop_nonnull (x :: q0)) as [[cur q']|]; [|eauto].
  destruct (qloop r (S (size_list q')) cur q' []) as [l|] eqn:E.
  - destruct l as [|a [|b l]]; eauto.
  - exfalso. revert E. apply qloop_fuel. lia.
Qed.

Theorem simp_total r : forall t, exists t', simp r true t = Ok t'.
Proof.
  induction t as [n| |l IH|c t IHt|c t e IHt IHe|x b IHb] using ast_ind';
    [eexists; reflexivity | eexists; reflexivity | rewrite simp_Block | cbn [simp] ..].
  - assert (H : exists q, simp_list r true l = Ok q).
    { induction IH as [|x l [x' Hx] _ [q Hq]]; [now exists []|].
      exists (x' :: q). apply simp_list_Ok. constructor; [|apply simp_list_Ok]; assumption. }
    destruct H as [q ->]. cbn [rbind]. apply simp_block_total.
  - destruct IHt as [t' ->]. cbn. eauto.
  - destruct IHt as [t' Ht], IHe as [e' He]. destruct c; eauto; rewrite Ht, He; cbn; eauto.
  - destruct IHb as [b' ->]. cbn. eauto.
Qed.

Theorem simplify_total r t : exists t', simplify r true t = Ok t'.
Proof.
  unfold simplify. destruct (simp_total r (pre t)) as [t' ->]. cbn. eauto.
Qed.

Definition wit_rev : ast := Block [Leaf 1; Block [Leaf 2; Leaf 3]].
Lemma simplify_rev_refuted g :
  exists t', simplify true g wit_rev = Ok t' /\
             trace (fun _ => true) (fun _ => 1) t' <> trace (fun _ => true) (fun _ => 1) wit_rev.
Proof. eexists. split; [vm_compute; reflexivity|]. vm_compute. discriminate. Qed.

Definition wit_empty : ast := Block [IfTE CTrue Null (Leaf 0); Null].
Lemma simplify_empty_refuted r : simplify r false wit_empty = IndexError.
Proof. destruct r; reflexivity. Qed.

(* non-vacuity: a nested example on which every rewrite rule fires *)
Definition ex_tree : ast :=
  Block [IfT (CAtom 0) (Leaf 1); IfTE (CNot (CAtom 0)) (Leaf 2) (Leaf 3);
         Block [Leaf 4; Block [Null; Leaf 5]]; IfTE (CAtom 1) (IfTE (CAtom 1) (Leaf 6) (Leaf 7)) Null;
         For 0 (Block [Leaf 8; Null])].
Example ex_tree_simplifies :
  simplify false true ex_tree =
  Ok (Block [IfTE (CAtom 0) (Block [Leaf 1; Leaf 3]) (Leaf 2); Leaf 4; Leaf 5;
             IfT (CAtom 1) (Leaf 6); For 0 (Leaf 8)]).
Proof. vm_compute. reflexivity. Qed.
