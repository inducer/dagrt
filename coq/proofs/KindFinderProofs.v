(* Order independence of the SymbolKindFinder model (coq/model/KindInfer.v) for the repaired shapes of `unify`
   and `SymbolKindTable.set` (an insertion is a change) and a monotone registry (c_arr_only; without it
   KindFinderExamples.scalar_matrix_refuted): two runs on permuted statement lists that both return a table, and in
   which no failed unification was swallowed, return the same table (order_independent_partial).  The final table of a
   successful run is closed (every statement, evaluated under it, yields a kind already below the entry of its
   assignee); every table that occurs in any run from the same forced kinds stays below every closed table
   (the mapper is monotone, the join a least upper bound).  So such a run returns the least closed table above
   the forced kinds (run_least), and that table does not depend on the order. *)
From Coq Require Import List String Bool Permutation.
Import ListNotations.
From Dagrt Require Import Unify UnifyProofs KindOrder KindInfer KindRegistryProofs KindInferProofs
  KindTableProofs.
(* the imports leave string_scope open, in which ++ is string append *)
Close Scope string_scope.
Open Scope list_scope.

Section Finder.
  Variable c : cfg.
  Hypothesis Hut : c_ut_int c = true.
  Hypothesis Harr : c_arr_int c = true.

  (* no empty product in the flattened right-hand side: KindInferProofs.expr_ok *)
  Definition wf_item (it : qitem) : Prop := stmt_ok (snd it) = true.

  Definition loops_closed (T : table) (p : string) (l : list string) : Prop :=
    forall i, In i l -> exists v, tfind T (key_of c p i) = Some v /\ kle (Some KInt) v.

  Fixpoint lhs_closed (T : table) (p : string) (xs : list string) (ks : list okind) : Prop :=
    match xs, ks with
    | x :: xs', k :: ks' =>
        (exists v, tfind T (key_of c p x) = Some v /\ kle k v) /\ lhs_closed T p xs' ks'
    | _, _ => True
    end.

  Definition rhs_closed (T : table) (it : qitem) : Prop :=
    exists ks, eval_work c (lookup T (fst it)) (snd it) = MOk ks
               /\ lhs_closed T (fst it) (b_lhs (snd it)) ks.

  Definition stmt_closed (T : table) (it : qitem) : Prop :=
    loops_closed T (fst it) (b_loops (snd it)) /\ (b_sub (snd it) = false -> rhs_closed T it).

  Definition stmt_wclosed (T : table) (it : qitem) : Prop :=
    loops_closed T (fst it) (b_loops (snd it)) /\
    (b_sub (snd it) = false ->
     eval_work c (lookup T (fst it)) (snd it) = MUnable \/ rhs_closed T it).

  Lemma closed_wclosed : forall T it, stmt_closed T it -> stmt_wclosed T it.
  Proof. intros T it [A B]. split; [assumption|]. intro H. right. apply B; assumption. Qed.

  (* what a pass that changes nothing finds out about a statement it defers *)
  Definition stmt_unable (T : table) (it : qitem) : Prop :=
    loops_closed T (fst it) (b_loops (snd it)) /\ b_sub (snd it) = false /\
    eval_work c (lookup T (fst it)) (snd it) = MUnable.

  Lemma unable_wclosed : forall T it, stmt_unable T it -> stmt_wclosed T it.
  Proof. intros T it [A [_ B]]. split; [assumption|]. intros _. left. exact B. Qed.

  Lemma lhs_closed_le : forall T p xs ks ks', Forall2 kle ks ks' ->
    lhs_closed T p xs ks' -> lhs_closed T p xs ks.
  Proof.
    intros T p xs. induction xs as [|x xs IH]; intros ks ks' H; [destruct ks; exact (fun _ => I)|].
    destruct H as [|k k' ks ks' Hk H]; cbn; [auto|].
    intros [[v [Ev Hv]] Hr]. split; [|eapply IH; eassumption].
    exists v. split; [assumption|eapply kle_trans; eassumption].
  Qed.

  Lemma lhs_closed_mono : forall T L p xs ks, tle T L -> lhs_closed T p xs ks -> lhs_closed L p xs ks.
  Proof.
    intros T L p xs. induction xs as [|x xs IH]; intros ks Hle; [destruct ks; exact (fun _ => I)|].
    destruct ks as [|k ks]; cbn; [auto|].
    intros [[v [Ev Hv]] Hr]. split; [|apply IH; assumption].
    destruct (Hle _ _ Ev) as [v' [Ev' Hv']]. exists v'. split; [assumption|eapply kle_trans; eassumption].
  Qed.

  Definition next_state (r : pres) : option tstate :=
    match r with
    | PErr _ => None
    | PDone st | PDefer st | PProgress st => Some st
    end.

  (* "processing it in st does not fail and leaves st'": for the lemmas that do not care how the statement left
     the queue; those that do (inner_rule, all_done_step, process_nochange) match on `process` itself *)
  Definition pstep (st : tstate) (it : qitem) (st' : tstate) : Prop :=
    next_state (process c st it) = Some st'.

  Lemma pstep_det : forall st it a b, pstep st it a -> pstep st it b -> a = b.
  Proof. unfold pstep. congruence. Qed.

  Lemma loops_closed_lhs : forall T p l,
    loops_closed T p l <-> lhs_closed T p l (map (fun _ => Some KInt) l).
  Proof.
    intros T p. induction l as [|i r IH]; cbn.
    - split; [exact (fun _ => I)|intros _ j []].
    - rewrite <- IH. split.
      + intro H. split; [apply H; left; reflexivity|intros j Hj; apply H; right; assumption].
      + intros [Hi Hr] j [<-|Hj]; [assumption|apply Hr; assumption].
  Qed.

  Lemma set_many_ext : forall xs ks st p st', Forall (fun k => k <> None) ks ->
    set_many c st p xs ks = Ok st' -> ext c st st'.
  Proof. exact (set_many_rel c _ _ (ext_refl c) (ext_trans c) (tset_ext c Hut Harr)). Qed.

  Lemma set_loops_ext : forall l st p st', set_loops c st p l = Ok st' -> ext c st st'.
  Proof.
    apply (set_loops_rel c _ _ (ext_refl c) (ext_trans c) (tset_ext c Hut Harr)). discriminate.
  Qed.

  Lemma prepass_ext : forall l st st', prepass c st l = Ok st' -> ext c st st'.
  Proof.
    apply (prepass_rel c _ _ (ext_refl c) (ext_trans c) (tset_ext c Hut Harr)). discriminate.
  Qed.

  Lemma set_many_below : forall xs ks st p L, tle (tbl st) L -> lhs_closed L p xs ks ->
    exists st', set_many c st p xs ks = Ok st' /\ tle (tbl st') L /\ swallowed st' = swallowed st.
  Proof.
    induction xs as [|x xs IH]; intros ks st p L Hle Hcl; cbn; [eauto|].
    destruct ks as [|k ks]; [eauto|]. destruct Hcl as [[v [Ev Hv]] Hr].
    destruct (tset_below c Hut Harr st p x k L v Hle Ev Hv) as [st1 [-> [Hle1 <-]]]. apply IH; assumption.
  Qed.

  Lemma set_loops_below : forall l st p L, tle (tbl st) L -> loops_closed L p l ->
    exists st', set_loops c st p l = Ok st' /\ tle (tbl st') L /\ swallowed st' = swallowed st.
  Proof.
    intros l st p L Hle Hcl. rewrite set_loops_many.
    apply set_many_below; [assumption|apply loops_closed_lhs; assumption].
  Qed.

  Lemma set_loops_same : forall l st p, loops_closed (tbl st) p l -> set_loops c st p l = Ok st.
  Proof.
    induction l as [|i r IH]; intros st p H; cbn; [reflexivity|].
    destruct (H i (or_introl eq_refl)) as [v [Ev Hv]].
    rewrite (tset_same c Hut Harr _ _ _ _ _ Ev Hv). apply IH. intros j Hj. apply H. right; assumption.
  Qed.

  Hypothesis Hins : c_ins_changed c = true.

  Lemma set_many_nochange : forall xs ks st p st', set_many c st p xs ks = Ok st' ->
    Forall (fun k => k <> None) ks ->
    changed st' = false -> swallowed st' = false ->
    st' = st /\ lhs_closed (tbl st) p xs ks.
  Proof.
    induction xs as [|x xs IH]; intros ks st p st'; cbn.
    - intros [= <-] _ _ _. split; [reflexivity|destruct ks; exact I].
    - destruct ks as [|k ks]; [intros [= <-] _ _ _; split; [reflexivity|exact I]|].
      destruct (tset c st p x k) as [st1|e] eqn:E; [|discriminate].
      intros H Hk Hc Hs. inversion Hk as [|? ? Hk1 Hk2]; subst.
      destruct (IH _ _ _ _ H Hk2 Hc Hs) as [-> Hcl].
      destruct (tset_nochange c Hut Harr Hins _ _ _ _ _ E Hc Hs) as [-> [old [Eo Ho]]].
      split; [reflexivity|]. split; [|assumption].
      exists old. split; [assumption|]. apply nochange_kle; assumption.
  Qed.

  Lemma set_loops_nochange : forall l st p st', set_loops c st p l = Ok st' ->
    changed st' = false -> swallowed st' = false ->
    st' = st /\ loops_closed (tbl st) p l.
  Proof.
    intros l st p st' H Hc Hs. rewrite set_loops_many in H.
    destruct (set_many_nochange _ _ _ _ _ H) as [-> Hcl]; try assumption.
    - clear H. induction l; cbn; constructor; [discriminate|assumption].
    - split; [reflexivity|apply loops_closed_lhs; assumption].
  Qed.

  Lemma process_cases : forall st it st',
    pstep st it st' ->
    exists st1, set_loops c st (fst it) (b_loops (snd it)) = Ok st1 /\
      ((b_sub (snd it) = true /\ st' = st1 /\ process c st it = PDone st')
       \/ (b_sub (snd it) = false
           /\ eval_work c (lookup_kim (tbl st) (tbl st1) (fst it)) (snd it) = MUnable
           /\ st' = st1 /\ process c st it = PDefer st')
       \/ (b_sub (snd it) = false /\ exists ks,
             eval_work c (lookup_kim (tbl st) (tbl st1) (fst it)) (snd it) = MOk ks
             /\ set_many c st1 (fst it) (b_lhs (snd it)) ks = Ok st' /\ process c st it = PProgress st')).
  Proof.
    intros st it st'. unfold pstep, process.
    destruct (set_loops c st (fst it) (b_loops (snd it))) as [st1|e]; [|discriminate].
    intro H. exists st1. split; [reflexivity|].
    destruct (b_sub (snd it)); [left; injection H as <-; auto|right].
    destruct (eval_work c (lookup_kim (tbl st) (tbl st1) (fst it)) (snd it)) as [ks| |e];
      [right|left; injection H as <-; auto|discriminate].
    split; [reflexivity|]. exists ks.
    destruct (set_many c st1 (fst it) (b_lhs (snd it)) ks) as [st2|e]; [injection H as <-; auto|discriminate].
  Qed.

  (* what a step sets: the loop variables, then nothing or the kinds of the right-hand side *)
  Lemma pstep_sets : forall st it st', pstep st it st' ->
    exists st1, set_loops c st (fst it) (b_loops (snd it)) = Ok st1 /\
      (st' = st1 \/ exists ks, eval_work c (lookup_kim (tbl st) (tbl st1) (fst it)) (snd it) = MOk ks
                                /\ set_many c st1 (fst it) (b_lhs (snd it)) ks = Ok st').
  Proof.
    intros st it st' H.
    destruct (process_cases _ _ _ H) as (st1 & E1 & [(_ & -> & _)|[(_ & _ & -> & _)|(_ & ks & Ei & E2 & _)]]);
      exists st1; eauto.
  Qed.

  Lemma pstep_ext : forall st it st', wf_item it -> pstep st it st' -> ext c st st'.
  Proof.
    intros st it st' Hwf H. destruct (pstep_sets _ _ _ H) as (st1 & E1 & [->|(ks & Ei & E2)]).
    - eapply set_loops_ext; eassumption.
    - intro Hg. destruct (set_loops_ext _ _ _ _ E1 Hg) as [Hg1 _]. revert Hg.
      apply ext_trans with st1; [eapply set_loops_ext; eassumption|].
      eapply set_many_ext; [|eassumption].
      eapply eval_work_some; try eassumption. apply lookup_kim_nonone, (good_nonone c), Hg1.
  Qed.

  Lemma set_many_flags_mono : forall xs ks st p st', set_many c st p xs ks = Ok st' ->
    (changed st' = false -> changed st = false) /\ (swallowed st' = false -> swallowed st = false).
  Proof.
    intros xs ks st p st'.
    apply (set_many_rel c (fun _ => True)
             (fun a b => (changed b = false -> changed a = false) /\ (swallowed b = false -> swallowed a = false))).
    - tauto.
    - intros a b d [A B] [A' B']. auto.
    - intros s q x k s' _. apply (tset_flags_mono c Hut Harr).
    - apply Forall_forall. trivial.
  Qed.

  Lemma set_loops_flags_mono : forall l st p st', set_loops c st p l = Ok st' ->
    (changed st' = false -> changed st = false) /\ (swallowed st' = false -> swallowed st = false).
  Proof. intros l st p st'. rewrite set_loops_many. apply set_many_flags_mono. Qed.

  Lemma process_flags_mono : forall st it st', pstep st it st' ->
    (changed st' = false -> changed st = false) /\ (swallowed st' = false -> swallowed st = false).
  Proof.
    intros st it st' H. destruct (pstep_sets _ _ _ H) as (st1 & E1 & [->|(ks & _ & E2)]);
      destruct (set_loops_flags_mono _ _ _ _ E1) as [A B]; [auto|].
    destruct (set_many_flags_mono _ _ _ _ _ E2) as [A' B']. auto.
  Qed.

  Lemma process_nochange : forall st it st', wf_item it -> pstep st it st' ->
    good c st -> changed st' = false -> swallowed st' = false ->
    st' = st /\ match process c st it with
                | PDefer _ => stmt_unable (tbl st) it
                | _ => stmt_closed (tbl st) it
                end.
  Proof.
    intros st it st' Hwf H Hg Hc Hs. destruct (process_cases _ _ _ H) as [st1 [E1 Hcs]].
    assert (Hsame : forall s, eval_work c (lookup_kim (tbl st) (tbl st) (fst it)) s = eval_work c (lookup (tbl st) (fst it)) s).
    { intro s. apply eval_ext. intro x. apply lookup_kim_same. }
    destruct Hcs as [(Esub & -> & Hp)|[(Esub & Ei & -> & Hp)|(Esub & ks & Ei & E2 & Hp)]]; rewrite Hp.
    - destruct (set_loops_nochange _ _ _ _ E1 Hc Hs) as [-> Hcl].
      split; [reflexivity|]. split; [assumption|]. congruence.
    - destruct (set_loops_nochange _ _ _ _ E1 Hc Hs) as [-> Hcl].
      split; [reflexivity|]. rewrite Hsame in Ei. split; auto.
    - assert (Hg1 : good c st1) by (eapply set_loops_ext; eassumption).
      assert (Hks : Forall (fun k => k <> None) ks).
      { eapply eval_work_some; try eassumption. apply lookup_kim_nonone, (good_nonone c), Hg1. }
      destruct (set_many_nochange _ _ _ _ _ E2 Hks Hc Hs) as [-> Hlhs].
      destruct (set_loops_nochange _ _ _ _ E1 Hc Hs) as [-> Hcl].
      split; [reflexivity|]. split; [assumption|]. intros _.
      exists ks. rewrite Hsame in Ei. split; assumption.
  Qed.

  (* The work-list loop as a proof rule: I holds of the loop's variables at the head of every iteration, O of
     what the loop returns. *)
  Lemma inner_rule : forall (items : list qitem)
      (I : tstate -> list qitem -> list qitem -> bool -> Prop) (O : fres -> Prop),
    O FOutOfFuel ->
    (forall st pr, I st [] [] pr -> O (FOk st)) ->
    (forall st x b, I st [] (x :: b) true -> I st (x :: b) [] false) ->
    (forall st x b, incl (x :: b) items -> I st [] (x :: b) false ->
       if c_restart c && changed st then O (FOk st)
       else O (FErr (diagnostics c (tbl st) (rev (x :: b))))) ->
    (forall st it q b pr, In it items -> I st (it :: q) b pr ->
       match process c st it with
       | PErr e => O (FErr e)
       | PDone st' => I st' q b pr
       | PDefer st' => I st' q (it :: b) pr
       | PProgress st' => I st' q b true
       end) ->
    forall fuel st q b pr, incl q items -> incl b items -> I st q b pr -> O (inner c fuel st q b pr).
  Proof.
    intros items I O Hfuel Hend Hsweep Hstuck Hstep.
    induction fuel as [|f IH]; intros st q b pr Hq Hb HI; cbn; [assumption|].
    destruct q as [|it q].
    - destruct b as [|x b]; [eapply Hend; eassumption|].
      destruct pr; [apply IH; [assumption|apply incl_nil_l|apply Hsweep, HI]|].
      specialize (Hstuck _ _ _ Hb HI). destruct (c_restart c && changed st); assumption.
    - apply incl_cons_inv in Hq. destruct Hq as [Hit Hq]. specialize (Hstep _ _ _ _ _ Hit HI).
      destruct (process c st it); [assumption|apply IH; try assumption..].
      apply incl_cons; assumption.
  Qed.

  Lemma inner_inv : forall (P : tstate -> Prop) (items : list qitem),
    (forall st it st', In it items -> P st -> pstep st it st' -> P st') ->
    forall fuel st q b pr st', incl q items -> incl b items -> P st ->
      inner c fuel st q b pr = FOk st' -> P st'.
  Proof.
    intros P items Hstep fuel st q b pr st'.
    apply (inner_rule items (fun s _ _ _ => P s) (fun r => r = FOk st' -> P st')).
    - discriminate.
    - intros s _ H [= <-]. exact H.
    - auto.
    - intros s x b0 _ H. destruct (c_restart c && changed s); [|discriminate].
      intros [= <-]. exact H.
    - intros s it q0 b0 pr0 Hit H. unfold pstep in Hstep.
      destruct (process c s it) eqn:Ep; [discriminate|..];
        (eapply Hstep; [exact Hit|exact H|rewrite Ep; reflexivity]).
  Qed.

  Lemma inner_flags_mono : forall fuel st q b pr st', inner c fuel st q b pr = FOk st' ->
    (changed st' = false -> changed st = false) /\ (swallowed st' = false -> swallowed st = false).
  Proof.
    intros fuel st q b pr st'.
    apply (inner_inv (fun s => (changed s = false -> changed st = false) /\ (swallowed s = false -> swallowed st = false))
             (q ++ b)); [|apply incl_appl, incl_refl|apply incl_appr, incl_refl|auto].
    intros s it s' _ [A B] Hps. destruct (process_flags_mono _ _ _ Hps). auto.
  Qed.

  Lemma in_cons_app_swap : forall (x y : qitem) q b, In y ((x :: q) ++ b) -> In y (q ++ x :: b).
  Proof. intros x y q b. cbn. rewrite !in_app_iff. cbn. tauto. Qed.

  (* While both flags are down nothing has changed since the call began (process_nochange): the state is still
     st0, the one it began with, and what the call found out about a statement still holds: the statements it
     deferred cannot be inferred, the others it took are closed.  b0 is what the push buffer held when the call
     began; of that nothing is known. *)
  Definition all_done (all b0 : list qitem) (st0 s : tstate) (q b : list qitem) : Prop :=
    changed s = false -> swallowed s = false ->
    s = st0 /\ (forall x, In x b -> In x b0 \/ stmt_unable (tbl s) x) /\
    forall y, In y all -> In y (q ++ b) \/ stmt_closed (tbl s) y.

  Lemma all_done_start : forall all s, all_done all [] s s (rev all) [].
  Proof.
    intros all s _ _. split; [reflexivity|]. split; [intros x []|]. intros y Hy. left. rewrite app_nil_r.
    apply -> in_rev. exact Hy.
  Qed.

  Lemma all_done_sweep : forall all b0 st0 s b, all_done all b0 st0 s [] b -> all_done all b0 st0 s b [].
  Proof.
    intros all b0 st0 s b H Hc Hs. destruct (H Hc Hs) as (E & _ & Hy). split; [exact E|]. split; [intros x []|].
    rewrite app_nil_r. exact Hy.
  Qed.

  Lemma all_done_step : forall all b0 st0 s it q b, good c s -> wf_item it -> all_done all b0 st0 s (it :: q) b ->
    match process c s it with
    | PErr _ => True
    | PDone s' | PProgress s' => all_done all b0 st0 s' q b
    | PDefer s' => all_done all b0 st0 s' q (it :: b)
    end.
  Proof.
    intros all b0 st0 s it q b Hg Hwf H.
    pose proof (process_nochange s it) as Hn. unfold pstep in Hn.
    (* with the flags down after the step the state is still s, and Hcl says what the step found out about it;
       one bullet each for PDone, PDefer, PProgress *)
    destruct (process c s it) as [e|s1|s1|s1]; [exact I|..]; intros Hc Hs;
      destruct (Hn s1 Hwf eq_refl Hg Hc Hs) as [-> Hcl]; destruct (H Hc Hs) as (E & Hb & Hy); (split; [exact E|]).
    - split; [exact Hb|]. intros y Hin. destruct (Hy y Hin) as [[<-|A]|A]; auto.
    - split.
      + intros x [<-|Hx]; [right; exact Hcl|apply Hb, Hx].
      + intros y Hin. destruct (Hy y Hin) as [A|A]; [left; apply in_cons_app_swap, A|right; exact A].
    - split; [exact Hb|]. intros y Hin. destruct (Hy y Hin) as [[<-|A]|A]; auto.
  Qed.

  Lemma incl_rev_l : forall l : list qitem, incl (rev l) l.
  Proof. intros l x. apply in_rev. Qed.

  (* Every statement of the call is still waiting or was closed when it was taken, and nothing has changed since. *)
  Lemma inner_closed : forall fuel st q b pr st',
    good c st -> (forall it, In it (q ++ b) -> wf_item it) ->
    inner c fuel st q b pr = FOk st' -> changed st' = false -> swallowed st' = false ->
    st' = st /\ forall it, In it (q ++ b) -> stmt_closed (tbl st) it.
  Proof.
    intros fuel st q b pr st' Hg Hwf.
    apply (inner_rule (q ++ b) (fun s q' b' _ => good c s /\ all_done (q ++ b) b st s q' b')
      (fun r => r = FOk st' -> changed st' = false -> swallowed st' = false ->
                st' = st /\ forall it, In it (q ++ b) -> stmt_closed (tbl st) it));
      [..|apply incl_appl, incl_refl|apply incl_appr, incl_refl|].
    - discriminate.
    - intros s _ [_ H] [= <-] Hc Hs. destruct (H Hc Hs) as (-> & _ & Hy). split; [reflexivity|].
      intros it Hin. destruct (Hy it Hin) as [[]|]; assumption.
    - intros s x b0 [Hg0 H]. split; [assumption|apply all_done_sweep, H].
    - (* the restart exit leaves the change flag set *)
      intros s x b0 _ _. destruct (c_restart c && changed s) eqn:Er; [|discriminate].
      intros [= <-] Hc. apply andb_true_iff in Er. destruct Er. congruence.
    - intros s it q0 b0 pr0 Hit [Hg0 H].
      pose proof (all_done_step _ _ _ s it q0 b0 Hg0 (Hwf it Hit) H) as Hd.
      pose proof (fun s1 Hps => proj1 (pstep_ext s it s1 (Hwf it Hit) Hps Hg0)) as Hg1. unfold pstep in Hg1.
      destruct (process c s it) as [e|s1|s1|s1]; [discriminate|..]; (split; [apply Hg1; reflexivity|exact Hd]).
    - split; [assumption|]. intros _ _. split; [reflexivity|]. split; [intros x Hx|intros y Hy]; left; assumption.
  Qed.

  Lemma inner_unchanged : forall fuel st q b pr st',
    good c st -> (forall it, In it (q ++ b) -> wf_item it) ->
    inner c fuel st q b pr = FOk st' -> changed st' = false -> swallowed st' = false -> st' = st.
  Proof. intros fuel st q b pr st' Hg Hwf H Hc Hs. exact (proj1 (inner_closed _ _ _ _ _ _ Hg Hwf H Hc Hs)). Qed.

  Definition reset (st : tstate) : tstate :=
    {| tbl := tbl st; changed := false; swallowed := swallowed st |}.

  (* outer returns a table only out of a pass that began with the change flag down (after reset), ended with it
     down, and whose table passed final_check.  outer_last finds that pass for any P kept by reset and by every
     step, so each client brings the facts it wants of the states before and after it. *)
  Definition last_pass (all : list qitem) (st0 st' : tstate) : Prop :=
    inner c (S (List.length all) * S (S (List.length all))) st0 (rev all) [] false = FOk st'
    /\ changed st' = false /\ final_check c (tbl st') all = None /\ changed st0 = false.

  Lemma outer_last : forall (P : tstate -> Prop) (all : list qitem),
    (forall st, P st -> P (reset st)) ->
    (forall st it st', In it all -> P st -> pstep st it st' -> P st') ->
    forall fuel st T sw, P st -> outer c fuel st all = OTable T sw ->
    exists st0 st', P st0 /\ P st' /\ last_pass all st0 st' /\ T = tbl st' /\ sw = swallowed st'.
  Proof.
    intros P all Hreset Hstep. induction fuel as [|f IH]; intros st T sw HP; cbn [outer]; [discriminate|].
    fold (reset st).
    destruct (inner c (S (List.length all) * S (S (List.length all))) (reset st) (rev all) [] false) as [st'|e|] eqn:Ei;
      try discriminate.
    assert (HP' : P st').
    { eapply (inner_inv P all Hstep); [apply incl_rev_l|apply incl_nil_l|apply Hreset; exact HP|exact Ei]. }
    destruct (changed st') eqn:Ec.
    - intro H. eapply IH; eassumption.
    - destruct (final_check c (tbl st') all) eqn:Ef; [discriminate|]. intros [= <- <-].
      exists (reset st), st'. unfold last_pass. auto 7.
  Qed.

  Hypothesis Hinit : forall x, In x (c_init_global c) -> c_is_state c x = true.

  Lemma tfind_init : forall l ky v,
    tfind (map (fun x => ((None, x), Some (KScalar true))) l) ky = Some v ->
    v = Some (KScalar true) /\ fst ky = None /\ In (snd ky) l.
  Proof.
    induction l as [|x r IH]; intros ky v; cbn; [discriminate|].
    destruct (key_eqb ky (None, x)) eqn:E.
    - apply key_eqb_eq in E. subst ky. intros [= <-]. cbn. auto.
    - intro H. destruct (IH _ _ H) as [A [B C]]. auto.
  Qed.

  Lemma init_good : good c (init_state c).
  Proof.
    split; intros ky v H; cbn in H; apply tfind_init in H; destruct H as [-> [Hf Hin]].
    - rewrite Hf. apply Hinit; assumption.
    - discriminate.
  Qed.

  Lemma set_forced_ext : forall l st st', (forall p x k, In (p, x, k) l -> k <> None) ->
    set_forced c st l = Ok st' -> ext c st st'.
  Proof. exact (set_forced_rel c _ _ (ext_refl c) (ext_trans c) (tset_ext c Hut Harr)). Qed.

  Lemma run_closed : forall fuel st all T,
    good c st -> (forall it, In it all -> wf_item it) ->
    outer c fuel st all = OTable T false ->
    canon c T /\ tle (tbl st) T /\ forall it, In it all -> stmt_closed T it.
  Proof.
    intros fuel st all T Hg Hwf H.
    pose (P := fun s : tstate => good c s /\ tle (tbl st) (tbl s)).
    destruct (outer_last P all) with (fuel := fuel) (st := st) (T := T) (sw := false)
      as [st0 [st' [[Hg0 _] [[Hg' Hle'] [[Ei [Hc' _]] [-> Hs']]]]]]; try assumption.
    - intros s Hs. exact Hs.
    - intros s it s' Hin [A B] Hps.
      destruct (pstep_ext _ _ _ (Hwf it Hin) Hps A) as [A' [B' _]].
      split; [assumption|eapply tle_trans; eassumption].
    - split; [assumption|apply tle_refl].
    - split; [exact (good_canon c _ Hg')|]. split; [assumption|].
      assert (Hwf' : forall y, In y (rev all ++ []) -> wf_item y).
      { intros y Hy. rewrite app_nil_r in Hy. apply Hwf, in_rev, Hy. }
      destruct (inner_closed _ _ _ _ _ _ Hg0 Hwf' Ei Hc' (eq_sym Hs')) as [-> Hcl].
      intros it Hin. apply Hcl. rewrite app_nil_r. apply -> in_rev. exact Hin.
  Qed.

  (* this is where the registry has to be monotone *)
  Hypothesis Hao : c_arr_only c = true.

  Lemma process_below : forall st it L, good c st -> canon c L -> tle (tbl st) L -> stmt_wclosed L it ->
    exists st', pstep st it st' /\ tle (tbl st') L /\ swallowed st' = swallowed st.
  Proof.
    intros st it L Hg HcL Hle [Hloops Hlhs]. unfold pstep, process.
    destruct (set_loops_below _ st (fst it) L Hle Hloops) as [st1 [E1 [Hle1 Hs1]]].
    rewrite E1.
    assert (Hg1 : good c st1) by (eapply set_loops_ext; eassumption).
    destruct (b_sub (snd it)) eqn:Es.
    { exists st1. auto. }
    assert (Hlk : lk_le (lookup_kim (tbl st) (tbl st1) (fst it)) (lookup L (fst it))).
    { apply (lookup_kim_le c); [exact (good_canon c _ Hg1)|assumption|assumption]. }
    pose proof (eval_work_mono c Hut Harr Hao (lookup_kim (tbl st) (tbl st1) (fst it)) (lookup L (fst it))
                  (snd it) Hlk) as Hm.
    destruct (Hlhs eq_refl) as [Eu|[ks' [Ei' Hcl]]].
    - rewrite Eu in Hm. cbn in Hm. rewrite Hm. exists st1. auto.
    - rewrite Ei' in Hm. cbn in Hm.
      destruct Hm as [Hm|[ks [Hm Hk]]].
      + rewrite Hm. exists st1. auto.
      + rewrite Hm.
        destruct (set_many_below (b_lhs (snd it)) ks st1 (fst it) L Hle1) as [st2 [E2 [Hle2 Hs2]]].
        * eapply lhs_closed_le; eassumption.
        * rewrite E2. exists st2. rewrite Hs2. auto.
  Qed.

  Lemma run_below : forall fuel st all L T sw,
    good c st -> (forall it, In it all -> wf_item it) ->
    canon c L -> tle (tbl st) L -> (forall it, In it all -> stmt_wclosed L it) ->
    outer c fuel st all = OTable T sw -> tle T L.
  Proof.
    intros fuel st all L T sw Hg Hwf HcL Hle Hcl H.
    pose (P := fun s : tstate => good c s /\ tle (tbl s) L).
    destruct (outer_last P all) with (fuel := fuel) (st := st) (T := T) (sw := sw)
      as [st0 [st' [_ [[_ Hle'] [_ [-> _]]]]]]; try assumption.
    - intros s [A B]. split; assumption.
    - intros s it s' Hin [A B] Hps. split.
      + eapply pstep_ext; try eassumption. apply Hwf; assumption.
      + destruct (process_below s it L A HcL B (Hcl it Hin)) as [s2 [Hps2 [Hle2 _]]].
        rewrite (pstep_det _ _ _ _ Hps Hps2). assumption.
    - split; assumption.
  Qed.

  Definition start (st : tstate) (all : list qitem) : res tstate :=
    if c_loops_prepass c then prepass c st all else Ok st.

  Lemma start_ext : forall l st st', start st l = Ok st' -> ext c st st'.
  Proof.
    unfold start. intros l st st'.
    destruct (c_loops_prepass c); [apply prepass_ext|intros [= <-]; apply ext_refl].
  Qed.

  Lemma prepass_below : forall l st L, tle (tbl st) L -> (forall it, In it l -> stmt_wclosed L it) ->
    exists st', prepass c st l = Ok st' /\ tle (tbl st') L /\ swallowed st' = swallowed st.
  Proof.
    induction l as [|it r IH]; intros st L Hle Hcl; cbn; [eauto|].
    destruct (set_loops_below (b_loops (snd it)) st (fst it) L Hle) as [st1 [-> [Hle1 <-]]].
    - apply (Hcl it). left; reflexivity.
    - apply IH; [assumption|]. intros x Hx. apply Hcl. right; assumption.
  Qed.

  Lemma start_below : forall l st L, tle (tbl st) L -> (forall it, In it l -> stmt_wclosed L it) ->
    exists st', start st l = Ok st' /\ tle (tbl st') L /\ swallowed st' = swallowed st.
  Proof.
    unfold start. intros l st L Hle Hcl. destruct (c_loops_prepass c); [apply prepass_below; assumption|eauto].
  Qed.

  Lemma run_queue_unfold : forall fuel forced all,
    run_queue c fuel forced all =
    match set_forced c (init_state c) forced with
    | Err e => OErr e
    | Ok st => match start st all with Err e => OErr e | Ok st' => outer c fuel st' all end
    end.
  Proof. reflexivity. Qed.

  Lemma run_queue_table : forall fuel forced all T sw,
    (forall p x k, In (p, x, k) forced -> k <> None) ->
    run_queue c fuel forced all = OTable T sw ->
    exists stf st1, set_forced c (init_state c) forced = Ok stf /\ good c stf /\
      start stf all = Ok st1 /\ good c st1 /\ tle (tbl stf) (tbl st1) /\
      outer c fuel st1 all = OTable T sw.
  Proof.
    intros fuel forced all T sw Hforced H. rewrite run_queue_unfold in H.
    destruct (set_forced c (init_state c) forced) as [stf|e] eqn:Ef; [|discriminate].
    destruct (start stf all) as [st1|e] eqn:E1; [|discriminate].
    assert (Hgf : good c stf) by (eapply set_forced_ext; [exact Hforced|exact Ef|apply init_good]).
    destruct (start_ext _ _ _ E1 Hgf) as [Hg1 [Hs1 _]].
    exists stf, st1. auto 7.
  Qed.

  (* What a run computes, said without the run: the least table above the forced kinds T0 under which every
     statement is closed -- least even among those under which a statement may be impossible to infer. *)
  Definition least_closed (T0 : table) (items : list qitem) (T : table) : Prop :=
    canon c T /\ tle T0 T /\ (forall it, In it items -> stmt_closed T it) /\
    forall L, canon c L -> tle T0 L -> (forall it, In it items -> stmt_wclosed L it) -> tle T L.

  Lemma least_closed_canon : forall T0 items T, least_closed T0 items T -> canon c T.
  Proof. intros T0 items T H; apply H. Qed.

  Lemma least_closed_above : forall T0 items T, least_closed T0 items T -> tle T0 T.
  Proof. intros T0 items T H; apply H. Qed.

  Lemma least_closed_closed : forall T0 items T, least_closed T0 items T ->
    forall it, In it items -> stmt_closed T it.
  Proof. intros T0 items T H; apply H. Qed.

  Lemma least_closed_wclosed : forall T0 items T, least_closed T0 items T ->
    forall it, In it items -> stmt_wclosed T it.
  Proof. intros T0 items T H it Hin. apply closed_wclosed, (least_closed_closed _ _ _ H), Hin. Qed.

  Lemma least_closed_least : forall T0 items T, least_closed T0 items T ->
    forall L, canon c L -> tle T0 L -> (forall it, In it items -> stmt_wclosed L it) -> tle T L.
  Proof. intros T0 items T H; apply H. Qed.

  Lemma least_closed_unique : forall T0 items items' T T',
    (forall it, In it items <-> In it items') ->
    least_closed T0 items T -> least_closed T0 items' T' -> table_equiv T T'.
  Proof.
    intros T0 items items' T T' Hin H H'.
    apply tle_antisym; [apply (least_closed_least _ _ _ H)|apply (least_closed_least _ _ _ H')];
      eauto using least_closed_canon, least_closed_above;
      intros it Hit; [apply (least_closed_wclosed _ _ _ H')|apply (least_closed_wclosed _ _ _ H)]; apply Hin, Hit.
  Qed.

  Lemma least_closed_items : forall T0 items items' T,
    (forall it, In it items <-> In it items') -> least_closed T0 items T -> least_closed T0 items' T.
  Proof.
    intros T0 items items' T Hin [Hc [H0 [Hcl Hleast]]]. split; [assumption|]. split; [assumption|]. split.
    - intros it Hit. apply Hcl, Hin, Hit.
    - intros L HcL HL Hw. apply Hleast; try assumption. intros it Hit. apply Hw, Hin, Hit.
  Qed.

  Theorem run_bounded : forall fuel forced all T sw stf L,
    (forall it, In it all -> wf_item it) ->
    (forall p x k, In (p, x, k) forced -> k <> None) ->
    run_queue c fuel forced all = OTable T sw ->
    set_forced c (init_state c) forced = Ok stf ->
    canon c L -> tle (tbl stf) L -> (forall it, In it all -> stmt_wclosed L it) -> tle T L.
  Proof.
    intros fuel forced all T sw stf L Hwf Hforced H Ef HcL HleL Hw.
    destruct (run_queue_table _ _ _ _ _ Hforced H) as [stf' [st1 [Ef' [_ [E1 [Hg1 [_ R]]]]]]].
    rewrite Ef in Ef'. injection Ef' as <-.
    destruct (start_below all stf L HleL Hw) as [s [Es [Hles _]]]. rewrite E1 in Es. injection Es as <-.
    eapply run_below; eassumption.
  Qed.

  (* [OTable T false]: the run swallowed no failed unification *)
  Theorem run_least : forall fuel forced all T,
    (forall it, In it all -> wf_item it) ->
    (forall p x k, In (p, x, k) forced -> k <> None) ->
    run_queue c fuel forced all = OTable T false ->
    exists stf, set_forced c (init_state c) forced = Ok stf /\ good c stf /\ least_closed (tbl stf) all T.
  Proof.
    intros fuel forced all T Hwf Hforced H.
    destruct (run_queue_table _ _ _ _ _ Hforced H) as [stf [st1 [Ef [Hgf [E1 [Hg1 [Hs1 R]]]]]]].
    destruct (run_closed _ _ _ _ Hg1 Hwf R) as [HcT [Hle1 Hcl]].
    exists stf. split; [assumption|]. split; [assumption|]. split; [assumption|].
    split; [eapply tle_trans; eassumption|]. split; [assumption|].
    intros L. eapply run_bounded; eassumption.
  Qed.

  Theorem run_le : forall fuel fuel' forced all all' T T' sw',
    (forall it, In it all' -> In it all) ->
    (forall it, In it all -> wf_item it) ->
    (forall p x k, In (p, x, k) forced -> k <> None) ->
    run_queue c fuel forced all = OTable T false ->
    run_queue c fuel' forced all' = OTable T' sw' ->
    tle T' T.
  Proof.
    intros fuel fuel' forced all all' T T' sw' Hsub Hwf Hforced H1 H2.
    destruct (run_least _ _ _ _ Hwf Hforced H1) as (stf & Ef & _ & HT).
    eapply run_bounded with (all := all'); try eassumption.
    - intros it Hin. apply Hwf, Hsub, Hin.
    - exact (least_closed_canon _ _ _ HT).
    - exact (least_closed_above _ _ _ HT).
    - intros it Hin. apply (least_closed_wclosed _ _ _ HT), Hsub, Hin.
  Qed.

  Lemma Permutation_in_iff : forall (l l' : list qitem), Permutation l l' -> forall x, In x l <-> In x l'.
  Proof. intros l l' H x. split; apply Permutation_in; [|apply Permutation_sym]; exact H. Qed.

  Theorem order_independent_partial : forall fuel fuel' forced all all' T T',
    Permutation all all' ->
    (forall it, In it all -> wf_item it) ->
    (forall p x k, In (p, x, k) forced -> k <> None) ->
    run_queue c fuel forced all = OTable T false ->
    run_queue c fuel' forced all' = OTable T' false ->
    table_equiv T T'.
  Proof.
    intros fuel fuel' forced all all' T T' Hperm Hwf Hforced H1 H2.
    pose proof (Permutation_in_iff _ _ Hperm) as Hin.
    destruct (run_least _ _ _ _ Hwf Hforced H1) as [stf [Ef [_ L1]]].
    destruct (run_least fuel' forced all' T') as [stf' [Ef' [_ L2]]]; try assumption.
    { intros it Hit. apply Hwf, Hin, Hit. }
    rewrite Ef in Ef'. injection Ef' as <-. exact (least_closed_unique _ _ _ _ _ Hin L1 L2).
  Qed.

End Finder.
