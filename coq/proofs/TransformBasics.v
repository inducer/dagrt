(* Two independent bases.  pytools' name generator returns names it did not know (gen_spec); ext sums that up for a
   run of the state monad.  The traced evaluation evalt depends on the variables of the expression only (frame),
   logs nothing for a call-free expression, and on a strict n-ary node is the evaluation of the operands as a list
   followed by the node's own step (evalt_strict_ok / evalt_strict_list). *)
From Coq Require Import List ZArith NArith String Ascii Bool Arith Lia Permutation.
Import ListNotations.
From Dagrt Require Import Lang LangProofs Sched Transform TransformSem TransformSide ListFacts.

Lemma smem_In x l : smem x l = true <-> In x l.
Proof. exact (existsb_str_In x l). Qed.

Lemma smem_false x l : smem x l = false <-> ~ In x l.
Proof. exact (existsb_str_nIn x l). Qed.

Lemma search_fresh fuel e p n c name : search fuel e p n = Some (c, name) -> ~ In name e.
Proof.
  revert n. induction fuel as [|f IH]; cbn; intros n H; [discriminate|].
  destruct (smem _ e) eqn:E; [eauto|]. inversion H; subst. now apply smem_false.
Qed.

Lemma search0_fresh e p c c' name : search0 e p c = Some (c', name) -> ~ In name e.
Proof.
  unfold search0. destruct c as [n|].
  - apply search_fresh.
  - destruct (smem p e) eqn:E.
    + apply search_fresh.
    + intros H. inversion H; subst. now apply smem_false.
Qed.

Lemma gen_spec g b n g' : gen g b = Some (n, g') -> ~ In n (ex g) /\ ex g' = n :: ex g.
Proof.
  unfold gen. destruct (match assoc b (ctr g) with Some c => _ | None => _ end) as [b' c].
  destruct (search0 (ex g) b' c) as [[c' name]|] eqn:E; [|discriminate].
  intros H. inversion H; subst. split; [eapply search0_fresh; eauto|reflexivity].
Qed.

Lemma genv_spec b st n st' :
  genv b st = TOk (n, st') ->
  ~ In n (ex (gvars st)) /\ ex (gvars st') = n :: ex (gvars st) /\ gids st' = gids st.
Proof.
  unfold genv. destruct (gen (gvars st) b) as [[n' g]|] eqn:E; [|discriminate].
  intros H. inversion H; subst. apply gen_spec in E. cbn. tauto.
Qed.

Lemma geni_spec b st n st' :
  geni b st = TOk (n, st') ->
  ~ In n (ex (gids st)) /\ ex (gids st') = n :: ex (gids st) /\ gvars st' = gvars st.
Proof.
  unfold geni. destruct (gen (gids st) b) as [[n' g]|] eqn:E; [|discriminate].
  intros H. inversion H; subst. apply gen_spec in E. cbn. tauto.
Qed.

Definition fresh_for (old new : list string) : Prop :=
  NoDup new /\ forall x, In x new -> ~ In x old.

(* the newest first *)
Definition ext (st st' : gst) (N I : list string) : Prop :=
  ex (gvars st') = N ++ ex (gvars st) /\ ex (gids st') = I ++ ex (gids st) /\
  fresh_for (ex (gvars st)) N /\ fresh_for (ex (gids st)) I.

Lemma fresh_for_nil old : fresh_for old [].
Proof. split; [constructor|intros x []]. Qed.

Lemma fresh_for_app old n1 n2 :
  fresh_for old n1 -> fresh_for (n1 ++ old) n2 -> fresh_for old (n2 ++ n1).
Proof.
  intros [D1 F1] [D2 F2]. split.
  - apply NoDup_app_intro; auto. intros x Hx Hx1. apply (F2 x Hx). apply in_app_iff. now left.
  - intros x Hx. apply in_app_iff in Hx. destruct Hx as [Hx|Hx].
    + intros Ho. apply (F2 x Hx). apply in_app_iff. now right.
    + now apply F1.
Qed.

Lemma fresh_for_incl old old' new : incl old' old -> fresh_for old new -> fresh_for old' new.
Proof. intros Hi [D Fr]. split; [exact D|]. intros x Hx Hin. exact (Fr x Hx (Hi x Hin)). Qed.

Lemma ext_refl st : ext st st [] [].
Proof. split; [reflexivity|split; [reflexivity|split; apply fresh_for_nil]]. Qed.

Lemma ext_trans st st1 st2 N1 I1 N2 I2 :
  ext st st1 N1 I1 -> ext st1 st2 N2 I2 -> ext st st2 (N2 ++ N1) (I2 ++ I1).
Proof.
  intros (E1 & E2 & F1 & F2) (E3 & E4 & F3 & F4).
  rewrite E1 in F3. rewrite E2 in F4.
  split; [|split; [|split]].
  - now rewrite E3, E1, app_assoc.
  - now rewrite E4, E2, app_assoc.
  - exact (fresh_for_app _ _ _ F1 F3).
  - exact (fresh_for_app _ _ _ F2 F4).
Qed.

Lemma ext_fresh_vars st st' N I : ext st st' N I -> fresh_for (ex (gvars st)) N.
Proof. now intros (_ & _ & H & _). Qed.

Lemma ext_fresh_ids st st' N I : ext st st' N I -> fresh_for (ex (gids st)) I.
Proof. now intros (_ & _ & _ & H). Qed.

Lemma in_fresh_not_old old new x : fresh_for old new -> In x new -> ~ In x old.
Proof. intros [_ H]. apply H. Qed.

Lemma fresh_for_app_inv old n1 n2 : fresh_for old (n2 ++ n1) -> fresh_for old n1 /\ fresh_for (n1 ++ old) n2.
Proof.
  intros [D Fr]. split; split.
  - exact (NoDup_app_r _ _ D).
  - intros x Hx. apply Fr, in_app_iff. now right.
  - exact (NoDup_app_l _ _ D).
  - intros x Hx Hin. apply in_app_iff in Hin. destruct Hin as [Hin|Hin].
    + exact (NoDup_app_disj _ _ x D Hx Hin).
    + apply (Fr x); [apply in_app_iff; now left|exact Hin].
Qed.

Lemma fresh_off K V N : fresh_for K N -> incl V K -> forall x, In x N -> ~ In x V.
Proof. intros Fr Hi x Hx Hin. exact (in_fresh_not_old _ _ _ Fr Hx (Hi x Hin)). Qed.

Lemma ext_vars_incl st st' N I l : ext st st' N I -> incl l (ex (gvars st)) -> incl l (ex (gvars st')).
Proof. intros (E & _) H x Hx. rewrite E. apply in_app_iff. right. apply H, Hx. Qed.

Lemma fresh_for_one old n : ~ In n old -> fresh_for old [n].
Proof.
  intros H. split.
  - constructor; [intros []|constructor].
  - intros x [<-|[]]. exact H.
Qed.

Lemma ext_genv b st n st' : genv b st = TOk (n, st') -> ext st st' [n] [].
Proof.
  intros H. apply genv_spec in H. destruct H as (Hn & He & Hi).
  split; [exact He|split; [now rewrite Hi|split]].
  - now apply fresh_for_one.
  - apply fresh_for_nil.
Qed.

Lemma ext_geni b st n st' : geni b st = TOk (n, st') -> ext st st' [] [n].
Proof.
  intros H. apply geni_spec in H. destruct H as (Hn & He & Hi).
  split; [now rewrite Hi|split; [exact He|split]].
  - apply fresh_for_nil.
  - now apply fresh_for_one.
Qed.

Lemma bind_inv {A B} (m : M A) (f : A -> M B) st b st' :
  bind m f st = TOk (b, st') -> exists a st1, m st = TOk (a, st1) /\ f a st1 = TOk (b, st').
Proof. unfold bind. destruct (m st) as [[a st1]|e]; [|discriminate]. eauto. Qed.

Definition getv (s : store) (x : var) : val := match s x with Some v => v | None => VNone end.

Lemma split_at_spec {A} n (l a b : list A) :
  split_at n l = (a, b) -> l = a ++ b /\ List.length a = Nat.min n (List.length l).
Proof.
  revert l a b. induction n as [|n IH]; intros l a b H.
  - destruct l; cbn in H; inversion H; subst; auto.
  - destruct l as [|x r]; cbn in H.
    + inversion H; subst. auto.
    + destruct (split_at n r) as [a' b'] eqn:E. inversion H; subst.
      destruct (IH _ _ _ E) as [-> Hl]. cbn. split; [reflexivity|now rewrite Hl].
Qed.

Lemma split_at_app_len {A} (a b : list A) : split_at (List.length a) (a ++ b) = (a, b).
Proof.
  induction a as [|x a IH]; cbn.
  - destruct b; reflexivity.
  - now rewrite IH.
Qed.

Lemma split_at_map {A B} (g : A -> B) n : forall l lp lk,
  split_at n l = (lp, lk) -> split_at n (map g l) = (map g lp, map g lk).
Proof.
  induction n as [|n IH]; intros l lp lk H.
  - destruct l; cbn in *; inversion H; reflexivity.
  - destruct l as [|x r]; cbn in *; [inversion H; reflexivity|].
    destruct (split_at n r) as [a b] eqn:E. inversion H; subst. now rewrite (IH _ _ _ E).
Qed.

Lemma kw_sort_sorted {A} (kw : list string) (vs : list A) :
  sorted_keys kw = true -> List.length vs = List.length kw ->
  kw_sort (combine kw vs) = combine kw vs.
Proof.
  revert vs. induction kw as [|k kw IH]; intros vs Hs Hl; [reflexivity|].
  destruct vs as [|v vs]; [discriminate|]. cbn [combine kw_sort fold_right].
  change (fold_right kw_insert [] (combine kw vs)) with (kw_sort (combine kw vs)).
  assert (Hs' : sorted_keys kw = true).
  { destruct kw as [|k2 kw]; [reflexivity|]. cbn [sorted_keys] in Hs. apply andb_true_iff in Hs. tauto. }
  rewrite IH; [|exact Hs'|cbn in Hl; lia].
  destruct kw as [|k2 kw]; [reflexivity|]. destruct vs as [|v2 vs]; [discriminate|].
  cbn [combine kw_insert fst]. cbn [sorted_keys] in Hs. apply andb_true_iff in Hs. destruct Hs as [Hle _].
  now rewrite Hle.
Qed.

Lemma kw_insert_in {A} (x y : string * A) l : In y (kw_insert x l) -> y = x \/ In y l.
Proof.
  induction l as [|z l IH]; cbn [kw_insert]; [intros [<-|[]]; now left|].
  destruct (String.leb (fst x) (fst z)); cbn [In]; [intros [<-|H]; auto|].
  intros [<-|H]; [right; now left|]. apply IH in H. destruct H; auto.
Qed.

Lemma kw_sort_in {A} (y : string * A) l : In y (kw_sort l) -> In y l.
Proof.
  induction l as [|x l IH]; [auto|]. unfold kw_sort. cbn [fold_right]. fold (kw_sort l).
  intros H. apply kw_insert_in in H. destruct H as [->|H]; [now left|right; auto].
Qed.

Lemma kw_sort_length {A} (l : list (string * A)) : List.length (kw_sort l) = List.length l.
Proof.
  assert (Hi : forall x (l : list (string * A)), List.length (kw_insert x l) = S (List.length l)).
  { intros x l0. induction l0 as [|y l0 IH]; [reflexivity|]. cbn [kw_insert]. destruct (String.leb _ _); cbn; auto. }
  induction l as [|x l IH]; [reflexivity|]. unfold kw_sort. cbn [fold_right]. fold (kw_sort l). now rewrite Hi, IH.
Qed.

Lemma flat_map_incl {A B} (f : A -> list B) l l' : incl l l' -> incl (flat_map f l) (flat_map f l').
Proof. intros H x Hx. apply in_flat_map in Hx. destruct Hx as (a & Ha & Hx). apply in_flat_map. exists a. auto. Qed.

Lemma combine_snd_incl {A B} (kw : list A) (kv : list B) : incl (map snd (combine kw kv)) kv.
Proof. intros e He. apply in_map_iff in He. destruct He as ([k e'] & <- & Hin). now apply in_combine_r in Hin. Qed.

(* The argument isolator maps the positional arguments lp, then the keyword arguments lk in the order of the sorted
   keywords: these are arguments of the call, and with sorted keywords they are the arguments as they stand. *)
Lemma args_incl {A} (kw : list string) (l lp lk : list A) n :
  split_at n l = (lp, lk) -> incl (lp ++ map snd (kw_sort (combine kw lk))) l.
Proof.
  intros Es. apply split_at_spec in Es. destruct Es as [-> _]. apply incl_app; [now apply incl_appl|apply incl_appr].
  intros a Ha. apply in_map_iff in Ha. destruct Ha as ([k a0] & <- & Hin). apply kw_sort_in in Hin.
  now apply in_combine_r in Hin.
Qed.

Lemma args_sorted {A} kw (l lp lk : list A) :
  sorted_keys kw = true -> (List.length kw <= List.length l)%nat ->
  split_at (List.length l - List.length kw) l = (lp, lk) ->
  lp ++ map snd (kw_sort (combine kw lk)) = l /\ map fst (kw_sort (combine kw lk)) = kw.
Proof.
  intros Hs Hl Es. apply split_at_spec in Es. destruct Es as [-> Hlen].
  assert (Hk : List.length lk = List.length kw) by (rewrite app_length in *; lia).
  rewrite (kw_sort_sorted kw lk Hs Hk), map_snd_combine, map_fst_combine by lia. auto.
Qed.

(* the truth value on which a lazily evaluated operator stops *)
Definition absorb (o : nop) : bool := match o with NOr => true | _ => false end.

Section Evalt.
  Variable F : string -> list val -> list (string * val) -> option (list val).

  Lemma evalt_and_cons s a l :
    evalt F s (ENary NAnd (a :: l)) =
    let (r, v) := evalt F s a in
    match rbind v (fun v => lift (truth v)) with
    | Err u => (r, Err u)
    | Ok false => (r, Ok (VBool false))
    | Ok true => let (r2, v2) := evalt F s (ENary NAnd l) in (r ++ r2, v2)
    end.
  Proof. reflexivity. Qed.

  Lemma evalt_or_cons s a l :
    evalt F s (ENary NOr (a :: l)) =
    let (r, v) := evalt F s a in
    match rbind v (fun v => lift (truth v)) with
    | Err u => (r, Err u)
    | Ok true => (r, Ok (VBool true))
    | Ok false => let (r2, v2) := evalt F s (ENary NOr l) in (r ++ r2, v2)
    end.
  Proof. reflexivity. Qed.

  Lemma evalt_lazy_nil s o : is_lazy o = true -> evalt F s (ENary o []) = ([], Ok (VBool (negb (absorb o)))).
  Proof. destruct o; try discriminate; reflexivity. Qed.

  (* and / or as one operator *)
  Lemma evalt_lazy_cons s o a l :
    is_lazy o = true ->
    evalt F s (ENary o (a :: l)) =
    let (r, v) := evalt F s a in
    match rbind v (fun v => lift (truth v)) with
    | Err u => (r, Err u)
    | Ok b => if Bool.eqb b (absorb o) then (r, Ok (VBool b))
              else let (r2, v2) := evalt F s (ENary o l) in (r ++ r2, v2)
    end.
  Proof.
    destruct o; try discriminate; intros _; [rewrite evalt_and_cons|rewrite evalt_or_cons];
      destruct (evalt F s a) as [r v]; destruct (rbind v _) as [[|]|u]; reflexivity.
  Qed.

  Lemma evalt_var s x : evalt F s (EVar x) = ([], Ok (getv s x)).
  Proof. reflexivity. Qed.

  (* the inner fold of evalt on a strict n-ary node (Lang's ninit / nstep / nfinish) as a function
     of its own; written as evalt writes it, so that evalt_nary holds by computation *)
  Definition nfold_t (o : nop) (s : store) : nacc -> list expr -> list call * rs nacc :=
    fix go acc l :=
      match l with
      | [] => ([], Ok acc)
      | e :: l' =>
          let (r, v) := evalt F s e in
          match v with
          | Err u => (r, Err u)
          | Ok x =>
              match nstep o acc x with
              | None => (r, Err false)
              | Some acc' => let (r2, res) := go acc' l' in (r ++ r2, res)
              end
          end
      end.

  Lemma evalt_nary s o l :
    is_lazy o = false ->
    evalt F s (ENary o l) =
    let (r, a) := nfold_t o s (ninit o) l in
    match a with
    | Err u => (r, Err u)
    | Ok acc => let (r2, v) := nfinish_t F o acc in (r ++ r2, v)
    end.
  Proof. intros Ho. destruct o; try discriminate; reflexivity. Qed.

  (* nfold_t on values that are already there *)
  Fixpoint steps (o : nop) (acc : nacc) (vs : list val) : option nacc :=
    match vs with
    | [] => Some acc
    | v :: r => match nstep o acc v with Some a => steps o a r | None => None end
    end.

  Lemma nfold_ok s o : forall l acc L a,
    nfold_t o s acc l = (L, Ok a) -> exists vs, evalt_list F s l = (L, Ok vs) /\ steps o acc vs = Some a.
  Proof.
    induction l as [|e l IH]; intros acc L a H; cbn [nfold_t] in H.
    - inversion H; subst. exists []. split; reflexivity.
    - cbn [evalt_list]. destruct (evalt F s e) as [r [x|u]]; [|discriminate].
      destruct (nstep o acc x) as [acc'|] eqn:En; [|discriminate].
      destruct (nfold_t o s acc' l) as [r2 res] eqn:Ef. inversion H; subst.
      destruct (IH _ _ _ Ef) as (vs & E1 & E2). exists (x :: vs). rewrite E1. cbn. rewrite En. auto.
  Qed.

  Lemma nfold_of_list s o : forall l acc L vs a,
    evalt_list F s l = (L, Ok vs) -> steps o acc vs = Some a -> nfold_t o s acc l = (L, Ok a).
  Proof.
    induction l as [|e l IH]; intros acc L vs a H Hs; cbn [evalt_list] in H.
    - inversion H; subst. cbn in Hs. inversion Hs; subst. reflexivity.
    - cbn [nfold_t]. destruct (evalt F s e) as [r [x|u]]; [|discriminate].
      destruct (evalt_list F s l) as [r2 [vs2|u]] eqn:El; cbn in H; [|discriminate].
      inversion H; subst. cbn [steps] in Hs. destruct (nstep o acc x) as [acc'|]; [|discriminate].
      now rewrite (IH _ _ _ _ eq_refl Hs).
  Qed.

  (* what a strict node does with the values of its operands *)
  Definition node_t (o : nop) (vs : list val) : list call * rs val :=
    match steps o (ninit o) vs with
    | Some acc => nfinish_t F o acc
    | None => ([], Err false)
    end.

  Lemma evalt_strict_ok s o l L v :
    is_lazy o = false -> evalt F s (ENary o l) = (L, Ok v) ->
    exists Ll vs Lk, evalt_list F s l = (Ll, Ok vs) /\ node_t o vs = (Lk, Ok v) /\ L = Ll ++ Lk.
  Proof.
    intros Ho H. rewrite (evalt_nary s o l Ho) in H.
    destruct (nfold_t o s (ninit o) l) as [r [acc|u]] eqn:Ef; [|discriminate].
    destruct (nfinish_t F o acc) as [r2 v2] eqn:En. inversion H; subst.
    destruct (nfold_ok _ _ _ _ _ _ Ef) as (vs & E1 & E2).
    exists r, vs, r2. unfold node_t. rewrite E2, En. auto.
  Qed.

  Lemma evalt_strict_list s o l Ll vs Lk v :
    is_lazy o = false -> evalt_list F s l = (Ll, Ok vs) -> node_t o vs = (Lk, Ok v) ->
    evalt F s (ENary o l) = (Ll ++ Lk, Ok v).
  Proof.
    intros Ho El Hn. rewrite (evalt_nary s o l Ho). unfold node_t in Hn.
    destruct (steps o (ninit o) vs) as [acc|] eqn:Es; [|discriminate].
    rewrite (nfold_of_list s o l _ _ _ _ El Es). now rewrite Hn.
  Qed.

  Lemma steps_call f kw : forall vs acc, steps (NCall f kw) (NL acc) vs = Some (NL (rev vs ++ acc)).
  Proof.
    induction vs as [|v vs IH]; intros acc; [reflexivity|]. cbn [steps nstep]. rewrite IH.
    cbn [rev]. now rewrite <- app_assoc.
  Qed.

  Lemma node_t_call f kw vs : node_t (NCall f kw) vs = call1t F f kw vs.
  Proof.
    unfold node_t. cbn [ninit]. rewrite steps_call, app_nil_r. cbn [nfinish_t]. now rewrite rev_involutive.
  Qed.

  Lemma nfold_map o (g : expr -> expr) l : forall s s' acc,
    Forall (fun e => evalt F s' (g e) = evalt F s e) l -> nfold_t o s' acc (map g l) = nfold_t o s acc l.
  Proof.
    induction l as [|e l IH]; intros s s' acc H; [reflexivity|]. inversion H as [|? ? He Hl]; subst.
    cbn [map nfold_t]. rewrite He. destruct (evalt F s e) as [r [x|u]]; [|reflexivity].
    destruct (nstep o acc x); [|reflexivity]. now rewrite (IH s s' _ Hl).
  Qed.

  Lemma nfold_frame o l : forall s s' acc,
    Forall (fun e => evalt F s e = evalt F s' e) l -> nfold_t o s acc l = nfold_t o s' acc l.
  Proof. intros s s' acc H. rewrite <- (nfold_map o (fun e => e) l s' s acc H). now rewrite map_id. Qed.

  (* the and / or / strict split of an n-ary node, once for every statement of the form evalt s' (g e) = evalt s e
     (frame: g the identity; substitution, TransformSd) *)
  Lemma evalt_nary_map o (g : expr -> expr) l s s' :
    Forall (fun e => evalt F s' (g e) = evalt F s e) l ->
    evalt F s' (ENary o (map g l)) = evalt F s (ENary o l).
  Proof.
    intros H. destruct (is_lazy o) eqn:Ho; [|rewrite !evalt_nary by exact Ho; now rewrite (nfold_map o g l s s' _ H)].
    induction H as [|a l Ha _ IH]; cbn [map]; [now rewrite !evalt_lazy_nil|].
    rewrite !evalt_lazy_cons by exact Ho. now rewrite Ha, IH.
  Qed.

  Lemma evalt_frame e : forall s s', (forall x, In x (vars e) -> s x = s' x) -> evalt F s e = evalt F s' e.
  Proof.
    induction e as [z|b| |x|a IHa|c t e IHc IHt IHe|o a b IHa IHb|o l IH] using expr_ind';
      intros s s' H; try reflexivity.
    - cbn [evalt]. rewrite (H x); [reflexivity|now left].
    - cbn [evalt]. rewrite (IHa s s'); [reflexivity|exact H].
    - cbn [evalt]. cbn [vars] in H.
      rewrite (IHc s s'), (IHt s s'), (IHe s s'); [reflexivity| | |];
        intros x Hx; apply H; rewrite !in_app_iff; auto.
    - cbn [evalt]. cbn [vars] in H.
      rewrite (IHa s s'), (IHb s s'); [reflexivity| |]; intros x Hx; apply H; rewrite in_app_iff; auto.
    - cbn [vars] in H. rewrite <- (map_id l) at 1. apply evalt_nary_map.
      induction IH as [|a l Ha _ IHl]; constructor.
      + apply Ha. intros x Hx. apply H. cbn. rewrite in_app_iff. auto.
      + apply IHl. intros x Hx. apply H. cbn. rewrite in_app_iff. auto.
  Qed.

  Lemma evalt_list_frame l : forall s s',
    (forall x, In x (flat_map vars l) -> s x = s' x) -> evalt_list F s l = evalt_list F s' l.
  Proof.
    induction l as [|a l IH]; intros s s' H; [reflexivity|]. cbn [evalt_list].
    rewrite (evalt_frame a s s'), (IH s s'); [reflexivity| |];
      intros x Hx; apply H; cbn; rewrite in_app_iff; auto.
  Qed.

  Lemma cond_t_frame c s s' : (forall x, In x (vars c) -> s x = s' x) -> cond_t F s c = cond_t F s' c.
  Proof. intros H. unfold cond_t. now rewrite (evalt_frame c s s' H). Qed.

  Lemma bounds_t_frame lo hi s s' :
    (forall x, In x (vars lo ++ vars hi) -> s x = s' x) -> bounds_t F s lo hi = bounds_t F s' lo hi.
  Proof.
    intros H. unfold bounds_t.
    rewrite (evalt_frame lo s s'), (evalt_frame hi s s'); [reflexivity| |];
      intros x Hx; apply H; rewrite in_app_iff; auto.
  Qed.

  Lemma nfold_nocall o s l : forall acc,
    Forall (fun e => fst (evalt F s e) = []) l -> fst (nfold_t o s acc l) = [].
  Proof.
    induction l as [|e l IH]; intros acc H; [reflexivity|]. inversion H as [|? ? He Hl]; subst.
    cbn [nfold_t]. destruct (evalt F s e) as [r [x|u]]; cbn in He; subst r; [|reflexivity].
    destruct (nstep o acc x) as [acc'|]; [|reflexivity].
    specialize (IH acc' Hl). destruct (nfold_t o s acc' l). exact IH.
  Qed.

  Lemma nocall_log e : has_call e = false -> forall s, fst (evalt F s e) = [].
  Proof.
    induction e as [z|b| |x|a IHa|c t e IHc IHt IHe|o a b IHa IHb|o l IH] using expr_ind';
      intros H s; try reflexivity.
    - cbn [evalt]. cbn [has_call] in H. specialize (IHa H s). destruct (evalt F s a). exact IHa.
    - cbn [evalt]. cbn [has_call] in H. apply orb_false_iff in H. destruct H as [H He].
      apply orb_false_iff in H. destruct H as [Hc Ht].
      specialize (IHc Hc s). specialize (IHt Ht s). specialize (IHe He s).
      destruct (evalt F s c) as [r v]. cbn in IHc. subst r.
      destruct (rbind v _) as [[|]|u]; [| |reflexivity].
      + destruct (evalt F s t). exact IHt.
      + destruct (evalt F s e). exact IHe.
    - cbn [evalt]. cbn [has_call] in H. apply orb_false_iff in H. destruct H as [Ha Hb].
      specialize (IHa Ha s). specialize (IHb Hb s).
      destruct (evalt F s a) as [r v]. cbn in IHa. subst r. destruct v as [x|u]; [|reflexivity].
      destruct (evalt F s b). exact IHb.
    - assert (Hc : forallb (fun e => negb (has_call e)) l = true /\ (forall f kw, o <> NCall f kw)).
      { destruct o; cbn [has_call] in H; try discriminate;
          (split; [|intros; discriminate]);
          (apply forallb_forall; intros x Hx; apply negb_true_iff;
           destruct (has_call x) eqn:E; [|reflexivity];
           assert (existsb has_call l = true) by (apply existsb_exists; eauto); congruence). }
      destruct Hc as [Hl Hn].
      assert (Hall : Forall (fun e => fst (evalt F s e) = []) l).
      { clear H Hn. induction IH as [|a l Ha _ IHl]; [constructor|]. cbn [forallb] in Hl.
        apply andb_true_iff in Hl. destruct Hl as [H1 H2]. apply negb_true_iff in H1. constructor; auto. }
      destruct (is_lazy o) eqn:Ho.
      + clear H Hn IH Hl. induction Hall as [|a l Ha _ IHl]; [now rewrite evalt_lazy_nil|].
        rewrite evalt_lazy_cons by exact Ho. destruct (evalt F s a) as [r v]. cbn in Ha. subst r.
        destruct (rbind v _) as [b|u]; [|reflexivity]. destruct (Bool.eqb b (absorb o)); [reflexivity|].
        destruct (evalt F s (ENary o l)). exact IHl.
      + rewrite evalt_nary by exact Ho. pose proof (nfold_nocall o s l (ninit o) Hall) as Hf.
        destruct (nfold_t o s (ninit o) l) as [r [acc|u]]; cbn in Hf; subst r; [|reflexivity].
        destruct o; try discriminate; reflexivity.
  Qed.

  Lemma nocall_cond c s : has_call c = false -> fst (cond_t F s c) = [].
  Proof. intros H. unfold cond_t. pose proof (nocall_log c H s). destruct (evalt F s c). exact H0. Qed.

  Lemma evalt_list_app s l1 l2 :
    evalt_list F s (l1 ++ l2) =
    let (r1, v1) := evalt_list F s l1 in
    match v1 with
    | Err u => (r1, Err u)
    | Ok a => let (r2, v2) := evalt_list F s l2 in (r1 ++ r2, rmap (app a) v2)
    end.
  Proof.
    induction l1 as [|a l1 IH]; cbn [evalt_list app].
    - destruct (evalt_list F s l2) as [r [v|u]]; reflexivity.
    - destruct (evalt F s a) as [r [x|u]]; [|reflexivity]. rewrite IH.
      destruct (evalt_list F s l1) as [r1 [v1|u]]; cbn; [|reflexivity].
      destruct (evalt_list F s l2) as [r2 [v2|u]]; cbn; now rewrite app_assoc.
  Qed.

  Lemma evalt_list_app_inv s p k L vs :
    evalt_list F s (p ++ k) = (L, Ok vs) ->
    exists r1 a r2 b, evalt_list F s p = (r1, Ok a) /\ evalt_list F s k = (r2, Ok b) /\
                      L = r1 ++ r2 /\ vs = a ++ b.
  Proof.
    rewrite evalt_list_app. destruct (evalt_list F s p) as [r1 [a|u]]; [|discriminate].
    destruct (evalt_list F s k) as [r2 [b|u]]; cbn; [|discriminate].
    intros H. inversion H; subst. exists r1, a, r2, b. repeat split; reflexivity.
  Qed.

  Lemma evalt_list_length s l r vs : evalt_list F s l = (r, Ok vs) -> List.length vs = List.length l.
  Proof.
    revert r vs. induction l as [|a l IH]; cbn [evalt_list]; intros r vs H.
    - now inversion H.
    - destruct (evalt F s a) as [r1 [x|u]]; [|discriminate].
      destruct (evalt_list F s l) as [r2 [v2|u]] eqn:E; cbn in H; [|discriminate].
      inversion H; subst. cbn. f_equal. eapply IH. reflexivity.
  Qed.

  (* a call statement built again from mapped operands l' (map_kind_w, isolate_call): what it evaluates *)
  Lemma evalt_call_operands s (ks : list string) l' p kv L vs :
    split_at (List.length l' - List.length ks) l' = (p, kv) -> (List.length ks <= List.length l')%nat ->
    evalt_list F s l' = (L, Ok vs) ->
    exists r1 a r2 b,
      evalt_list F s p = (r1, Ok a) /\ evalt_list F s (map snd (combine ks kv)) = (r2, Ok b) /\
      map fst (combine ks kv) = ks /\ L = r1 ++ r2 /\ vs = a ++ b /\ List.length b = List.length ks.
  Proof.
    intros Hsp Hlen E. apply split_at_spec in Hsp. destruct Hsp as [-> Hp].
    apply evalt_list_app_inv in E. destruct E as (r1 & a & r2 & b & Ep & Ek & -> & ->).
    assert (Hkv : List.length kv = List.length ks) by (rewrite app_length in *; lia).
    rewrite map_snd_combine, map_fst_combine by lia. exists r1, a, r2, b.
    rewrite (evalt_list_length _ _ _ _ Ek). auto 10.
  Qed.
End Evalt.
