(* C19 -- the round trip on the text: lexer (LexRender) + parser (PrintParseProofs). *)
From Coq Require Import List ZArith NArith String Ascii Bool Arith.
Import ListNotations.
From Dagrt Require Import GenC19 Print Parse ExprInd NormProofs2 PrintParseProofs LexRender.

Theorem roundtrip_string e :
  printable e = true -> wf_names e = true -> parse_string (print_string e) = Ok (norm e).
Proof.
  intros Hp Hn. unfold parse_string.
  assert (Hw : wf_expr e = true) by (unfold printable in Hp; apply andb_true_iff in Hp; tauto).
  rewrite (lex_print e Hn Hw). cbn [bind]. apply roundtrip_tokens. exact Hp.
Qed.

(* PrintParseRefute.full_statement with the extra hypothesis no_defect e *)
Theorem roundtrip_string_partial :
  forall e, wf_expr e = true -> wf_names e = true -> no_defect e = true ->
  exists e', parse_string (print_string e) = Ok e'
             /\ print_string e' = print_string e
             /\ vars e' = vars e
             /\ forall rho Ffun Fsub Fquot Fnegpow,
                  eval rho Ffun Fsub Fquot Fnegpow e' = eval rho Ffun Fsub Fquot Fnegpow e.
Proof.
  intros e Hw Hn Hd. exists (norm e).
  split; [apply roundtrip_string; [unfold printable; rewrite Hw, Hd; reflexivity | exact Hn]|].
  split; [unfold print_string; rewrite print_norm; reflexivity|].
  split; [apply vars_norm|]. intros. apply eval_norm.
Qed.

Example ex1_conditions : (wf_expr ex1, wf_names ex1, no_defect ex1) = (true, true, true).
Proof. vm_compute. reflexivity. Qed.
