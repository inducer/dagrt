(* The semantic invariant of the hoisting passes: hoisted cond a a' ns N, "running ns and then evaluating a' gives the
   value of a", and how it composes along the shapes of an expression and the statements a mapper emits.  No name
   generation here: that the names N are fresh is a premise about lists of variables. *)
From Coq Require Import List ZArith NArith String Ascii Bool Arith Lia Permutation.
Import ListNotations.
From Dagrt Require Import Lang LangProofs Sched Transform TransformSem TransformSide TransformBasics ListFacts.

Lemma vars_and_kids c : forall x, In x (flat_map vars (and_kids c)) <-> In x (vars c).
Proof.
  intros x. destruct c; cbn [and_kids flat_map vars]; rewrite ?app_nil_r; try tauto.
  destruct o; cbn [and_kids flat_map vars]; rewrite ?app_nil_r; tauto.
Qed.

Lemma vars_flat_and c x y : In y (vars (flat_and c x)) <-> In y (vars c) \/ In y (vars x).
Proof. unfold flat_and. cbn [vars]. rewrite flat_map_app, in_app_iff, !vars_and_kids. tauto. Qed.

Lemma incl_vars_flat_and c x K : incl (vars c) K -> incl (vars x) K -> incl (vars (flat_and c x)) K.
Proof. intros Hc Hx y Hy. apply vars_flat_and in Hy. destruct Hy; auto. Qed.

Section Hoist.
  Variable F : string -> list val -> list (string * val) -> option (list val).
  Variable dg : bool.

  Fixpoint exec_list (ns : list tstmt) (s : store) : option (list call * store) :=
    match ns with
    | [] => Some ([], s)
    | n :: r =>
        match exec_t F dg s n with
        | (l, ONext s1 None) =>
            match exec_list r s1 with
            | Some (l2, s2) => Some (l ++ l2, s2)
            | None => None
            end
        | _ => None
        end
    end.

  Lemma exec_list_app ns1 ns2 s L1 s1 L2 s2 :
    exec_list ns1 s = Some (L1, s1) -> exec_list ns2 s1 = Some (L2, s2) ->
    exec_list (ns1 ++ ns2) s = Some (L1 ++ L2, s2).
  Proof.
    revert s L1. induction ns1 as [|n r IH]; cbn [exec_list app]; intros s L1 H1 H2.
    - inversion H1; subst. exact H2.
    - destruct (exec_t F dg s n) as [l [sa [ev|]| | | | |]]; try discriminate.
      destruct (exec_list r sa) as [[l2 sb]|] eqn:E; [|discriminate].
      inversion H1; subst. rewrite (IH _ _ E H2). now rewrite app_assoc.
  Qed.

  Lemma run_leaves ns : forall s L s' evs log rest,
    exec_list ns s = Some (L, s') ->
    fold_left (fun S x => run_tree F dg x S) (map TLeaf ns ++ rest) (TRun s evs log) =
    fold_left (fun S x => run_tree F dg x S) rest (TRun s' evs (log ++ L)).
  Proof.
    induction ns as [|n r IH]; cbn [exec_list map app fold_left]; intros s L s' evs log rest H.
    - inversion H; subst. now rewrite app_nil_r.
    - cbn [run_tree step_t].
      destruct (exec_t F dg s n) as [l [sa [ev|]| | | | |]]; try discriminate.
      destruct (exec_list r sa) as [[l2 sb]|] eqn:E; [|discriminate].
      inversion H; subst. cbn [ev_list]. rewrite app_nil_r. rewrite (IH _ _ _ _ _ rest E).
      now rewrite app_assoc.
  Qed.

  Lemma cond_and_nil s : cond_t F s (ENary NAnd []) = ([], Ok true).
  Proof. reflexivity. Qed.

  Lemma cond_and_cons s a l :
    cond_t F s (ENary NAnd (a :: l)) =
    let (r, b) := cond_t F s a in
    match b with
    | Err u => (r, Err u)
    | Ok false => (r, Ok false)
    | Ok true => let (r2, b2) := cond_t F s (ENary NAnd l) in (r ++ r2, b2)
    end.
  Proof.
    unfold cond_t. rewrite evalt_and_cons. destruct (evalt F s a) as [r v].
    destruct (rbind v (fun v0 => lift (truth v0))) as [[|]|u]; try reflexivity.
    destruct (evalt F s (ENary NAnd l)) as [r2 v2]. reflexivity.
  Qed.

  Lemma cond_and_app s l1 l2 :
    cond_t F s (ENary NAnd (l1 ++ l2)) =
    let (r, b) := cond_t F s (ENary NAnd l1) in
    match b with
    | Ok true => let (r2, b2) := cond_t F s (ENary NAnd l2) in (r ++ r2, b2)
    | _ => (r, b)
    end.
  Proof.
    induction l1 as [|a l1 IH]; cbn [app].
    - rewrite cond_and_nil. destruct (cond_t F s (ENary NAnd l2)). reflexivity.
    - rewrite !cond_and_cons. destruct (cond_t F s a) as [r [[|]|u]]; try reflexivity.
      rewrite IH. destruct (cond_t F s (ENary NAnd l1)) as [r1 [[|]|u]]; try reflexivity.
      destruct (cond_t F s (ENary NAnd l2)) as [r2 b2]. now rewrite app_assoc.
  Qed.

  Lemma cond_kids s c : cond_t F s (ENary NAnd (and_kids c)) = cond_t F s c.
  Proof.
    assert (H1 : forall e, cond_t F s (ENary NAnd [e]) = cond_t F s e).
    { intros e. rewrite cond_and_cons, cond_and_nil.
      destruct (cond_t F s e) as [r [[|]|u]]; rewrite ?app_nil_r; reflexivity. }
    destruct c; try apply H1. destruct o; try apply H1. reflexivity.
  Qed.

  Definition gext (c g : expr) : Prop := exists more, and_kids g = and_kids c ++ more.

  Lemma gext_refl c : gext c c.
  Proof. exists []. now rewrite app_nil_r. Qed.

  Lemma gext_trans a b c : gext a b -> gext b c -> gext a c.
  Proof. intros [m1 H1] [m2 H2]. exists (m1 ++ m2). now rewrite H2, H1, app_assoc. Qed.

  Lemma gext_flat_and c x : gext c (flat_and c x).
  Proof. exists (and_kids x). reflexivity. Qed.

  Definition guarded (cond : expr) (ns : list tstmt) : Prop := Forall (fun n => gext cond (tcond n)) ns.

  Lemma guarded_one n : guarded (tcond n) [n].
  Proof. constructor; [apply gext_refl|constructor]. Qed.

  Lemma gext_false c g s : gext c g -> cond_t F s c = ([], Ok false) -> cond_t F s g = ([], Ok false).
  Proof.
    intros [more Hm] Hc. rewrite <- cond_kids, Hm, cond_and_app, cond_kids, Hc. reflexivity.
  Qed.

  Lemma cond_flat_and s c x :
    cond_t F s (flat_and c x) =
    let (r, b) := cond_t F s c in
    match b with
    | Ok true => let (r2, b2) := cond_t F s x in (r ++ r2, b2)
    | _ => (r, b)
    end.
  Proof. unfold flat_and. now rewrite cond_and_app, !cond_kids. Qed.

  Lemma exec_skip s n : cond_t F s (tcond n) = ([], Ok false) -> exec_t F dg s n = ([], ONext s None).
  Proof. intros H. unfold exec_t. now rewrite H. Qed.

  Lemma exec_list_skip g ns s :
    guarded g ns -> cond_t F s g = ([], Ok false) -> exec_list ns s = Some ([], s).
  Proof.
    intros Hf Hg. induction Hf as [|n r Hn _ IH]; [reflexivity|].
    cbn [exec_list]. rewrite (exec_skip s n (gext_false _ _ _ Hn Hg)). now rewrite IH.
  Qed.

  (* wherever g holds, h is false: statements guarded by (an extension of) h are skipped under g *)
  Definition excludes (g h : expr) : Prop :=
    forall s, cond_t F s g = ([], Ok true) -> cond_t F s h = ([], Ok false).

  Definition same_off (N : list var) (s s' : store) : Prop := forall x, ~ In x N -> s' x = s x.

  Lemma same_off_refl N s : same_off N s s.
  Proof. intros x _. reflexivity. Qed.

  Lemma same_off_trans N1 N2 s s1 s2 :
    same_off N1 s s1 -> same_off N2 s1 s2 -> same_off (N2 ++ N1) s s2.
  Proof.
    intros H1 H2 x Hx. rewrite H2, H1; [reflexivity| |]; intros Hn; apply Hx, in_app_iff; auto.
  Qed.

  Lemma same_off_incl N N' s s' : incl N N' -> same_off N s s' -> same_off N' s s'.
  Proof. intros Hi H x Hx. apply H. intros Hin. apply Hx, Hi, Hin. Qed.

  Lemma same_off_trans' N a b c : same_off N a b -> same_off N b c -> same_off N a c.
  Proof. intros H1 H2 x Hx. rewrite H2 by exact Hx. now apply H1. Qed.

  Lemma same_off_sym_eq N a b x : same_off N a b -> ~ In x N -> a x = b x.
  Proof. intros H Hx. symmetry. now apply H. Qed.

  Lemma same_off_upd N a b x v : same_off N a b -> same_off N (upd a x v) (upd b x v).
  Proof. intros H y Hy. unfold upd. destruct (String.eqb y x); [reflexivity|now apply H]. Qed.

  Lemma same_off_upd_r N s s' x v : same_off N s s' -> In x N -> same_off N s (upd s' x v).
  Proof. intros H Hx y Hy. rewrite upd_other by (intros ->; contradiction). now apply H. Qed.

  Lemma evalt_same_off N s s' e :
    same_off N s s' -> (forall x, In x N -> ~ In x (vars e)) -> evalt F s' e = evalt F s e.
  Proof. intros H D. apply evalt_frame. intros x Hx. apply H. intros Hn. exact (D x Hn Hx). Qed.

  Lemma evalt_list_same_off N s s' l :
    same_off N s s' -> (forall x, In x N -> ~ In x (flat_map vars l)) -> evalt_list F s' l = evalt_list F s l.
  Proof. intros H D. apply evalt_list_frame. intros x Hx. apply H. intros Hn. exact (D x Hn Hx). Qed.

  Lemma cond_same_off N s s' c :
    same_off N s s' -> (forall x, In x N -> ~ In x (vars c)) -> cond_t F s' c = cond_t F s c.
  Proof. intros H D. unfold cond_t. now rewrite (evalt_same_off N s s' c H D). Qed.

  Lemma bounds_same_off N s s' lo hi :
    same_off N s s' -> (forall x, In x N -> ~ In x (vars lo ++ vars hi)) -> bounds_t F s' lo hi = bounds_t F s lo hi.
  Proof. intros H D. apply bounds_t_frame. intros x Hx. apply H. intros Hn. exact (D x Hn Hx). Qed.

  (* Running ns and then evaluating a' gives the value of a.  The guard is evaluated once per emitted
     statement, so it must not call (log []: the side condition of call-free guards); the calls of a
     hoisted subexpression move ahead of those of its left siblings, so logs agree up to Permutation only
     (user functions are taken to be pure); exec_list admits ONext _ None only, since the emitted statements
     are assignments and calls, which neither stop nor yield. *)
  Definition hoisted (cond a a' : expr) (ns : list tstmt) (N : list var) : Prop :=
    forall s L v,
      cond_t F s cond = ([], Ok true) -> evalt F s a = (L, Ok v) ->
      exists L1 s' L2,
        exec_list ns s = Some (L1, s') /\ same_off N s s' /\
        evalt F s' a' = (L2, Ok v) /\ Permutation (L1 ++ L2) L.

  Definition hoisted_list (cond : expr) (l l' : list expr) (ns : list tstmt) (N : list var) : Prop :=
    forall s L vs,
      cond_t F s cond = ([], Ok true) -> evalt_list F s l = (L, Ok vs) ->
      exists L1 s' L2,
        exec_list ns s = Some (L1, s') /\ same_off N s s' /\
        evalt_list F s' l' = (L2, Ok vs) /\ Permutation (L1 ++ L2) L.

  Lemma hoisted_id cond a : hoisted cond a a [] [].
  Proof.
    intros s L v _ H. exists [], s, L.
    split; [reflexivity|split; [apply same_off_refl|split; [exact H|apply Permutation_refl]]].
  Qed.

  Lemma hoisted_list_nil cond : hoisted_list cond [] [] [] [].
  Proof.
    intros s L vs _ H. exists [], s, L.
    split; [reflexivity|split; [apply same_off_refl|split; [exact H|apply Permutation_refl]]].
  Qed.

  Lemma hoisted_weaken cond a a' ns N N' : incl N N' -> hoisted cond a a' ns N -> hoisted cond a a' ns N'.
  Proof.
    intros Hi H s L v Hc He. destruct (H s L v Hc He) as (L1 & s' & L2 & X1 & X2 & R).
    exists L1, s', L2. split; [exact X1|split; [exact (same_off_incl N N' s s' Hi X2)|exact R]].
  Qed.

  Lemma hoisted_skip_front g h a a' pre ns N :
    excludes g h -> guarded h pre -> hoisted g a a' ns N -> hoisted g a a' (pre ++ ns) N.
  Proof.
    intros X G H s L v Hg He. destruct (H s L v Hg He) as (L1 & s' & L2 & X1 & R).
    exists L1, s', L2. split; [|exact R].
    exact (exec_list_app pre ns s [] s L1 s' (exec_list_skip h pre s G (X s Hg)) X1).
  Qed.

  Lemma hoisted_skip_back g h a a' ns post N :
    excludes g h -> guarded h post -> (forall x, In x N -> ~ In x (vars g)) ->
    hoisted g a a' ns N -> hoisted g a a' (ns ++ post) N.
  Proof.
    intros X G D H s L v Hg He. destruct (H s L v Hg He) as (L1 & s' & L2 & X1 & X2 & R).
    exists L1, s', L2. split; [|exact (conj X2 R)].
    rewrite <- (app_nil_r L1). apply (exec_list_app ns post s L1 s' [] s' X1), (exec_list_skip h post s' G), X.
    rewrite <- Hg. exact (cond_same_off N s s' g X2 D).
  Qed.

  Lemma Permutation_app_interleave (A : Type) (a b c d : list A) x y :
    Permutation (a ++ b) x -> Permutation (c ++ d) y -> Permutation ((a ++ c) ++ (b ++ d)) (x ++ y).
  Proof.
    intros H1 H2. rewrite <- H1, <- H2. rewrite <- !app_assoc. apply Permutation_app_head.
    rewrite !app_assoc. apply Permutation_app_tail. apply Permutation_app_comm.
  Qed.

  (* N1 must miss the later operands and the guard, which are evaluated after ns1 has run; N2 must miss a', which
     is evaluated after ns2 has run. *)
  Lemma hoisted_cons cond a a' l l' ns1 ns2 N1 N2 :
    hoisted cond a a' ns1 N1 ->
    hoisted_list cond l l' ns2 N2 ->
    (forall x, In x N1 -> ~ In x (flat_map vars l) /\ ~ In x (vars cond)) ->
    (forall x, In x N2 -> ~ In x (vars a')) ->
    hoisted_list cond (a :: l) (a' :: l') (ns1 ++ ns2) (N2 ++ N1).
  Proof.
    intros H1 H2 D1 D2 s L vs Hc He. cbn [evalt_list] in He.
    destruct (evalt F s a) as [La [va|u]] eqn:Ea; [|discriminate].
    destruct (evalt_list F s l) as [Ll [vl|u]] eqn:El; cbn in He; [|discriminate].
    inversion He; subst L vs. clear He.
    destruct (H1 s La va Hc Ea) as (L1a & s1 & L2a & X1 & X2 & X3 & X4).
    assert (Hc1 : cond_t F s1 cond = ([], Ok true)).
    { rewrite <- Hc. apply (cond_same_off N1 s s1 cond X2). intros x Hn. apply (D1 x Hn). }
    assert (El1 : evalt_list F s1 l = (Ll, Ok vl)).
    { rewrite <- El. apply (evalt_list_same_off N1 s s1 l X2). intros x Hn. apply (D1 x Hn). }
    destruct (H2 s1 Ll vl Hc1 El1) as (L1l & s2 & L2l & Y1 & Y2 & Y3 & Y4).
    exists (L1a ++ L1l), s2, (L2a ++ L2l). split; [|split; [|split]].
    - eapply exec_list_app; eauto.
    - eapply same_off_trans; eauto.
    - cbn [evalt_list].
      assert (Ea2 : evalt F s2 a' = (L2a, Ok va)).
      { rewrite <- X3. exact (evalt_same_off N2 s1 s2 a' Y2 D2). }
      rewrite Ea2, Y3. reflexivity.
    - apply Permutation_app_interleave; assumption.
  Qed.

  Lemma hoisted_strict cond o l l' ns N :
    is_lazy o = false -> hoisted_list cond l l' ns N -> hoisted cond (ENary o l) (ENary o l') ns N.
  Proof.
    intros Ho H s L v Hc He.
    destruct (evalt_strict_ok F s o l L v Ho He) as (Ll & vs & Lk & El & Ek & ->).
    destruct (H s Ll vs Hc El) as (L1 & s' & L2 & X1 & X2 & X3 & X4).
    exists L1, s', (L2 ++ Lk). split; [exact X1|split; [exact X2|split]].
    - exact (evalt_strict_list F s' o l' L2 vs Lk v Ho X3 Ek).
    - rewrite app_assoc. now apply Permutation_app_tail.
  Qed.

  Lemma hoisted_bin cond o a a' b b' ns N :
    hoisted_list cond [a; b] [a'; b'] ns N -> hoisted cond (EBin o a b) (EBin o a' b') ns N.
  Proof.
    intros H s L v Hc He. cbn [evalt] in He.
    destruct (evalt F s a) as [La [va|u]] eqn:Ea; [|discriminate].
    destruct (evalt F s b) as [Lb [vb|u]] eqn:Eb; cbn in He; [|discriminate].
    assert (El : evalt_list F s [a; b] = (La ++ Lb ++ [], Ok [va; vb])).
    { cbn [evalt_list]. rewrite Ea, Eb. reflexivity. }
    destruct (H s _ _ Hc El) as (L1 & s' & L2 & X1 & X2 & X3 & X4).
    cbn [evalt_list] in X3.
    destruct (evalt F s' a') as [La' [va'|u]] eqn:Ea'; [|discriminate].
    destruct (evalt F s' b') as [Lb' [vb'|u]] eqn:Eb'; cbn in X3; [|discriminate].
    inversion X3; subst. clear X3.
    exists L1, s', (La' ++ Lb'). split; [exact X1|split; [exact X2|split]].
    - cbn [evalt]. rewrite Ea', Eb'. cbn. inversion He; subst. reflexivity.
    - inversion He; subst. rewrite !app_nil_r in X4. exact X4.
  Qed.

  (* e evaluates a first and goes on with k on its value *)
  Definition head_of (e a : expr) (k : store -> val -> list call * rs val) : Prop :=
    forall s, evalt F s e =
              let (L, r) := evalt F s a in
              match r with
              | Err u => (L, Err u)
              | Ok x => let (L2, v) := k s x in (L ++ L2, v)
              end.

  Lemma hoisted_head cond e e' a a' k ns N :
    head_of e a k -> head_of e' a' k -> (forall s s' x, same_off N s s' -> k s' x = k s x) ->
    hoisted cond a a' ns N -> hoisted cond e e' ns N.
  Proof.
    intros He He' Hk H s L v Hc E. rewrite He in E.
    destruct (evalt F s a) as [La [x|u]] eqn:Ea; [|discriminate].
    destruct (k s x) as [Lk r] eqn:Ek. inversion E; subst L r. clear E.
    destruct (H s La x Hc Ea) as (L1 & s' & L2 & X1 & X2 & X3 & X4).
    exists L1, s', (L2 ++ Lk). split; [exact X1|split; [exact X2|split]].
    - now rewrite He', X3, (Hk s s' x X2), Ek.
    - rewrite app_assoc. now apply Permutation_app_tail.
  Qed.

  Lemma head_not a : head_of (ENot a) a (fun _ x => ([], lift (option_map (fun b => VBool (negb b)) (truth x)))).
  Proof. intros s. cbn [evalt]. destruct (evalt F s a) as [L [x|u]]; cbn [rbind]; now rewrite ?app_nil_r. Qed.

  Lemma head_if c t e :
    head_of (EIf c t e) c
            (fun s x => match lift (truth x) with
                        | Err u => ([], Err u) | Ok true => evalt F s t | Ok false => evalt F s e
                        end).
  Proof.
    intros s. cbn [evalt]. destruct (evalt F s c) as [L [x|u]]; cbn [rbind]; [|reflexivity].
    destruct (lift (truth x)) as [[|]|u]; [reflexivity|reflexivity|now rewrite app_nil_r].
  Qed.

  Lemma head_lazy o a l :
    is_lazy o = true ->
    head_of (ENary o (a :: l)) a
            (fun s x => match lift (truth x) with
                        | Err u => ([], Err u)
                        | Ok b => if Bool.eqb b (absorb o) then ([], Ok (VBool b)) else evalt F s (ENary o l)
                        end).
  Proof.
    intros Ho s. rewrite evalt_lazy_cons by exact Ho. destruct (evalt F s a) as [L [x|u]]; cbn [rbind]; [|reflexivity].
    destruct (lift (truth x)) as [b|u]; [|now rewrite app_nil_r].
    destruct (Bool.eqb b (absorb o)); now rewrite ?app_nil_r.
  Qed.

  Lemma hoisted_not cond a a' ns N : hoisted cond a a' ns N -> hoisted cond (ENot a) (ENot a') ns N.
  Proof. apply (hoisted_head cond _ _ a a' _ ns N (head_not a) (head_not a')). reflexivity. Qed.

  Lemma hoisted_if_head cond c c' t e ns N :
    hoisted cond c c' ns N -> (forall x, In x N -> ~ In x (vars t ++ vars e)) ->
    hoisted cond (EIf c t e) (EIf c' t e) ns N.
  Proof.
    intros H D. apply (hoisted_head cond _ _ c c' _ ns N (head_if c t e) (head_if c' t e)); [|exact H].
    intros s s' x X. rewrite !(evalt_same_off N s s' _ X); [reflexivity| |];
      intros y Hn Hy; apply (D y Hn), in_app_iff; auto.
  Qed.

  Lemma hoisted_lazy_head cond o a a' l ns N :
    is_lazy o = true -> hoisted cond a a' ns N -> (forall x, In x N -> ~ In x (flat_map vars l)) ->
    hoisted cond (ENary o (a :: l)) (ENary o (a' :: l)) ns N.
  Proof.
    intros Ho H D. apply (hoisted_head cond _ _ a a' _ ns N (head_lazy o a l Ho) (head_lazy o a' l Ho)); [|exact H].
    intros s s' x X. now rewrite (evalt_same_off N s s' (ENary o l) X D).
  Qed.

  Lemma hoisted_and_head cond a a' l ns N :
    hoisted cond a a' ns N -> (forall x, In x N -> ~ In x (flat_map vars l)) ->
    hoisted cond (ENary NAnd (a :: l)) (ENary NAnd (a' :: l)) ns N.
  Proof. exact (hoisted_lazy_head cond NAnd a a' l ns N eq_refl). Qed.

  Lemma hoisted_or_head cond a a' l ns N :
    hoisted cond a a' ns N -> (forall x, In x N -> ~ In x (flat_map vars l)) ->
    hoisted cond (ENary NOr (a :: l)) (ENary NOr (a' :: l)) ns N.
  Proof. exact (hoisted_lazy_head cond NOr a a' l ns N eq_refl). Qed.
End Hoist.

Section Emitted.
  Variable F : string -> list val -> list (string * val) -> option (list val).
  Variable dg : bool.

  Lemma exec_assign s g name id deps a' L v :
    cond_t F s g = ([], Ok true) -> evalt F s a' = (L, Ok v) ->
    exec_t F dg s (mkT id deps g (KAssign name None a' [])) = (L, ONext (upd s name v) None).
  Proof.
    intros Hg He. unfold exec_t. cbn [tcond tkd]. rewrite Hg. cbn [exec_kind_t]. unfold assign_once_t.
    rewrite He. reflexivity.
  Qed.

  Lemma hoisted_assign cond a a' ns N name id deps :
    hoisted F dg cond a a' ns N ->
    (forall x, In x N -> ~ In x (vars cond)) ->
    hoisted F dg cond a (EVar name) (ns ++ [mkT id deps cond (KAssign name None a' [])]) (N ++ [name]).
  Proof.
    intros H Dc s L v Hc He.
    destruct (H s L v Hc He) as (L1 & s1 & L2 & X1 & X2 & X3 & X4).
    assert (Hc1 : cond_t F s1 cond = ([], Ok true)).
    { rewrite <- Hc. exact (cond_same_off F N s s1 cond X2 Dc). }
    exists (L1 ++ L2), (upd s1 name v), []. split; [|split; [|split]].
    - eapply exec_list_app; [exact X1|]. cbn [exec_list]. rewrite (exec_assign _ _ _ _ _ _ _ _ Hc1 X3).
      now rewrite app_nil_r.
    - intros x Hx. rewrite in_app_iff in Hx. rewrite upd_other.
      + apply X2. tauto.
      + intros ->. apply Hx. right. now left.
    - rewrite evalt_var. unfold getv. now rewrite upd_same.
    - now rewrite app_nil_r.
  Qed.

  Lemma hoisted_call cond f kw l l' ns N name id deps p kv :
    hoisted_list F dg cond l l' ns N ->
    split_at (List.length l' - List.length kw) l' = (p, kv) ->
    (List.length kw <= List.length l')%nat ->
    (forall x, In x N -> ~ In x (vars cond)) ->
    hoisted F dg cond (ENary (NCall f kw) l) (EVar name)
            (ns ++ [mkT id deps cond (KCall [name] f p (combine kw kv))]) (N ++ [name]).
  Proof.
    intros H Hsp Hlen Dc s L v Hc He.
    destruct (evalt_strict_ok F s (NCall f kw) l L v eq_refl He) as (Ll & vs & Lk & El & Ek & ->).
    destruct (H s Ll vs Hc El) as (L1 & s1 & L2 & X1 & X2 & X3 & X4).
    assert (Hc1 : cond_t F s1 cond = ([], Ok true)).
    { rewrite <- Hc. exact (cond_same_off F N s s1 cond X2 Dc). }
    destruct (evalt_call_operands F s1 kw l' p kv L2 vs Hsp Hlen X3) as (r1 & a & r2 & b & Ep & Eb & Hk & -> & -> & Lb).
    rewrite node_t_call in Ek. unfold call1t in Ek.
    replace (List.length (a ++ b) - List.length kw)%nat with (List.length a) in Ek by (rewrite app_length; lia).
    rewrite split_at_app_len in Ek.
    destruct (F f a (combine kw b)) as [[|v0 [|? ?]]|] eqn:EF; inversion Ek; subst Lk v0. clear Ek.
    exists (L1 ++ (r1 ++ r2 ++ [(f, a, combine kw b)])), (upd s1 name v), []. split; [|split; [|split]].
    - eapply exec_list_app; [exact X1|]. cbn [exec_list]. unfold exec_t. cbn [tcond tkd]. rewrite Hc1.
      cbn [exec_kind_t]. rewrite Ep, Eb, Hk, EF. cbn. now rewrite app_nil_r.
    - intros x Hx. rewrite in_app_iff in Hx. rewrite upd_other.
      + apply X2. tauto.
      + intros ->. apply Hx. right. now left.
    - rewrite evalt_var. unfold getv. now rewrite upd_same.
    - rewrite app_nil_r. rewrite !app_assoc. apply Permutation_app_tail. rewrite <- app_assoc. exact X4.
  Qed.

  Lemma cond_var s x v : s x = Some v -> cond_t F s (EVar x) = ([], lift (truth v)).
  Proof. intros H. unfold cond_t. rewrite evalt_var. unfold getv. rewrite H. reflexivity. Qed.

  Lemma cond_not_var s x v b :
    s x = Some v -> lift (truth v) = Ok b -> cond_t F s (ENot (EVar x)) = ([], Ok (negb b)).
  Proof.
    intros H Ht. unfold cond_t. cbn [evalt]. rewrite H. cbn [rbind].
    destruct (truth v) as [b'|]; cbn in Ht; inversion Ht; subst. reflexivity.
  Qed.

  (* The two guards map_if builds from the flag: flag_is flag b is the literal that holds when the
     flag has the truth value b. *)
  Definition flag_is (flag : var) (b : bool) : expr := if b then EVar flag else ENot (EVar flag).

  Lemma cond_flag_is s flag b :
    cond_t F s (flag_is flag b) = ([], rmap (Bool.eqb b) (lift (truth (getv s flag)))).
  Proof.
    unfold cond_t, getv. destruct b; cbn [flag_is evalt rbind]; destruct (truth _) as [[|]|]; reflexivity.
  Qed.

  Lemma vars_flag_guard cond flag b x :
    In x (vars (flat_and cond (flag_is flag b))) -> In x (vars cond) \/ x = flag.
  Proof. intros H. apply vars_flat_and in H. destruct b; destruct H as [H|[<-|[]]]; auto. Qed.

  Lemma flag_guard_holds cond flag s b :
    cond_t F s cond = ([], Ok true) -> lift (truth (getv s flag)) = Ok b ->
    cond_t F s (flat_and cond (flag_is flag b)) = ([], Ok true).
  Proof. intros Hc Hb. rewrite cond_flat_and, Hc, cond_flag_is, Hb. cbn [rmap]. now rewrite Bool.eqb_reflx. Qed.

  Lemma flag_guards_exclusive cond flag b :
    excludes F (flat_and cond (flag_is flag b)) (flat_and cond (flag_is flag (negb b))).
  Proof.
    intros s. rewrite !cond_flat_and, !cond_flag_is.
    destruct (cond_t F s cond) as [r [[|]|u]]; try discriminate.
    destruct (lift (truth (getv s flag))) as [b'|u]; [|discriminate].
    destruct b, b'; try discriminate; intros H; injection H as ->; reflexivity.
  Qed.

  Lemma evalt_if_ok s c t f L v :
    evalt F s (EIf c t f) = (L, Ok v) ->
    exists Lc vc b Le,
      evalt F s c = (Lc, Ok vc) /\ lift (truth vc) = Ok b /\
      evalt F s (if b then t else f) = (Le, Ok v) /\ L = Lc ++ Le.
  Proof.
    cbn [evalt]. destruct (evalt F s c) as [Lc [vc|u]]; cbn [rbind]; [|discriminate].
    destruct (lift (truth vc)) as [b|u] eqn:Et; [|discriminate]. intros H. exists Lc, vc, b.
    destruct (evalt F s (if b then t else f)) as [Le r] eqn:Ee. exists Le.
    destruct b; rewrite Ee in H; inversion H; auto.
  Qed.

  (* A conditional expression whose condition was hoisted into a flag, and both of whose branches were
     hoisted, each under its guard, into one block B and one expression r. *)
  Lemma hoisted_choice cond c t f flag r n1 N1 B Nb :
    hoisted F dg cond c (EVar flag) n1 N1 ->
    (forall b, hoisted F dg (flat_and cond (flag_is flag b)) (if b then t else f) r B Nb) ->
    (forall x, In x N1 -> ~ In x (vars cond ++ vars t ++ vars f)) ->
    hoisted F dg cond (EIf c t f) r (n1 ++ B) (Nb ++ N1).
  Proof.
    intros H1 HB D s L v Hc He.
    apply evalt_if_ok in He. destruct He as (Lc & vc & b & Le & Ec & Et & Ee & ->).
    destruct (H1 s Lc vc Hc Ec) as (L1 & s1 & L2 & X1 & X2 & X3 & X4).
    rewrite evalt_var in X3. injection X3 as <- Hfl. rewrite app_nil_r in X4.
    assert (Hg : cond_t F s1 (flat_and cond (flag_is flag b)) = ([], Ok true)).
    { apply flag_guard_holds; [|now rewrite Hfl]. rewrite <- Hc. apply (cond_same_off F N1 s s1 cond X2).
      intros x Hx Hin. apply (D x Hx), in_app_iff. now left. }
    assert (Ee1 : evalt F s1 (if b then t else f) = (Le, Ok v)).
    { rewrite <- Ee. apply (evalt_same_off F N1 s s1 _ X2). intros x Hx Hin. apply (D x Hx).
      rewrite !in_app_iff. destruct b; auto. }
    destruct (HB b s1 Le v Hg Ee1) as (L1b & s2 & L2b & Y1 & Y2 & Y3 & Y4).
    exists (L1 ++ L1b), s2, L2b. split; [exact (exec_list_app F dg _ _ _ _ _ _ _ X1 Y1)|].
    split; [exact (same_off_trans _ _ _ _ _ X2 Y2)|split; [exact Y3|]].
    rewrite <- app_assoc. now apply Permutation_app.
  Qed.

  Lemma hoisted_ite cond c t f c' t' f' nc nt nf Nc Nt Nf flag res i1 i2 i3 d1 d2 d3 :
    let tcnd := flat_and cond (EVar flag) in
    let fcnd := flat_and cond (ENot (EVar flag)) in
    hoisted F dg cond c c' nc Nc ->
    hoisted F dg tcnd t t' nt Nt ->
    hoisted F dg fcnd f f' nf Nf ->
    guarded tcnd nt -> guarded fcnd nf ->
    (forall x, In x Nc -> ~ In x (vars cond ++ vars t ++ vars f)) ->
    ~ In flag (vars cond ++ vars t ++ vars f) ->
    (forall x, In x Nt -> ~ In x (vars cond) /\ x <> flag) ->
    (forall x, In x Nf -> ~ In x (vars cond) /\ x <> flag) ->
    ~ In res (vars cond) -> res <> flag ->
    hoisted F dg cond (EIf c t f) (EVar res)
            (nc ++ [mkT i1 d1 cond (KAssign flag None c' [])] ++ nt ++ nf
                ++ [mkT i2 d2 tcnd (KAssign res None t' []); mkT i3 d3 fcnd (KAssign res None f' [])])
            (Nc ++ [flag] ++ Nt ++ Nf ++ [res]).
  Proof.
    intros tcnd fcnd Hc Ht Hf Gt Gf Pc Pflag Pt Pf Pres Prf.
    set (S2 := mkT i2 d2 tcnd (KAssign res None t' [])). set (S3 := mkT i3 d3 fcnd (KAssign res None f' [])).
    (* the names in the order in which the pieces below yield them *)
    assert (W : incl (((Nf ++ Nt) ++ [res]) ++ Nc ++ [flag]) (Nc ++ [flag] ++ Nt ++ Nf ++ [res]))
      by (intros x; rewrite !in_app_iff; cbn; tauto).
    apply (hoisted_weaken F dg cond _ _ _ _ _ W).
    assert (K : forall b x, In x ((Nf ++ Nt) ++ [res]) -> ~ In x (vars (flat_and cond (flag_is flag b)))).
    { intros b x Hx Hin. apply vars_flag_guard in Hin. rewrite !in_app_iff in Hx.
      destruct Hx as [[Hx|Hx]|[<-|[]]]; [apply Pf in Hx|apply Pt in Hx|]; tauto. }
    assert (K1 : forall b x, In x (Nf ++ Nt) -> ~ In x (vars (flat_and cond (flag_is flag b))))
      by (intros b x Hx; apply K, in_app_iff; now left).
    assert (Xt : excludes F tcnd fcnd) by apply (flag_guards_exclusive cond flag true).
    assert (Xf : excludes F fcnd tcnd) by apply (flag_guards_exclusive cond flag false).
    rewrite (app_assoc nc [_]). apply (hoisted_choice cond c t f flag).
    - apply hoisted_assign; [exact Hc|]. intros x Hx Hin. apply (Pc x Hx), in_app_iff. now left.
    - change (nt ++ nf ++ [S2; S3]) with (nt ++ nf ++ [S2] ++ [S3]).
      (* under either guard one block and one assignment run, the other block and assignment are skipped *)
      intros [|]; cbn [flag_is].
      + rewrite !app_assoc. apply (hoisted_skip_back F dg tcnd fcnd _ _ _ _ _ Xt (guarded_one S3) (K true)).
        apply hoisted_assign; [|exact (K1 true)].
        apply (hoisted_skip_back F dg tcnd fcnd _ _ _ _ _ Xt Gf (K1 true)).
        exact (hoisted_weaken F dg _ _ _ _ _ _ (incl_appr Nf (incl_refl Nt)) Ht).
      + rewrite (app_assoc nf). apply (hoisted_skip_front F dg fcnd tcnd _ _ _ _ _ Xf Gt).
        apply hoisted_assign; [|exact (K1 false)].
        apply (hoisted_skip_back F dg fcnd tcnd _ _ _ _ _ Xf (guarded_one S2) (K1 false)).
        exact (hoisted_weaken F dg _ _ _ _ _ _ (incl_appl Nt (incl_refl Nf)) Hf).
    - intros x Hx. apply in_app_iff in Hx. destruct Hx as [Hx|[<-|[]]]; [exact (Pc x Hx)|exact Pflag].
  Qed.

  (* The same with the names as ext yields them, all fresh and pairwise distinct. *)
  Lemma hoisted_ite_fresh cond c t f c' t' f' nc nt nf Nc Nt Nf flag res i1 i2 i3 d1 d2 d3 :
    let tcnd := flat_and cond (EVar flag) in
    let fcnd := flat_and cond (ENot (EVar flag)) in
    hoisted F dg cond c c' nc Nc ->
    hoisted F dg tcnd t t' nt Nt ->
    hoisted F dg fcnd f f' nf Nf ->
    guarded tcnd nt -> guarded fcnd nf ->
    fresh_for (vars cond ++ vars t ++ vars f) (Nf ++ Nt ++ Nc ++ [res; flag]) ->
    hoisted F dg cond (EIf c t f) (EVar res)
            (nc ++ [mkT i1 d1 cond (KAssign flag None c' [])] ++ nt ++ nf
                ++ [mkT i2 d2 tcnd (KAssign res None t' []); mkT i3 d3 fcnd (KAssign res None f' [])])
            (Nf ++ Nt ++ Nc ++ [res; flag]).
  Proof.
    intros tcnd fcnd Hc Ht Hf Gt Gf [Nd Fr].
    assert (W : incl (Nc ++ [flag] ++ Nt ++ Nf ++ [res]) (Nf ++ Nt ++ Nc ++ [res; flag]))
      by (intros x; rewrite !in_app_iff; cbn; tauto).
    apply (hoisted_weaken F dg cond _ _ _ _ _ W).
    (* the names are pairwise distinct: the flag is none of the others *)
    change [res; flag] with ([res] ++ [flag]) in Nd. rewrite !app_assoc in Nd. apply NoDup_remove_2 in Nd.
    rewrite app_nil_r, !in_app_iff in Nd.
    assert (Fr' : forall x, In x (Nf ++ Nt ++ Nc ++ [res; flag]) -> ~ In x (vars cond)).
    { intros x Hx Hin. apply (Fr x Hx), in_app_iff. now left. }
    apply hoisted_ite; try assumption.
    - intros x Hx. apply Fr. rewrite !in_app_iff. tauto.
    - apply Fr. rewrite !in_app_iff. cbn. tauto.
    - intros x Hx. split; [apply Fr'; rewrite !in_app_iff; tauto|intros ->; tauto].
    - intros x Hx. split; [apply Fr'; rewrite !in_app_iff; tauto|intros ->; tauto].
    - apply Fr'. rewrite !in_app_iff. cbn. tauto.
    - intros ->. cbn in Nd. tauto.
  Qed.
End Emitted.
