(* C20 at the emission sites, model/WrapEmit.v.  Both generators put a whitespace prefix P in
   front of every line that wrap_line returns (Fortran: line_ind = level*indentation; Python: the
   two emitters' indentation), and len(P) is the indentation_len that wrap_line_base subtracts
   from the width.  Width and token preservation are proved for such prefixed lines (Section
   Prefixed), then instantiated for Fortran get_code and Python _emit. *)
From Coq Require Import List String Ascii ZArith Bool Lia ZifyBool Arith.
Import ListNotations.
From Dagrt Require Import ListFacts Wrap WrapProofs WrapEmit.
Open Scope Z_scope.

Lemma Forall2_map2 {A B C D} (f : A -> C) (g : B -> D) (R : C -> D -> Prop) l1 l2 :
  Forall2 (fun a b => R (f a) (g b)) l1 l2 -> Forall2 R (map f l1) (map g l2).
Proof. induction 1; simpl; constructor; auto. Qed.

Lemma Forall2_join {A B C} (R1 : A -> B -> Prop) (R2 : A -> C -> Prop) l xs ys :
  Forall2 R1 l xs -> Forall2 R2 l ys -> Forall2 (fun x y => exists a, R1 a x /\ R2 a y) xs ys.
Proof.
  intros H; revert ys. induction H as [|a x l xs Hax _ IH]; intros ys H2; inversion H2; subst.
  - constructor.
  - constructor; eauto.
Qed.

Lemma times_length {A} (n : nat) (l : list A) : List.length (times n l) = (n * List.length l)%nat.
Proof.
  unfold times. induction n as [|n IH]; [reflexivity|].
  cbn [repeat List.concat]. rewrite app_length, IH. simpl. reflexivity.
Qed.

Lemma all_ws_times n (l : str) : all_ws l -> all_ws (times n l).
Proof.
  intros H. unfold times. induction n as [|n IH]; [constructor|].
  cbn [repeat List.concat]. apply all_ws_app; assumption.
Qed.

Lemma lstrip_len s : (List.length (lstrip_sp s) <= List.length s)%nat.
Proof.
  induction s as [|c r IH]; simpl; [lia|]. destruct (Ascii.eqb c sp); simpl; lia.
Qed.

Lemma leading_cons_sp r : leading_sp (sp :: r) = S (leading_sp r).
Proof.
  unfold leading_sp. cbn [lstrip_sp]. rewrite Ascii.eqb_refl.
  pose proof (lstrip_len r). simpl List.length. lia.
Qed.

Lemma leading_cons_other c r : Ascii.eqb c sp = false -> leading_sp (c :: r) = O.
Proof. intros H. unfold leading_sp. cbn [lstrip_sp]. rewrite H. lia. Qed.

Lemma leading_split s : s = repeat sp (leading_sp s) ++ lstrip_sp s.
Proof.
  induction s as [|c r IH]; [reflexivity|].
  destruct (Ascii.eqb c sp) eqn:E.
  - apply Ascii.eqb_eq in E. subst c. rewrite leading_cons_sp.
    cbn [lstrip_sp]. rewrite Ascii.eqb_refl. simpl. f_equal. exact IH.
  - rewrite (leading_cons_other c r E). cbn [lstrip_sp]. rewrite E. reflexivity.
Qed.

Lemma skipn_leading s : skipn (leading_sp s) s = lstrip_sp s.
Proof.
  induction s as [|c r IH]; [reflexivity|].
  destruct (Ascii.eqb c sp) eqn:E.
  - apply Ascii.eqb_eq in E. subst c. rewrite leading_cons_sp.
    cbn [lstrip_sp skipn]. rewrite Ascii.eqb_refl. exact IH.
  - rewrite (leading_cons_other c r E). cbn [lstrip_sp skipn]. rewrite E. reflexivity.
Qed.

Lemma lex_lstrip k s : lex_of k (lstrip_sp s) = lex_of k s.
Proof.
  rewrite (leading_split s) at 2. symmetry. apply lex_of_skip_ws. apply all_ws_repeat.
Qed.

Definition addp (P : str) (pg : str * list str) : str * list str := (P ++ fst pg, snd pg).

Lemma text_addp P pg : text (addp P pg) = P ++ text pg.
Proof. unfold text, addp. simpl. rewrite app_assoc. reflexivity. Qed.

Lemma map_addp_snd P l : map snd (map (addp P) l) = map snd l.
Proof. rewrite map_map. reflexivity. Qed.

Lemma map_render P m ilen width l :
  map (app P) (render m ilen width l) = render m (ilen - slen P) width (map (addp P) l).
Proof.
  induction l as [|pg init _] using rev_ind; [reflexivity|].
  rewrite map_app. cbn [map]. rewrite !render_snoc, map_app, !map_map. cbn [map].
  rewrite text_addp. f_equal. apply map_ext. intros pg'.
  unfold pad_with. rewrite text_addp, <- app_assoc, slen_app.
  replace (width - (ilen - slen P) - 1 - (slen P + slen (text pg')))
    with (width - ilen - 1 - slen (text pg')) by lia.
  reflexivity.
Qed.

Lemma good_addp tokok P pg : all_ws P -> good_line tokok pg -> good_line tokok (addp P pg).
Proof. intros HP [A B]. split; [apply all_ws_app|]; assumption. Qed.

(* [u] is the physical line [l] with its marker removed; a line of one token may be too long *)
Definition fits_width (k : lexkind) (width : Z) (u l : str) : Prop :=
  forall g, lex_of k u = LexOk g -> (2 <= List.length g)%nat -> slen l <= width.

Definition prefixed (m : ascii) (ind : str) (level : nat) (width : Z) (P : str) (ts : list str) : list str :=
  map (app P) (wrap_tokens (pad_with m) ind level width ts).

Section Prefixed.
  Variables (k : lexkind) (m : ascii) (ind : str) (level : nat) (width : Z) (P : str).
  Hypothesis P_ws : all_ws P.
  Hypothesis P_len : slen P = slen (times level ind).
  Hypothesis ind_ws : all_ws ind.

  Notation lay' ts := (map (addp P) (layout_of ind level width ts)).

  Lemma prefixed_render ts : prefixed m ind level width P ts = render m 0 width (lay' ts).
  Proof.
    unfold prefixed. rewrite wrap_tokens_render, map_render.
    replace (slen (times level ind) - slen P) with 0 by lia. reflexivity.
  Qed.

  Lemma prefixed_unmark ts : unmark (prefixed m ind level width P ts) = render0 0 width (lay' ts).
  Proof. rewrite prefixed_render. apply unmark_render. Qed.

  Lemma lay'_good ts : Forall (tok_of k) ts -> Forall (good_line (tok_of k)) (lay' ts).
  Proof.
    intros ts_ok. apply Forall_map.
    eapply Forall_impl; [|exact (layout_good (tok_of k) ind level width ind_ws ts ts_ok)].
    intros pg. apply good_addp, P_ws.
  Qed.

  Lemma prefixed_width ts : Forall (tok_of k) ts ->
    Forall2 (fits_width k width) (unmark (prefixed m ind level width P ts)) (prefixed m ind level width P ts).
  Proof.
    intros ts_ok. rewrite prefixed_unmark.
    (* fits_width counts the tokens the tokenizer finds on the unmarked line u; by A, u is its group, spaced, so that
       count is the length of the group (lex_of_spaced), and for the group B, wrap_width shifted by P, bounds the line *)
    pose proof (spaced_each_render0 0 width _ (lay' ts) (lay'_good ts ts_ok)) as A.
    assert (B : Forall2 (fun (pg' : str * list str) l =>
                           (2 <= List.length (snd pg'))%nat -> slen l <= width)
                        (lay' ts) (prefixed m ind level width P ts)).
    { unfold prefixed. apply Forall2_map2.
      eapply Forall2_impl; [|apply (wrap_width m ind level width ts)].
      intros pg l H H2. simpl in H2. specialize (H H2). rewrite slen_app. lia. }
    eapply Forall2_impl; [|exact (Forall2_join _ _ _ _ _ A B)].
    intros u l (pg' & Hu & Hl) g Hg Hlen. apply Hl.
    rewrite (lex_of_spaced k _ _ Hu) in Hg. inversion Hg; subst g. exact Hlen.
  Qed.

  Lemma prefixed_tokens ts : Forall (tok_of k) ts -> ind <> [] ->
    lex_of k (joined (prefixed m ind level width P ts)) = LexOk ts.
  Proof.
    intros ts_ok Hind. unfold joined. rewrite prefixed_unmark.
    rewrite (lex_of_spaced k (List.concat (map snd (lay' ts)))).
    - rewrite map_addp_snd, layout_of_concat. reflexivity.
    - apply spaced_joined_render0.
      + apply lay'_good, ts_ok.
      + destruct (layout_of_prefixes ind level width ts) as (g & rest & -> & Hp). cbn [map tl].
        apply Forall_map. eapply Forall_impl; [|exact Hp].
        intros pg E C. apply app_eq_nil in C as [_ C]. apply Hind. rewrite <- E. exact C.
  Qed.

  Lemma prefixed_tokens_lines ts : Forall (tok_of k) ts ->
    lex_all (lex_of k) (unmark (prefixed m ind level width P ts)) = LexOk ts.
  Proof.
    intros ts_ok. rewrite prefixed_unmark.
    rewrite (lex_all_groups _ _ (lay' ts) _ (lex_of_spaced k)) by apply spaced_each_render0, lay'_good, ts_ok.
    rewrite map_addp_snd, layout_of_concat. reflexivity.
  Qed.
End Prefixed.

Lemma comment_line_rest cmt line : starts_with cmt (skipn (leading_sp line) line) = comment_line cmt line.
Proof. unfold comment_line. rewrite skipn_leading. reflexivity. Qed.

(* n <> O: get_code's indent_spaces is the constant 1 *)
Lemma fortran_emit_line_eq k m cmt n width line : n <> O ->
  fortran_emit_line k m cmt n width line =
  if comment_line cmt line then EmitOk [line]
  else match lex_of k line with
       | LexOk ts => EmitOk (prefixed m (repeat sp n) (Nat.div (leading_sp line) n) width
                                      (times (Nat.div (leading_sp line) n) (repeat sp n)) ts)
       | LexValueError => EmitValueError
       end.
Proof.
  intros Hn. unfold fortran_emit_line. destruct n as [|n']; [congruence|].
  rewrite comment_line_rest. unfold wrap_line_base. rewrite skipn_leading, lex_lstrip.
  destruct (comment_line cmt line); [reflexivity|]. destruct (lex_of k line); reflexivity.
Qed.

Theorem fortran_emit_comment k m cmt n width line :
  n <> O -> comment_line cmt line = true ->
  fortran_emit_line k m cmt n width line = EmitOk [line].
Proof. intros Hn Hc. rewrite fortran_emit_line_eq, Hc by exact Hn. reflexivity. Qed.

Theorem fortran_emit_error k m cmt n width line :
  n <> O ->
  (fortran_emit_line k m cmt n width line = EmitValueError <->
   comment_line cmt line = false /\ lex_of k line = LexValueError) /\
  fortran_emit_line k m cmt n width line <> EmitZeroDivisionError /\
  fortran_emit_line k m cmt n width line <> EmitNewline.
Proof.
  intros Hn. rewrite fortran_emit_line_eq by exact Hn.
  destruct (comment_line cmt line); [repeat split; try congruence; intros (A & _); congruence|].
  destruct (lex_of k line); repeat split; try congruence; intros (_ & A); congruence.
Qed.

Definition fortran_line_ok (k : lexkind) (cmt : ascii) (width : Z) (line : str) (g : list str) : Prop :=
  (comment_line cmt line = true /\ g = [line]) \/
  (comment_line cmt line = false /\
   lex_of k (joined g) = lex_of k line /\
   Forall2 (fits_width k width) (unmark g) g).

Lemma fortran_emit_line_ok k m cmt n width line g :
  fortran_emit_line k m cmt n width line = EmitOk g -> fortran_line_ok k cmt width line g.
Proof.
  intros H. assert (Hn : n <> O) by (intros ->; discriminate). rewrite fortran_emit_line_eq in H by exact Hn.
  unfold fortran_line_ok. destruct (comment_line cmt line); [left; injection H as <-; auto|right].
  destruct (lex_of k line) as [ts|] eqn:Hl; [|discriminate]. injection H as <-.
  pose proof (lex_of_sound k line ts Hl) as Hts. pose proof (all_ws_repeat n) as Hi.
  repeat split; [apply prefixed_tokens|apply prefixed_width]; auto using all_ws_times.
  destruct n; [congruence|discriminate].
Qed.

Theorem fortran_emit_width k m cmt n width line outs :
  fortran_emit_line k m cmt n width line = EmitOk outs -> comment_line cmt line = false ->
  Forall2 (fits_width k width) (unmark outs) outs.
Proof. intros H Hc. destruct (fortran_emit_line_ok _ _ _ _ _ _ _ H) as [[C _]|(_ & _ & B)]; [congruence|exact B]. Qed.

Theorem fortran_emit_tokens k m cmt n width line outs :
  fortran_emit_line k m cmt n width line = EmitOk outs -> comment_line cmt line = false ->
  lex_of k (joined outs) = lex_of k line.
Proof. intros H Hc. destruct (fortran_emit_line_ok _ _ _ _ _ _ _ H) as [[C _]|(_ & A & _)]; [congruence|exact A]. Qed.

Lemma emit_all_groups f : forall code text,
  emit_all f code = EmitOk text ->
  exists groups, text = List.concat groups /\ Forall2 (fun line g => f line = EmitOk g) code groups.
Proof.
  induction code as [|l r IH]; intros text H; simpl in H.
  - inversion H. exists []. split; [reflexivity|constructor].
  - destruct (f l) as [a| | |] eqn:E; try discriminate.
    destruct (emit_all f r) as [b| | |] eqn:E2; try discriminate.
    inversion H; subst text. destruct (IH b eq_refl) as (gs & Eb & F).
    exists (a :: gs). split; [simpl; congruence|constructor; assumption].
Qed.

Theorem fortran_get_code_ok k m cmt n width code text :
  fortran_get_code k m cmt n width code = EmitOk text ->
  exists groups, text = List.concat groups /\
                 Forall2 (fortran_line_ok k cmt width) code groups.
Proof.
  intros H. destruct (emit_all_groups _ _ _ H) as (gs & E & F).
  exists gs. split; [exact E|]. eapply Forall2_impl; [|exact F]. intros line g. apply fortran_emit_line_ok.
Qed.

Lemma fortran_emit_line_ext k k' m cmt n width line :
  lex_of k (lstrip_sp line) = lex_of k' (lstrip_sp line) ->
  fortran_emit_line k m cmt n width line = fortran_emit_line k' m cmt n width line.
Proof. intros E. unfold fortran_emit_line, wrap_line_base. rewrite skipn_leading, E. reflexivity. Qed.

(* a statement followed by a trailing comment is no comment line: it is wrapped as one
   statement and the continuation marker lands inside the comment (finding trailing-comment) *)
Definition wit_trailing : str :=
  Str "    integer :: n_steps_between_outputs ! the number of steps between two outputs, a trailing comment that is long".

Theorem fortran_trailing_comment_refuted k :
  comment_line "!" wit_trailing = false /\
  exists outs, fortran_emit_line k "&" "!" 1 80 wit_trailing = EmitOk outs /\
               (2 <= List.length outs)%nat /\ continuation_lost "!" outs = true.
Proof.
  split; [reflexivity|].
  (* the line holds no quote, so the tokenizers agree on it and the loop is run once *)
  rewrite (fortran_emit_line_ext k LexShlex) by (destruct k as [|[|]]; reflexivity).
  eexists. split; [vm_compute; reflexivity|]. split; [apply le_n|reflexivity].
Qed.

(* Python _emit.  Hypothesis on the line: no token consists only of characters that str.strip() removes
   (the tokenizer splits at blank, tab, CR, LF only; VT, FF, FS, GS, RS, US, NEL, NBSP are
   ordinary characters for it, and a line made of them is replaced by "" by the emitter) *)
Definition no_blank_token (ts : list str) : Prop := Forall (fun t => forallb is_pyspace t = false) ts.

Lemma forallb_app_false_l {A} (f : A -> bool) a b : forallb f a = false -> forallb f (a ++ b) = false.
Proof. intros H. rewrite forallb_app, H. reflexivity. Qed.

Lemma forallb_app_false_r {A} (f : A -> bool) a b : forallb f b = false -> forallb f (a ++ b) = false.
Proof. intros H. rewrite forallb_app, H. apply andb_false_r. Qed.

Lemma join_sp_not_blank g : g <> [] -> no_blank_token g -> forallb is_pyspace (join_sp g) = false.
Proof.
  intros Hne H. destruct g as [|t r]; [congruence|]. inversion H; subst.
  simpl. apply forallb_app_false_l. assumption.
Qed.

Lemma wrapped_not_blank m ind level width ts w :
  ts <> [] -> no_blank_token ts ->
  In w (wrap_tokens (pad_with m) ind level width ts) -> forallb is_pyspace w = false.
Proof.
  intros Hne Hnb Hin. rewrite wrap_tokens_render in Hin.
  destruct (render_head _ _ _ _ _ Hin) as (pg & rest & Hpg & ->).
  pose proof (layout_of_groups_nonempty ind level width ts Hne) as Hg.
  rewrite Forall_forall in Hg. specialize (Hg pg Hpg).
  assert (Hsub : no_blank_token (snd pg)).
  { unfold no_blank_token in *. rewrite Forall_forall in *. intros t Ht. apply Hnb.
    rewrite <- (layout_of_concat ind level width ts). apply in_concat. exists (snd pg). split; [apply in_map; exact Hpg|exact Ht]. }
  apply forallb_app_false_l. unfold text. apply forallb_app_false_r.
  apply join_sp_not_blank; assumption.
Qed.

Lemma emitter_call_not_blank amount level s :
  forallb is_pyspace s = false -> emitter_call amount level s = repeat sp (amount * level) ++ s.
Proof. intros H. unfold emitter_call. rewrite H. reflexivity. Qed.

(* The line without tokens is emitted as "" by both emitters, not as the bare prefix.  For a
   line with tokens no wrapped line is blank, so both emitters prepend their indentation. *)
Lemma python_emit_empty k m amount ind width cl el line :
  lex_of k line = LexOk [] ->
  python_emit k m amount ind width cl el line = EmitOk [[]].
Proof. intros Hl. unfold python_emit, wrap_line_base. rewrite Hl. reflexivity. Qed.

Lemma python_emit_wrapped k m amount ind width cl el line outs ts :
  python_emit k m amount ind width cl el line = EmitOk outs ->
  lex_of k line = LexOk ts -> ts <> [] -> no_blank_token ts ->
  outs = prefixed m ind (cl + el) width (repeat sp (amount * cl) ++ repeat sp (amount * el)) ts.
Proof.
  intros H Hl Hne Hnb. unfold python_emit, wrap_line_base in H. rewrite Hl in H.
  destruct (existsb _ _); [discriminate|]. inversion H; subst outs. unfold prefixed.
  apply map_ext_in. intros w Hin.
  pose proof (wrapped_not_blank m ind (cl + el) width ts w Hne Hnb Hin) as Hw.
  rewrite (emitter_call_not_blank amount el w Hw).
  rewrite emitter_call_not_blank by (apply forallb_app_false_r; exact Hw).
  rewrite app_assoc. reflexivity.
Qed.

Lemma python_prefix_len amount (ind : str) cl el :
  List.length ind = amount ->
  slen (repeat sp (amount * cl) ++ repeat sp (amount * el)) = slen (times (cl + el) ind).
Proof.
  intros H. unfold slen. rewrite app_length, !repeat_length, times_length, H. lia.
Qed.

(* the width is per line, so the indentation string may be empty here; the joined tokens
   below need it non-empty *)
Theorem python_emit_width k m amount ind width cl el line outs ts :
  List.length ind = amount -> forallb is_ws ind = true ->
  python_emit k m amount ind width cl el line = EmitOk outs ->
  lex_of k line = LexOk ts -> no_blank_token ts ->
  Forall2 (fits_width k width) (unmark outs) outs.
Proof.
  intros Ha Hind H Hl Hnb. destruct ts as [|t r].
  - rewrite (python_emit_empty _ _ _ _ _ _ _ _ Hl) in H. inversion H; subst outs.
    simpl. constructor; [|constructor]. intros g Hg Hlen. rewrite lex_of_nil in Hg.
    inversion Hg; subst g. simpl in Hlen. lia.
  - rewrite (python_emit_wrapped _ _ _ _ _ _ _ _ _ _ H Hl ltac:(discriminate) Hnb).
    apply prefixed_width.
    + apply all_ws_app; apply all_ws_repeat.
    + apply python_prefix_len; assumption.
    + apply forallb_all_ws; assumption.
    + eapply lex_of_sound; eassumption.
Qed.

Theorem python_emit_tokens k m amount ind width cl el line outs ts :
  List.length ind = amount -> ws_indent ind = true ->
  python_emit k m amount ind width cl el line = EmitOk outs ->
  lex_of k line = LexOk ts -> no_blank_token ts ->
  lex_of k (joined outs) = LexOk ts.
Proof.
  intros Ha Hind H Hl Hnb. apply ws_indent_spec in Hind. destruct Hind as [Hws Hine].
  destruct ts as [|t r].
  - rewrite (python_emit_empty _ _ _ _ _ _ _ _ Hl) in H. inversion H; subst outs.
    unfold joined. simpl. apply lex_of_nil.
  - rewrite (python_emit_wrapped _ _ _ _ _ _ _ _ _ _ H Hl ltac:(discriminate) Hnb).
    apply prefixed_tokens; auto.
    + apply all_ws_app; apply all_ws_repeat.
    + apply python_prefix_len; assumption.
    + eapply lex_of_sound; eassumption.
Qed.

(* the side conditions on the generator's constants come first: props/C20.v discharges them
   by computation on the values of gen/GenC20.v *)
Theorem python_emit_ok k m amount ind width :
  List.length ind = amount -> ws_indent ind = true ->
  forall cl el line outs ts,
  python_emit k m amount ind width cl el line = EmitOk outs ->
  lex_of k line = LexOk ts -> no_blank_token ts ->
  Forall2 (fits_width k width) (unmark outs) outs /\ lex_of k (joined outs) = LexOk ts.
Proof.
  intros Ha Hind cl el line outs ts H Hl Hnb. split.
  - exact (python_emit_width k m amount ind width cl el line outs ts Ha (ws_indent_ws ind Hind) H Hl Hnb).
  - exact (python_emit_tokens k m amount ind width cl el line outs ts Ha Hind H Hl Hnb).
Qed.

Theorem python_emit_error k m amount ind width cl el line :
  (python_emit k m amount ind width cl el line = EmitValueError <-> lex_of k line = LexValueError) /\
  python_emit k m amount ind width cl el line <> EmitZeroDivisionError.
Proof.
  unfold python_emit, wrap_line_base. destruct (lex_of k line).
  - destruct (existsb _ _); repeat split; congruence.
  - repeat split; congruence.
Qed.

(* without the hypothesis on the tokens the Python emitter loses a token: a line made of a
   vertical tab is one token for the tokenizer and a blank line for the emitter *)
Definition wit_vt : str := ["011"%char].

Lemma python_emit_blank_token_lost k m amount ind width cl el :
  lex_of k wit_vt = LexOk [wit_vt] /\
  python_emit k m amount ind width cl el wit_vt = EmitOk [[]].
Proof. destruct k as [|e]; [|destruct e]; split; reflexivity. Qed.

(* Examples: the hypotheses are met by non-trivial inputs. *)
Local Open Scope string_scope.

Definition ex_fline : str :=
  Str "        write(*,*) 'step rejected! halving the step size', dagrt_state%dagrt_dt, 'and more text here'".

Example ex_fortran_not_comment : comment_line "!"%char ex_fline = false.
Proof. reflexivity. Qed.

Example ex_fortran_emit :
  fortran_emit_line (LexQuoted false) "&"%char "!"%char 1 80 ex_fline =
  EmitOk (map Str ["        write(*,*) 'step rejected! halving the step size',                     &";
                   "         dagrt_state%dagrt_dt, 'and more text here'"]).
Proof. vm_compute. reflexivity. Qed.

Example ex_fortran_comment :
  fortran_emit_line (LexQuoted false) "&"%char "!"%char 1 80 (Str "    ! a comment, however long, is not a statement") =
  EmitOk [Str "    ! a comment, however long, is not a statement"].
Proof. reflexivity. Qed.

Example ex_fortran_module :
  fortran_get_code (LexQuoted false) "&"%char "!"%char 1 20 (map Str ["module m"; "    ! c o m m e n t   l i n e"; "    x = 'a ! b' // y // z"]) =
  EmitOk (map Str ["module m"; "    ! c o m m e n t   l i n e"; "    x = 'a ! b' // &"; "     y // z"]).
Proof. vm_compute. reflexivity. Qed.

Definition ex_pline : str :=
  Str "yield self.StateComputed(t=self.t, time_id='final', component_id='a  b', state_component=self.global_state_y)".

Example ex_python_emit :
  python_emit (LexQuoted true) "\"%char 4 (Str "    ") 80 1 2 ex_pline =
  EmitOk (map Str ["            yield self.StateComputed(t=self.t, time_id='final',                \";
                   "                component_id='a  b', state_component=self.global_state_y)"]).
Proof. vm_compute. reflexivity. Qed.

Example ex_python_hyp : exists ts, lex_of (LexQuoted true) ex_pline = LexOk ts /\ no_blank_token ts /\ ts <> [].
Proof.
  eexists. split; [vm_compute; reflexivity|]. split; [|discriminate].
  repeat constructor.
Qed.
