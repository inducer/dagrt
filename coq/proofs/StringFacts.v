(* Facts about [string] that Coq 8.16's String library lacks: append, length, prefix, and the
   injectivity of the decimal printing of a counter as the models of Names.v and Fuse.v write it. *)
From Coq Require Import String Ascii Arith NArith DecimalString DecimalN.
Local Open Scope string_scope.

Lemma append_nil_r s : s ++ "" = s.
Proof. induction s as [|c s IH]; cbn; [reflexivity | now rewrite IH]. Qed.

Lemma append_assoc a b c : (a ++ b) ++ c = a ++ b ++ c.
Proof. induction a as [|x a IH]; cbn; [reflexivity | now rewrite IH]. Qed.

Lemma length_append a b : length (a ++ b) = length a + length b.
Proof. induction a as [|x a IH]; cbn; [reflexivity | now rewrite IH]. Qed.

Lemma append_inv_head p a b : p ++ a = p ++ b -> a = b.
Proof. induction p as [|c p IH]; cbn; intros H; [exact H | injection H as H; auto]. Qed.

Lemma append_neq_self a x : x <> "" -> a ++ x <> a.
Proof. intros Hx. induction a as [|c a IH]; cbn; [exact Hx | intros [= H]; exact (IH H)]. Qed.

Lemma prefix_append p s : prefix p (p ++ s) = true.
Proof.
  induction p as [|c p IH]; cbn.
  - destruct s; reflexivity.
  - destruct (ascii_dec c c); [exact IH | congruence].
Qed.

Lemma prefix_split p s : prefix p s = true -> exists r, s = p ++ r.
Proof.
  revert s; induction p as [|c p IH]; intros s H.
  - exists s; reflexivity.
  - destruct s as [|d s]; cbn in H; [discriminate|].
    destruct (ascii_dec c d) as [->|]; [|discriminate].
    destruct (IH _ H) as [r ->]. exists r; reflexivity.
Qed.

Lemma prefix_iff p s : prefix p s = true <-> exists r, s = p ++ r.
Proof. split; [apply prefix_split | intros [r ->]; apply prefix_append]. Qed.

Lemma prefix_append_l p a b : prefix p a = true -> prefix p (a ++ b) = true.
Proof. intros H. apply prefix_split in H as [r ->]. rewrite append_assoc. apply prefix_append. Qed.

Lemma string_of_N_inj a b :
  NilEmpty.string_of_uint (N.to_uint a) = NilEmpty.string_of_uint (N.to_uint b) -> a = b.
Proof.
  intros H. apply DecimalN.Unsigned.to_uint_inj.
  apply (f_equal NilEmpty.uint_of_string) in H. rewrite !NilEmpty.usu in H. congruence.
Qed.
