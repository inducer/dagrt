(* Proofs about the model of dagrt.data.unify (coq/model/Unify.v): partial-join laws. *)
From Coq Require Import List String Bool.
Import ListNotations.
From Dagrt Require Import Unify.
Open Scope string_scope.

Lemma kind_eqb_eq : forall a b, kind_eqb a b = true <-> a = b.
Proof.
  intros a b; split.
  - destruct a, b; cbn; try discriminate; try reflexivity.
    + intro H; apply Bool.eqb_prop in H; congruence.
    + intro H; apply Bool.eqb_prop in H; congruence.
    + intro H; apply String.eqb_eq in H; congruence.
  - intros ->; destruct b; cbn; auto using Bool.eqb_reflx, String.eqb_refl.
Qed.

Lemma okind_eqb_eq : forall a b, okind_eqb a b = true <-> a = b.
Proof.
  intros [a|] [b|]; cbn; split; try discriminate; try reflexivity.
  - intro H; apply kind_eqb_eq in H; congruence.
  - intro H; apply kind_eqb_eq; congruence.
Qed.

Lemma okind_eqb_refl : forall a, okind_eqb a a = true.
Proof. intro a; apply okind_eqb_eq; reflexivity. Qed.

Lemma okind_eqb_neq : forall a b, okind_eqb a b = false <-> a <> b.
Proof.
  intros a b; split.
  - intros H E; apply okind_eqb_eq in E; congruence.
  - intro H; destruct (okind_eqb a b) eqn:E; auto. apply okind_eqb_eq in E; contradiction.
Qed.

Lemma both_real_andb : forall a b, both_real a b = a && b.
Proof. intros [] []; reflexivity. Qed.

Ltac str_cases :=
  repeat match goal with
  | |- context [String.eqb ?a ?b] =>
      let E := fresh "E" in destruct (String.eqb_spec a b) as [E|E]; [subst|]
  | H : context [String.eqb ?a ?b] |- _ =>
      let E := fresh "E" in destruct (String.eqb_spec a b) as [E|E]; [subst|]
  end.

Lemma res_sim_ok : forall c x, res_sim (Ok c) x -> x = Ok c.
Proof. intros c [a|e]; cbn; [intros ->; reflexivity|contradiction]. Qed.

Lemma bind_ok : forall x f c, bind x f = Ok c -> exists j, x = Ok j /\ f j = Ok c.
Proof. intros [j|e] f c H; [exists j; split; [reflexivity|exact H]|discriminate]. Qed.

Lemma unify_none_r : forall ui ai a, unify ui ai a None = Ok a.
Proof. intros ui ai [a|]; reflexivity. Qed.

Lemma unify_bool_l : forall ui ai b r, unify ui ai (Some KBool) b = Ok r -> r = Some KBool.
Proof. intros ui ai [[]|] r [= <-]. reflexivity. Qed.

Lemma unify_bool_bool_fails : forall ui ai, unify ui ai (Some KBool) (Some KBool) = Err ValueError.
Proof. reflexivity. Qed.

Lemma unify_idem_defined : forall ui ai k, k <> Some KBool -> unify ui ai k k = Ok k.
Proof.
  intros ui ai [[| | | |i]|] H; cbn; try reflexivity.
  - contradiction.
  - destruct is_real; reflexivity.
  - destruct is_real; reflexivity.
  - rewrite String.eqb_refl; reflexivity.
Qed.

Lemma unify_idem : forall ui ai k r, unify ui ai k k = Ok r -> r = k.
Proof.
  intros ui ai k r H. destruct (okind_eqb k (Some KBool)) eqn:E.
  - apply okind_eqb_eq in E; subst; discriminate.
  - apply okind_eqb_neq in E. rewrite (unify_idem_defined _ _ _ E) in H. congruence.
Qed.

Lemma unify_comm : forall a b, res_sim (unify true true a b) (unify true true b a).
Proof.
  intros [[]|] [[]|]; cbn; str_cases; cbn; try reflexivity; try exact I; try congruence.
  all: rewrite !both_real_andb, andb_comm; reflexivity.
Qed.

(* the defective shapes: Integer is rejected by the assert when it comes second *)
Lemma unify_comm_refuted_user : forall ai,
  ~ (forall a b, res_sim (unify false ai a b) (unify false ai b a)).
Proof.
  intros ai H. specialize (H (Some KInt) (Some (KUser "y"))). cbn in H. exact H.
Qed.

Lemma unify_comm_refuted_array : forall ui,
  ~ (forall a b, res_sim (unify ui false a b) (unify ui false b a)).
Proof.
  intros ui H. specialize (H (Some KInt) (Some (KArray true))). cbn in H. exact H.
Qed.

Lemma unify_assoc : forall a b c,
  res_sim (bind (unify true true a b) (fun x => unify true true x c))
          (bind (unify true true b c) (fun y => unify true true a y)).
Proof.
  (* the is_real flags stay variables: what is left of them is associativity of && *)
  intros [[]|] [[]|] [[]|]; cbn; str_cases; cbn; str_cases; cbn;
    try reflexivity; try exact I; try congruence.
  all: rewrite !both_real_andb, andb_assoc; reflexivity.
Qed.

(* (UserType v Integer) v Scalar raises at the inner join, while UserType v (Integer v Scalar) = UserType *)
Lemma unify_assoc_refuted_user : forall ai,
  ~ (forall a b c, res_sim (bind (unify false ai a b) (fun x => unify false ai x c))
                           (bind (unify false ai b c) (fun y => unify false ai a y))).
Proof.
  intros ai H.
  specialize (H (Some (KUser "y")) (Some KInt) (Some (KScalar true))). cbn in H. exact H.
Qed.

Lemma unify_assoc_refuted_array : forall ui,
  ~ (forall a b c, res_sim (bind (unify ui false a b) (fun x => unify ui false x c))
                           (bind (unify ui false b c) (fun y => unify ui false a y))).
Proof.
  intros ui H.
  specialize (H (Some (KArray true)) (Some KInt) (Some (KScalar true))). cbn in H. exact H.
Qed.

Example unify_ex_user : unify true true (Some KInt) (Some (KUser "y")) = Ok (Some (KUser "y"))
                     /\ unify true true (Some (KUser "y")) (Some KInt) = Ok (Some (KUser "y")).
Proof. split; reflexivity. Qed.

Example unify_ex_assoc :
  bind (unify true true (Some KInt) (Some (KScalar true))) (fun x => unify true true x (Some (KArray false)))
  = Ok (Some (KArray false)).
Proof. reflexivity. Qed.

Example unify_ex_mismatch : unify true true (Some (KUser "y")) (Some (KUser "z")) = Err ValueError.
Proof. reflexivity. Qed.
