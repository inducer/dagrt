(* C09: invariants of the SymbolKindFinder work-list loops (coq/model/Kinds.v). *)
From Coq Require Import List String Bool Arith Lia.
Import ListNotations.
Open Scope string_scope.
Open Scope list_scope.
From Dagrt Require Import Kinds KindsClassProofs KindsProofs KindsTableProofs.

(* The two loops carry any preorder [Rel] on tables that one step of the work list respects, from the table
   they start with to the one they return.  [Sok] is assumed of every statement; [Post] is what processing a
   statement establishes for it, hence holds for every statement after a pass that ends with the change flag
   down. *)
Section Generic.
  Variable C : cfg.
  Variable reg : registry.
  Variable Rel : skt -> skt -> Prop.
  Variable Sok : item -> Prop.
  Variable Post : item -> skt -> Prop.
  Hypothesis Rrefl : forall T, Rel T T.
  Hypothesis Rtrans : forall a b c, Rel a b -> Rel b c -> Rel a c.
  Hypothesis Rproc : forall T ph s, Sok (ph, s) ->
    match proc_stmt C reg T ph s with
    | SDone T' _ => Rel T T' /\ Post (ph, s) T'
    | SRetry T' => Rel T T'
    | SFail _ => True
    end.
  Hypothesis Pmono : forall it T T', Rel T T' -> Post it T -> Post it T'.

  Lemma inner_gen : forall fuel q buf prog T T',
    (forall it, In it (q ++ buf) -> Sok it) ->
    inner C reg fuel q buf prog T = Ok T' ->
    Rel T T' /\ (schanged T' = false -> forall it, In it (q ++ buf) -> Post it T').
  Proof.
    induction fuel as [|f IH]; intros q buf prog T T' HS H; simpl in H; [discriminate|].
    destruct q as [|[ph s] q'].
    - destruct buf as [|b buf'].
      + inversion H; subst. split; [apply Rrefl | intros _ it []].
      + destruct prog.
        * apply IH in H.
          -- rewrite app_nil_r in H. exact H.
          -- rewrite app_nil_r. exact HS.
        * (* no progress: the pass is abandoned with the change flag set (statements are left over,
             nothing is claimed about them), or the run fails *)
          destruct (finder_restarts C && schanged T) eqn:Er; [|discriminate].
          inversion H; subst T'. apply andb_prop in Er. destruct Er as [_ Ech].
          split; [apply Rrefl | intros Hc; congruence].
    - pose proof (Rproc T ph s (HS (ph, s) (or_introl eq_refl))) as HP.
      destruct (proc_stmt C reg T ph s) as [T1 p | T1 | e]; [| |discriminate].
      + destruct HP as [HR HPost]. apply IH in H.
        * destruct H as [HR' HP']. split; [eapply Rtrans; eauto|].
          intros Hc it [E|Hin]; [subst; eapply Pmono; eauto | auto].
        * intros it Hin. apply HS. right. exact Hin.
      + apply IH in H.
        * destruct H as [HR' HP']. split; [eapply Rtrans; eauto|].
          intros Hc it Hin. apply (HP' Hc). simpl in Hin. rewrite in_app_iff in *. simpl. tauto.
        * intros it Hin. apply HS. simpl. rewrite in_app_iff in *. simpl in Hin. tauto.
  Qed.

  Hypothesis Rreset : forall T, Rel T (reset T).

  Lemma outer_gen : forall fo fi D T T',
    (forall it, In it (items_of D) -> Sok it) ->
    outer C reg fo fi D T = Ok T' ->
    Rel T T' /\ (forall it, In it (items_of D) -> Post it T') /\ schanged T' = false.
  Proof.
    induction fo as [|f IH]; intros fi D T T' HS H; simpl in H; [discriminate|].
    destruct (inner C reg fi (rev (items_of D)) [] false (reset T)) as [T1|e] eqn:E; [|discriminate].
    apply inner_gen in E.
    - destruct E as [HR HP]. destruct (schanged T1) eqn:Ech.
      + apply IH in H; [|exact HS]. destruct H as [HR' [HP' Hc]]. split; [|split; assumption].
        eapply Rtrans; [apply Rreset|]. eapply Rtrans; eauto.
      + inversion H; subst. split; [eapply Rtrans; [apply Rreset | exact HR]|]. split; [|exact Ech].
        intros it Hin. apply (HP eq_refl). rewrite app_nil_r. apply in_rev in Hin. exact Hin.
    - intros it Hin. rewrite app_nil_r in Hin. apply in_rev in Hin. apply HS. exact Hin.
  Qed.
End Generic.

Lemma in_items_of : forall D ph s,
  In (ph, s) (items_of D) <-> exists stmts, In (ph, stmts) D /\ In s stmts.
Proof.
  intros D ph s. unfold items_of. rewrite in_flat_map. split.
  - intros [[p l] [HD Hin]]. simpl in Hin. apply in_map_iff in Hin. destruct Hin as [s' [E Hs]].
    inversion E; subst. eauto.
  - intros [stmts [HD Hs]]. exists (ph, stmts). split; [assumption|]. simpl. apply in_map_iff. eauto.
Qed.

Definition set_loops (C : cfg) (T : skt) (ph : string) (loops : list string) : skt :=
  fold_left (fun T i => tset C T ph i (Some KInt)) loops T.

(* `for ident in stmt.loops: set(ident, Integer)` is set_many with Integer kinds *)
Lemma set_loops_many : forall C T ph loops,
  set_loops C T ph loops = set_many C T ph loops (map (fun _ => KInt) loops).
Proof. intros C T ph loops. revert T. induction loops as [|i loops IH]; intros T; simpl; [reflexivity | apply IH]. Qed.

Section Folds.
  Variable C : cfg.
  Variable Rel : skt -> skt -> Prop.
  Hypothesis Rrefl : forall T, Rel T T.
  Hypothesis Rtrans : forall a b c, Rel a b -> Rel b c -> Rel a c.
  Hypothesis Rtset : forall T ph x k, Rel T (tset C T ph x (Some k)).

  Lemma set_many_rel : forall T ph xs ks, Rel T (set_many C T ph xs ks).
  Proof.
    intros T ph xs. revert T. induction xs as [|x xs IH]; intros T ks; simpl; [apply Rrefl|].
    destruct ks as [|k ks]; [apply Rrefl|]. eapply Rtrans; [apply Rtset | apply IH].
  Qed.

  Lemma loops_rel : forall T ph loops, Rel T (set_loops C T ph loops).
  Proof. intros T ph loops. rewrite set_loops_many. apply set_many_rel. Qed.

  Lemma apply_forced_rel : forall forced T, Rel T (apply_forced C forced T).
  Proof.
    unfold apply_forced. induction forced as [|[[ph x] k] forced IH]; intros T; simpl; [apply Rrefl|].
    eapply Rtrans; [apply Rtset | apply IH].
  Qed.

  Lemma apply_loops_rel : forall D T, Rel T (apply_loops C D T).
  Proof.
    intros D. unfold apply_loops. induction (items_of D) as [|[ph s] l IH]; intros T; simpl; [apply Rrefl|].
    eapply Rtrans; [|apply IH]. destruct s; try apply Rrefl. apply loops_rel.
  Qed.
End Folds.

Lemma infer_inv : forall C reg fo fi D forced T,
  infer C reg fo fi D forced = Ok T ->
  let T0 := apply_loops C D (apply_forced C forced init_table) in
  raised C T0 = None /\ outer C reg fo fi D T0 = Ok T /\ final_check C reg T D = None.
Proof.
  intros C reg fo fi D forced T H T0. unfold infer in H. fold T0 in H.
  destruct (raised C T0); [discriminate|].
  destruct (outer C reg fo fi D T0) as [T1|e]; [|discriminate].
  destruct (final_check C reg T1 D) eqn:E; [discriminate|]. inversion H; subst. auto.
Qed.

Lemma infer_start_raised : forall C reg fo fi D forced T,
  infer C reg fo fi D forced = Ok T -> raised C (apply_loops C D (apply_forced C forced init_table)) = None.
Proof. intros C reg fo fi D forced T H. destruct (infer_inv _ _ _ _ _ _ _ H) as [H0 _]. exact H0. Qed.

Lemma infer_outer : forall C reg fo fi D forced T,
  infer C reg fo fi D forced = Ok T ->
  outer C reg fo fi D (apply_loops C D (apply_forced C forced init_table)) = Ok T.
Proof. intros C reg fo fi D forced T H. destruct (infer_inv _ _ _ _ _ _ _ H) as [_ [E _]]. exact E. Qed.

Lemma infer_final_check : forall C reg fo fi D forced T,
  infer C reg fo fi D forced = Ok T -> final_check C reg T D = None.
Proof. intros C reg fo fi D forced T H. destruct (infer_inv _ _ _ _ _ _ _ H) as [_ [_ Ef]]. exact Ef. Qed.

Section ProcSpec.
  Variable C : cfg.
  Variable reg : registry.

  (* In [ps_assign] the mapper's local table is the phase's dict after the loop identifiers were set, or a
     disconnected empty one if the phase had none before. *)
  Inductive proc_spec (T : skt) (ph : string) : stmt -> step_res -> Prop :=
  | ps_fail s e : proc_spec T ph s (SFail e)
  | ps_store x rhs loops :
      raised C (set_loops C T ph loops) = None ->
      proc_spec T ph (SAssign x true rhs loops) (SDone (set_loops C T ph loops) false)
  | ps_assign_retry x rhs loops :
      raised C (set_loops C T ph loops) = None ->
      proc_spec T ph (SAssign x false rhs loops) (SRetry (set_loops C T ph loops))
  | ps_assign x rhs loops L k :
      let T1 := set_loops C T ph loops in
      raised C T1 = None ->
      L = local_of T1 ph \/ (L = [] /\ alookup (sp T) ph = None) ->
      kmap C reg (sg T1) L rhs = Ok k ->
      raised C (tset C T1 ph x k) = None ->
      proc_spec T ph (SAssign x false rhs loops) (SDone (tset C T1 ph x k) true)
  | ps_call_retry xs f args kwn : proc_spec T ph (SCall xs f args kwn) (SRetry T)
  | ps_call xs f args kwn ks :
      kcall C reg f (map (kmap C reg (sg T) (local_of T ph)) args) kwn = Ok ks ->
      raised C (set_many C T ph xs ks) = None ->
      proc_spec T ph (SCall xs f args kwn) (SDone (set_many C T ph xs ks) true)
  | ps_other : proc_spec T ph SOther (SDone T false).

  Lemma proc_stmt_spec : forall T ph s, proc_spec T ph s (proc_stmt C reg T ph s).
  Proof.
    intros T ph s. destruct s as [x has_sub rhs loops | xs f args kwn |]; simpl; [| |constructor].
    - fold (set_loops C T ph loops).
      destruct (raised C (set_loops C T ph loops)) eqn:E1; [constructor|].
      destruct has_sub; [constructor; exact E1|].
      set (L := match alookup (sp T) ph with Some _ => local_of (set_loops C T ph loops) ph | None => [] end).
      destruct (kmap C reg (sg (set_loops C T ph loops)) L rhs) as [k|e] eqn:Ek.
      + destruct (raised C (tset C (set_loops C T ph loops) ph x k)) eqn:E2; [constructor|].
        apply ps_assign with (L := L); try assumption. subst L. destruct (alookup (sp T) ph); auto.
      + destruct e; constructor; exact E1.
    - destruct (kcall C reg f (map (kmap C reg (sg T) (local_of T ph)) args) kwn) as [ks|e] eqn:Ek.
      + destruct (raised C (set_many C T ph xs ks)) eqn:E2; constructor; assumption.
      + destruct e; constructor.
  Qed.

  (* the outcomes that count as processed, by statement *)
  Lemma proc_stmt_done : forall T ph s T' p,
    proc_stmt C reg T ph s = SDone T' p ->
    match s with
    | SAssign x true _ loops => T' = set_loops C T ph loops
    | SAssign x false rhs loops =>
        exists L k, (L = local_of (set_loops C T ph loops) ph \/ (L = [] /\ alookup (sp T) ph = None)) /\
                    kmap C reg (sg (set_loops C T ph loops)) L rhs = Ok k /\
                    T' = tset C (set_loops C T ph loops) ph x k
    | SCall xs f args kwn =>
        exists ks, kcall C reg f (map (kmap C reg (sg T) (local_of T ph)) args) kwn = Ok ks /\
                   T' = set_many C T ph xs ks
    | SOther => T' = T
    end.
  Proof.
    intros T ph s T' p E. destruct (proc_stmt_spec T ph s); try discriminate E; injection E as <- _; eauto.
  Qed.

  Variable Rel : skt -> skt -> Prop.
  Variable Sok : item -> Prop.
  Hypothesis Rrefl : forall T, Rel T T.
  Hypothesis Rtrans : forall a b c, Rel a b -> Rel b c -> Rel a c.
  Hypothesis Rtset : forall T ph x k, Rel T (tset C T ph x (Some k)).
  (* asked for any okind: the kind inferred for a right-hand side can be None (map_power) *)
  Hypothesis Rassign : forall T ph x rhs loops L k,
    Sok (ph, SAssign x false rhs loops) -> L = local_of T ph \/ L = [] ->
    kmap C reg (sg T) L rhs = Ok k -> Rel T (tset C T ph x k).

  Lemma proc_stmt_rel : forall T ph s, Sok (ph, s) ->
    match proc_stmt C reg T ph s with SDone T' _ | SRetry T' => Rel T T' | SFail _ => True end.
  Proof.
    intros T ph s Hs.
    destruct (proc_stmt_spec T ph s) as [| | |x rhs loops L k T1 _ HL Hk _| | |];
      trivial; try (apply loops_rel; assumption); try (apply set_many_rel; assumption).
    apply Rtrans with T1; [apply loops_rel; assumption|].
    apply (Rassign T1 ph x rhs loops L k Hs); [tauto | exact Hk].
  Qed.

  Hypothesis Rreset : forall T, Rel T (reset T).

  Lemma infer_rel : forall fo fi D forced T,
    (forall it, In it (items_of D) -> Sok it) -> infer C reg fo fi D forced = Ok T -> Rel init_table T.
  Proof.
    intros fo fi D forced T HS H. pose proof (infer_outer _ _ _ _ _ _ _ H) as E.
    apply (outer_gen C reg Rel Sok (fun _ _ => True) Rrefl Rtrans) in E; auto.
    - destruct E as [E _].
      apply Rtrans with (apply_forced C forced init_table); [apply apply_forced_rel; assumption|].
      apply Rtrans with (apply_loops C D (apply_forced C forced init_table)); [|exact E].
      apply apply_loops_rel; assumption.
    - intros T0 ph s Hs. pose proof (proc_stmt_rel T0 ph s Hs). destruct (proc_stmt C reg T0 ph s); auto.
  Qed.
End ProcSpec.

Section EverySet.
  Variable C : cfg.
  Variable reg : registry.

  Lemma proc_stmt_rel_any : forall Rel : skt -> skt -> Prop,
    (forall T, Rel T T) -> (forall a b c, Rel a b -> Rel b c -> Rel a c) ->
    (forall T ph x k, Rel T (tset C T ph x k)) ->
    forall T ph s,
      match proc_stmt C reg T ph s with SDone T' _ | SRetry T' => Rel T T' | SFail _ => True end.
  Proof.
    intros Rel Rrefl Rtrans Rtset T ph s. apply (proc_stmt_rel C reg Rel (fun _ => True)); auto.
  Qed.

  Lemma infer_invariant : forall P : skt -> Prop,
    (forall T ph x k, P T -> P (tset C T ph x k)) -> (forall T, P T -> P (reset T)) -> P init_table ->
    forall fo fi D forced T, infer C reg fo fi D forced = Ok T -> P T.
  Proof.
    intros P Hset Hreset H0 fo fi D forced T H.
    apply (infer_rel C reg (fun T T' => P T -> P T') (fun _ => True)) in H; auto.
  Qed.
End EverySet.

Definition keys_kept (T T' : skt) : Prop := forall p y, lookup T p y <> None -> lookup T' p y <> None.

Definition targets_bound (reg : registry) (it : item) (T : skt) : Prop :=
  match snd it with
  | SAssign x false _ _ => lookup T (fst it) x <> None
  | SCall xs f _ _ =>
      exists s0, rlookup reg f = Some s0 /\
                 forall x, In x (firstn (sig_nres s0) xs) -> lookup T (fst it) x <> None
  | _ => True
  end.

Lemma keys_kept_refl : forall T, keys_kept T T.
Proof. intros T p y H. exact H. Qed.

Lemma keys_kept_trans : forall a b c, keys_kept a b -> keys_kept b c -> keys_kept a c.
Proof. intros a b c H1 H2 p y H. auto. Qed.

Lemma keys_kept_tset : forall C T ph x k, keys_kept T (tset C T ph x k).
Proof. intros C T ph x k p y. apply tset_keeps_keys. Qed.

Lemma keys_kept_reset : forall T, keys_kept T (reset T).
Proof. intros T p y H. exact H. Qed.

Lemma set_many_keys : forall C T ph xs ks x,
  In x (firstn (List.length ks) xs) -> lookup (set_many C T ph xs ks) ph x <> None.
Proof.
  intros C T ph xs. revert T. induction xs as [|y xs IH]; intros T ks x Hin; simpl in *.
  - destruct (List.length ks); contradiction.
  - destruct ks as [|k ks]; simpl in Hin; [contradiction|]. destruct Hin as [->|Hin]; [|apply IH; exact Hin].
    apply (set_many_rel C keys_kept keys_kept_refl keys_kept_trans (fun T ph x k => keys_kept_tset C T ph x (Some k))).
    apply tset_key.
Qed.

Lemma proc_stmt_binds_targets : forall C reg T ph s,
  match proc_stmt C reg T ph s with
  | SDone T' _ => keys_kept T T' /\ targets_bound reg (ph, s) T'
  | SRetry T' => keys_kept T T'
  | SFail _ => True
  end.
Proof.
  intros C reg T ph s.
  pose proof (proc_stmt_rel_any C reg keys_kept keys_kept_refl keys_kept_trans (keys_kept_tset C) T ph s) as HR.
  destruct (proc_stmt C reg T ph s) as [T' p| |] eqn:E; try exact HR. split; [exact HR|].
  pose proof (proc_stmt_done C reg T ph s T' p E) as HD. unfold targets_bound. simpl.
  destruct s as [x [] rhs loops | xs f args kwn |]; try exact I.
  - destruct HD as [L [k [_ [_ ->]]]]. apply tset_key.
  - destruct HD as [ks [Hk ->]]. destruct (kcall_inv _ _ _ _ _ _ Hk) as [s0 [Hf Hlen]]. exists s0.
    split; [exact Hf|]. intros x Hx. apply set_many_keys. rewrite Hlen. exact Hx.
Qed.

Lemma targets_bound_mono : forall reg it T T', keys_kept T T' -> targets_bound reg it T -> targets_bound reg it T'.
Proof.
  intros reg [ph s] T T' Hm H. unfold targets_bound in *. simpl in *.
  destruct s as [x [] rhs loops | xs f args kwn |]; auto.
  destruct H as [s0 [Hf H]]. exists s0. split; auto.
Qed.

Lemma final_stmts_calls : forall C reg T L l xs f args kwn,
  final_stmts C reg T L l = None -> In (SCall xs f args kwn) l ->
  exists s0, rlookup reg f = Some s0 /\ sig_nres s0 = List.length xs.
Proof.
  intros C reg T L l xs f args kwn. induction l as [|s l IH]; intros E Hs; simpl in *; [contradiction|].
  destruct Hs as [->|Hs].
  - destruct (kcall C reg f (map (kmap C reg (sg T) L) args) kwn); [|discriminate].
    destruct (rlookup reg f) as [s0|]; [|discriminate]. exists s0. split; [reflexivity|].
    destruct (Nat.eqb_spec (sig_nres s0) (List.length xs)); [assumption | discriminate].
  - apply IH; [|exact Hs]. destruct s as [x hs rhs loops | xs' f' args' kwn' |]; [| |exact E].
    + destruct (kmap C reg (sg T) L rhs); [exact E | discriminate].
    + destruct (kcall C reg f' (map (kmap C reg (sg T) L) args') kwn'); [|discriminate].
      destruct (rlookup reg f') as [s1|]; [|discriminate].
      destruct (Nat.eqb (sig_nres s1) (List.length xs')); [exact E | discriminate].
Qed.

Lemma final_check_calls : forall C reg T D,
  final_check C reg T D = None ->
  forall ph stmts xs f args kwn, In (ph, stmts) D -> In (SCall xs f args kwn) stmts ->
  exists s0, rlookup reg f = Some s0 /\ sig_nres s0 = List.length xs.
Proof.
  intros C reg T D. induction D as [|[p l] D IH]; intros H ph stmts xs f args kwn HD Hs; simpl in *; [contradiction|].
  destruct (final_stmts C reg T (local_of T p) l) eqn:E; [discriminate|].
  destruct HD as [[= -> ->]|HD]; [exact (final_stmts_calls _ _ _ _ _ _ _ _ _ E Hs) | eapply IH; eauto].
Qed.

Definition init_twf (C : cfg) : Prop := is_state C "<t>" = true /\ is_state C "<dt>" = true.

Lemma init_table_lookup : forall y ko,
  alookup (sg init_table) y = Some ko -> ko = Some (KScalar true) /\ (y = "<t>" \/ y = "<dt>").
Proof.
  intros y ko Hy. cbn [alookup sg init_table] in Hy.
  destruct (String.eqb_spec "<t>" y); [|destruct (String.eqb_spec "<dt>" y); [|discriminate]];
    injection Hy as <-; auto.
Qed.

Lemma init_table_twf : forall C, init_twf C -> twf C init_table.
Proof.
  intros C [Ht Hdt]. split.
  - intros y Hy. destruct (alookup (sg init_table) y) as [ko|] eqn:E; [|congruence].
    destruct (init_table_lookup y ko E) as [_ [->| ->]]; assumption.
  - intros p y Hy. unfold local_of in Hy. simpl in Hy. congruence.
Qed.

Lemma infer_twf : forall C reg fo fi D forced T,
  init_twf C -> infer C reg fo fi D forced = Ok T -> twf C T.
Proof.
  intros C reg fo fi D forced T Hinit.
  apply (infer_invariant C reg (twf C));
    [intros T0 ph x k; apply tset_twf | trivial | apply init_table_twf, Hinit].
Qed.

Theorem infer_keys : forall C reg fo fi D forced T,
  infer C reg fo fi D forced = Ok T ->
  (forall ph stmts x rhs loops, In (ph, stmts) D -> In (SAssign x false rhs loops) stmts ->
                                lookup T ph x <> None) /\
  (forall ph stmts xs f args kwn x, In (ph, stmts) D -> In (SCall xs f args kwn) stmts -> In x xs ->
                                    lookup T ph x <> None).
Proof.
  intros C reg fo fi D forced T H. pose proof (infer_outer _ _ _ _ _ _ _ H) as E.
  pose proof (infer_final_check _ _ _ _ _ _ _ H) as Ef. clear H.
  apply (outer_gen C reg keys_kept (fun _ => True) (targets_bound reg) keys_kept_refl keys_kept_trans) in E.
  - destruct E as [_ [HP _]]. split.
    + intros ph stmts x rhs loops HD Hs.
      assert (Hin : In (ph, SAssign x false rhs loops) (items_of D)) by (apply in_items_of; eauto).
      apply HP in Hin. exact Hin.
    + intros ph stmts xs f args kwn x HD Hs Hx.
      assert (Hin : In (ph, SCall xs f args kwn) (items_of D)) by (apply in_items_of; eauto).
      apply HP in Hin. unfold targets_bound in Hin. simpl in Hin. destruct Hin as [s0 [Hf Hk]].
      destruct (final_check_calls C reg T D Ef ph stmts xs f args kwn HD Hs) as [s1 [Hf1 Hn]].
      rewrite Hf in Hf1. inversion Hf1; subst s1. apply Hk. rewrite Hn. rewrite firstn_all. exact Hx.
  - intros T0 ph s _. apply proc_stmt_binds_targets.
  - apply targets_bound_mono.
  - apply keys_kept_reset.
  - auto.
Qed.
