(* Non-vacuity examples and the two refutation witnesses for C02. *)
From Coq Require Import List ZArith String Bool Arith Permutation.
Import ListNotations.
From Dagrt Require Import Lang BuilderCore Builder Sched BuilderProofs.
Open Scope string_scope.
Open Scope Z_scope.

Definition isst (x : var) : bool := is_state_of ["<t>"; "<dt>"] ["<state>"; "<p>"] x.
Definition F0 (f : string) (a : list val) (k : list (string * val)) : option (list val) := Some [VInt 0].

(* RAW, WAR, WAW, a yield (barrier) and nested guards *)
Definition ex_prog : list bcall :=
  [ BStmt (KAssign "x" None (EInt 1) []);
    BStmt (KAssign "y" None (ENary NSum [EVar "x"; EInt 1]) []);
    BStmt (KAssign "z" None (EInt 5) []);
    BIf (EBin (BCmp CLt) (EVar "x") (EInt 3));
      BStmt (KAssign "x" None (ENary NSum [EVar "y"; EInt 10]) []);
      BIf (EBin (BCmp CGt) (EVar "z") (EInt 0));
        BStmt (KAssign "w" None (EVar "z") []);
      BEndIf;
    BEndIf;
    BElse; BStmt (KAssign "w" None (EInt 0) []); BEndElse;
    BStmt (KYield "y" "t" (EInt 0) (ENary NSum [EVar "x"; EVar "w"]));
    BStmt (KAssign "<state>u" None (EVar "w") []) ].

Definition ex_built := build true true isst "<exec>" ex_prog.
Definition ex_stmts : list stmt := match ex_built with BOk b => b_stmts b | _ => [] end.

(* (stated through a match: the builder state contains closures that must not be normalised) *)
Example ex_builds : match ex_built with BOk b => List.length (b_stmts b) = 10%nat | _ => False end.
Proof. vm_compute. reflexivity. Qed.

Example ex_loopvars_ok : loopvars_ok ex_stmts empty.
Proof.
  assert (H : forallb (fun st => match loopvars (skd st) with [] => true | _ => false end) ex_stmts = true)
    by (vm_compute; reflexivity).
  intros a y Ha Hy. rewrite forallb_forall in H. specialize (H a Ha).
  (* with Ha in the context, destruct looks for its term inside ex_stmts and unfolds the whole builder run *)
  clear Ha.
  destruct (loopvars (skd a)); [destruct Hy|discriminate].
Qed.

Definition ex_sched1 : list nat := [2; 0; 1; 3; 5; 4; 6; 7; 8; 9]%nat.
Definition ex_sched2 : list nat := [0; 2; 3; 1; 5; 4; 6; 7; 8; 9]%nat.
Definition final_of (S : rstate) : list (option val) * list event :=
  match S with
  | RRun s e | RStop s e _ => (map s ["x"; "y"; "z"; "w"; "<state>u"], e)
  | RCrash _ _ => ([], [])
  end.
Example ex_schedules_agree :
  final_of (run_ids F0 true ex_stmts ex_sched1 (RRun empty [])) =
  final_of (run_ids F0 true ex_stmts (seq 0 10) (RRun empty [])) /\
  final_of (run_ids F0 true ex_stmts ex_sched2 (RRun empty [])) =
  final_of (run_ids F0 true ex_stmts (seq 0 10) (RRun empty [])) /\
  final_of (run_ids F0 true ex_stmts (seq 0 10) (RRun empty [])) =
  ([Some (VInt 12); Some (VInt 2); Some (VInt 5); Some (VInt 5); Some (VInt 5)],
   [EvYield "y" "t" (VInt 0) (VInt 17)]).
Proof. vm_compute. auto. Qed.

Example ex_sched1_respects : respects_b ex_stmts ex_sched1 = true /\ respects_b ex_stmts ex_sched2 = true.
Proof. vm_compute. auto. Qed.

(* the defective read-set shape (lhs subscript variables not declared) is refuted:
   `j <- 1; a[j] <- 7` has no edge, and the reversed schedule differs *)
Definition wit_prog : list bcall :=
  [ BStmt (KAssign "j" None (EInt 1) []); BStmt (KAssign "a" (Some (EVar "j")) (EInt 7) []) ].
Definition wit_store : store := upd (upd empty "a" (VArr [0; 0])) "j" (VInt 0).
Definition wit_final (S : rstate) : list (option val) :=
  match S with RRun s _ | RStop s _ _ => map s ["a"; "j"] | RCrash _ _ => [] end.
Lemma lhs_shape_refuted :
  match build false true isst "<exec>" wit_prog with
  | BOk b =>
      forallb (fun st => match sdeps st with [] => true | _ => false end) (b_stmts b) = true /\
      wit_final (run_ids F0 true (b_stmts b) [1; 0]%nat (RRun wit_store [])) <>
      wit_final (run_ids F0 true (b_stmts b) [0; 1]%nat (RRun wit_store []))
  | _ => False
  end.
Proof. vm_compute. split; [reflexivity|discriminate]. Qed.

(* Hypothesis A3 (loopvars_ok) of all_schedules cannot be dropped: a loop counter named like a
   variable another statement assigns is set and then deleted by the looped statement, yet it is
   in neither declared set, so `i <- 8; z <- 1 [i=0..2]` has no edge and the reversed schedule
   keeps i = 8 while program order ends with i deleted.  (Open finding of C02:
   loop_counter_shadows_variable; replayed on the real builder by corpus/C02/known_loop_counter_shadow.json.) *)
Definition a3_prog : list bcall :=
  [ BStmt (KAssign "i" None (EInt 8) []);
    BStmt (KAssign "z" None (EInt 1) [("i", EInt 0, EInt 2)]) ].
Definition a3_final (S : rstate) : list (option val) :=
  match S with RRun s _ | RStop s _ _ => map s ["i"; "z"] | RCrash _ _ => [] end.
Lemma all_schedules_without_A3_refuted :
  match build true true isst "<exec>" a3_prog with
  | BOk b =>
      respects_b (b_stmts b) [1; 0]%nat = true /\
      a3_final (run_ids F0 true (b_stmts b) [1; 0]%nat (RRun empty [])) = [Some (VInt 8); Some (VInt 1)] /\
      a3_final (run_ids F0 true (b_stmts b) [0; 1]%nat (RRun empty [])) = [None; Some (VInt 1)]
  | _ => False
  end.
Proof. vm_compute. auto. Qed.
