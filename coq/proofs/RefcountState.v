(* C12 -- the operations of the machine (alloc_check, deinit, move, use) on states that satisfy
   refcount_inv.  alloc_check and deinit succeed, keep the invariant and change only the named
   variable; so does move, unless its source was never assigned (SrcUndefined, the source
   program's own fault) or is assigned and unassociated (UseNull); use changes nothing and has the
   same two faults.  UseNull is not excluded here: it takes the invariant of the phase
   (RefcountTree.usable_assoc).
   rinv is read as two dependencies.  counted: the counter map is a function of the pointer map,
   c b = cnt_of (number of owners of b)  (clauses 1 and 2 of rinv together).  logged: the release
   log and the allocation mark depend only on which counters are live (clauses 3 and 4).
   Re-pointing a variable x changes `counted` at one block, by one owner; `logged` moves only when
   a block is born or dies.  Each operation goes through the state in which x is unassociated:
   rinv_unset_* carry the invariant there, rinv_set_* from there to x's new block. *)
From Coq Require Import List Arith Bool Lia.
Import ListNotations.
From Dagrt Require Import Refcount RefcountBase.

Definition cnt_of (n : nat) : option nat := match n with 0 => None | S _ => Some n end.

Lemma cnt_of_inj n m : cnt_of n = cnt_of m -> n = m.
Proof. destruct n, m; cbn; congruence. Qed.

Definition counted (U : list var) (vs : var -> option block) (c : block -> option nat) : Prop :=
  forall b, c b = cnt_of (owners U vs b).

Definition logged (c : block -> option nat) (nx : block) (fr : list block) : Prop :=
  (forall b, nx <= b -> c b = None) /\
  (forall b, count_occ Nat.eq_dec fr b =
             match c b with Some _ => 0 | None => if Nat.ltb b nx then 1 else 0 end).

Lemma rinv_iff U vs c nx fr : rinv U vs c nx fr <-> counted U vs c /\ logged c nx fr.
Proof.
  split.
  - intros (I1 & I2 & L). split; [|exact L]. intros b. destruct (c b) as [n|] eqn:E.
    + destruct (I1 b n E) as [-> Hn]. destruct (owners U vs b); [lia | reflexivity].
    + replace (owners U vs b) with 0; [reflexivity|]. symmetry. apply owners_zero_iff.
      intros x Hx Hv. exact (I2 x b Hx Hv E).
  - intros (H & L). split; [|split; [|exact L]].
    + intros b n E. rewrite H in E. destruct (owners U vs b); [discriminate|].
      injection E as <-. split; [reflexivity | lia].
    + intros x b Hx Hv. rewrite H. pose proof (owners_pos U vs b x Hx Hv).
      destruct (owners U vs b); [lia | discriminate].
Qed.

(* what the users of the invariant read off it, and its base case *)
Lemma rinv_no_owner U vs c nx fr b :
  rinv U vs c nx fr -> (forall x, In x U -> vs x <> Some b) -> c b = None.
Proof.
  intros H Hb. apply rinv_iff in H. destruct H as [H _]. rewrite H.
  now rewrite (proj2 (owners_zero_iff U vs b) Hb).
Qed.

Lemma rinv_released U vs c nx fr b :
  rinv U vs c nx fr -> c b = None -> count_occ Nat.eq_dec fr b = if Nat.ltb b nx then 1 else 0.
Proof. intros H Hc. apply rinv_iff in H. destruct H as [_ [_ L4]]. now rewrite L4, Hc. Qed.

Lemma rinv_empty U vs : (forall x, vs x = None) -> rinv U vs (fun _ => None) 0 [].
Proof.
  intros Hv. apply rinv_iff. split; [|split; reflexivity].
  intros b. rewrite (proj2 (owners_zero_iff U vs b)); [reflexivity|]. intros x _. now rewrite Hv.
Qed.

(* x lets go of b: one owner less *)
Lemma counted_drop U x vs c b n :
  NoDup U -> In x U -> counted U vs c -> vs x = Some b -> c b = Some (S n) ->
  counted U (upd vs x None) (upd c b (cnt_of n)).
Proof.
  intros ND Hin H Hx Hc b0. specialize (H b0). rewrite (owners_unset U vs x b0 ND Hin) in H.
  unfold points in H. rewrite Hx in H. unfold upd at 1.
  destruct (Nat.eqb_spec b0 b) as [->|Hne].
  - rewrite Nat.eqb_refl, Hc, Nat.add_1_r in H. now injection H as ->.
  - rewrite (proj2 (Nat.eqb_neq b b0)), Nat.add_0_r in H by auto. exact H.
Qed.

(* x, unassociated, takes hold of b, which had n owners (none, if b is new): one owner more *)
Lemma counted_take U x vs c b n :
  NoDup U -> In x U -> counted U (upd vs x None) c -> c b = cnt_of n ->
  counted U (upd vs x (Some b)) (upd c b (Some (S n))).
Proof.
  intros ND Hin H Hc b0. rewrite (owners_set U vs x (Some b) b0 ND Hin), <- Nat.add_comm.
  unfold upd at 1. destruct (Nat.eqb_spec b0 b) as [->|Hne].
  - rewrite Nat.eqb_refl. rewrite H in Hc. now apply cnt_of_inj in Hc as <-.
  - rewrite (proj2 (Nat.eqb_neq b b0)) by auto. apply H.
Qed.

Lemma logged_keep c nx fr b n k : c b = Some n -> logged c nx fr -> logged (upd c b (Some k)) nx fr.
Proof.
  intros Hc (L3 & L4). split; intros b1; unfold upd; destruct (Nat.eqb_spec b1 b) as [->|]; auto.
  - intros Hle. rewrite L3 in Hc by assumption. discriminate.
  - now rewrite L4, Hc.
Qed.

Lemma logged_free c nx fr b n : c b = Some n -> logged c nx fr -> logged (upd c b None) nx (b :: fr).
Proof.
  intros Hc (L3 & L4). split; intros b1; unfold upd.
  - destruct (Nat.eqb b1 b); auto.
  - cbn [count_occ]. destruct (Nat.eq_dec b b1) as [<-|Hne].
    + rewrite Nat.eqb_refl, L4, Hc. destruct (Nat.ltb_spec b nx) as [|Hle]; [reflexivity|].
      rewrite (L3 b Hle) in Hc. discriminate.
    + rewrite (proj2 (Nat.eqb_neq b1 b)) by auto. apply L4.
Qed.

Lemma logged_alloc c nx fr k : logged c nx fr -> logged (upd c nx (Some k)) (S nx) fr.
Proof.
  intros (L3 & L4). split; intros b1.
  - intros Hle. rewrite upd_other by lia. apply L3. lia.
  - rewrite L4. unfold upd. destruct (Nat.eqb_spec b1 nx) as [->|Hne].
    + now rewrite L3, Nat.ltb_irrefl.
    + destruct (c b1); [reflexivity|].
      destruct (Nat.ltb_spec b1 nx), (Nat.ltb_spec b1 (S nx)); try reflexivity; lia.
Qed.

Lemma rinv_ext U vs vs' c nx fr :
  (forall x, vs x = vs' x) -> rinv U vs c nx fr -> rinv U vs' c nx fr.
Proof.
  intros E H. apply rinv_iff in H. destruct H as [H L]. apply rinv_iff. split; [|exact L].
  intros b. rewrite H. f_equal. now apply owners_ext.
Qed.

Lemma rinv_unset_null U x vs c nx fr :
  rinv U vs c nx fr -> vs x = None -> rinv U (upd vs x None) c nx fr.
Proof.
  intros H Hx. apply (rinv_ext U vs); [|exact H].
  intros y. unfold upd. destruct (Nat.eqb_spec y x); congruence.
Qed.

(* at n = 0 the block is released, at n = S _ it stays: the two states deinit builds *)
Lemma rinv_unset_some U x vs c nx fr b n :
  NoDup U -> In x U -> rinv U vs c nx fr -> vs x = Some b -> c b = Some (S n) ->
  rinv U (upd vs x None) (upd c b (cnt_of n)) nx (match n with 0 => b :: fr | S _ => fr end).
Proof.
  intros ND Hin H Hx Hc. apply rinv_iff in H. destruct H as [H L]. apply rinv_iff.
  split; [now apply counted_drop|]. destruct n; [eapply logged_free | eapply logged_keep]; eauto.
Qed.

Lemma rinv_set_fresh U x vs c nx fr :
  NoDup U -> In x U -> rinv U (upd vs x None) c nx fr ->
  rinv U (upd vs x (Some nx)) (upd c nx (Some 1)) (S nx) fr.
Proof.
  intros ND Hin H. apply rinv_iff in H. destruct H as [H L]. apply rinv_iff.
  split; [|now apply logged_alloc]. apply (counted_take U x vs c nx 0); auto. now apply L.
Qed.

Lemma rinv_set_share U d vs c nx fr b n :
  NoDup U -> In d U -> rinv U (upd vs d None) c nx fr -> c b = Some n ->
  rinv U (upd vs d (Some b)) (upd c b (Some (S n))) nx fr.
Proof.
  intros ND Hd H Cb. apply rinv_iff in H. destruct H as [H L]. apply rinv_iff.
  split; [|now apply (logged_keep c nx fr b n)]. apply counted_take; auto.
  (* a live counter is its own cnt_of *)
  rewrite H in Cb |- *. destruct (owners U (upd vs d None) b); [discriminate | now injection Cb as <-].
Qed.

Lemma live_count U st x b :
  In x U -> refcount_inv U st -> vars st x = Some b -> exists n, cnt st b = Some (S n).
Proof.
  intros Hin H Vx. apply rinv_iff in H. destruct H as [H _]. rewrite H.
  pose proof (owners_pos U _ b x Hin Vx). destruct (owners U (vars st) b) as [|k]; [lia | now exists k].
Qed.

(* what the three writing operations do to a state: the invariant is kept and only x is touched *)
Definition repoint (U : list var) (x : var) (st st' : mstate) : Prop :=
  refcount_inv U st' /\
  (forall y, y <> x -> vars st' y = vars st y) /\
  (forall y, y <> x -> defd st' y = defd st y).

Lemma alloc_check_spec U x st :
  NoDup U -> In x U -> refcount_inv U st ->
  exists st', alloc_check x st = ONormal st' /\ repoint U x st st' /\ vars st' x <> None.
Proof.
  intros ND Hin Hinv. unfold alloc_check, repoint. cbn.
  assert (Hd : forall y, y <> x -> upd (defd st) x true y = defd st y) by (intros; now apply upd_other).
  assert (Hv : forall v y, y <> x -> upd (vars st) x v y = vars st y) by (intros; now apply upd_other).
  destruct (vars st x) as [b|] eqn:Vx.
  - destruct (live_count U st x b Hin Hinv Vx) as [[|n] Cb]; rewrite Cb.
    + eexists. split; [reflexivity|]. unfold refcount_inv. cbn. rewrite Vx.
      split; [auto | discriminate].
    + eexists. split; [reflexivity|]. unfold refcount_inv. cbn. rewrite upd_same.
      split; [split; [|exact (conj (Hv _) Hd)] | discriminate].
      apply rinv_set_fresh; auto. exact (rinv_unset_some U x _ _ _ _ b (S n) ND Hin Hinv Vx Cb).
  - eexists. split; [reflexivity|]. unfold refcount_inv. cbn. rewrite upd_same.
    split; [split; [|exact (conj (Hv _) Hd)] | discriminate].
    apply rinv_set_fresh; auto. apply rinv_unset_null; auto.
Qed.

Lemma deinit_spec U x st :
  NoDup U -> In x U -> refcount_inv U st ->
  exists st', deinit x st = ONormal st' /\ repoint U x st st' /\ vars st' x = None /\ defd st' = defd st /\
              nph st' = nph st.
Proof.
  intros ND Hin Hinv. unfold deinit, repoint. cbn.
  destruct (vars st x) as [b|] eqn:Vx; [|eexists; split; [reflexivity|]; unfold refcount_inv; cbn; auto].
  destruct (live_count U st x b Hin Hinv Vx) as [n Cb]. rewrite Cb.
  pose proof (rinv_unset_some U x _ _ _ _ b n ND Hin Hinv Vx Cb) as H.
  destruct n; (eexists; split; [reflexivity|]; unfold refcount_inv; cbn; rewrite upd_same;
               split; [split; [exact H | split; [intros y Hy; now apply upd_other | auto]] | auto]).
Qed.

Lemma move_spec U d s st :
  NoDup U -> In d U -> In s U -> s <> d -> refcount_inv U st ->
  (defd st s = false /\ move d s st = OFault (SrcUndefined s) st) \/
  (defd st s = true /\ vars st s = None /\ exists st', move d s st = OFault (UseNull s) st') \/
  (defd st s = true /\ vars st s <> None /\
   exists st', move d s st = ONormal st' /\ repoint U d st st' /\ vars st' d <> None).
Proof.
  intros ND Hd Hs Hne Hinv. unfold move.
  destruct (defd st s) eqn:Ds; [right | left; auto].
  destruct (deinit_spec U d st ND Hd Hinv) as (st1 & E & (I1 & Fr & _) & Vd & D & _).
  rewrite E. rewrite (Fr s Hne).
  destruct (vars st s) as [b|] eqn:Vs.
  - right. split; [reflexivity|]. split; [discriminate|].
    rewrite <- (Fr s Hne) in Vs. destruct (live_count U st1 s b Hs I1 Vs) as [n Cb]. rewrite Cb.
    eexists. split; [reflexivity|]. unfold repoint, refcount_inv. cbn. rewrite upd_same, D.
    split; [split; [|split; intros y Hy; rewrite upd_other by assumption; auto] | discriminate].
    apply rinv_set_share; auto. now apply rinv_unset_null.
  - left. repeat split; auto. eexists. reflexivity.
Qed.

Lemma use_spec U x st :
  In x U -> refcount_inv U st ->
  (defd st x = false /\ use x st = OFault (SrcUndefined x) st) \/
  (defd st x = true /\ vars st x = None /\ use x st = OFault (UseNull x) st) \/
  (defd st x = true /\ vars st x <> None /\ use x st = ONormal st).
Proof.
  intros Hin Hinv. unfold use. destruct (defd st x); [right | left; auto].
  destruct (vars st x) as [b|] eqn:Vx.
  - right. repeat split; try discriminate.
    destruct (live_count U st x b Hin Hinv Vx) as [n Cb]. now rewrite Cb.
  - left. auto.
Qed.

(* the one fault that is the source program's own, reading a variable it never assigned: the only
   fault that `post` (RefcountTree.v) and `Kpost` (RefcountProofs.v) let through *)
Definition is_src (f : fault) : Prop := exists x, f = SrcUndefined x.
