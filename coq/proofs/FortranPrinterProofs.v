(* Proofs about model/FortranPrinter.v: what FortranExpressionMapper prints for a tree of logical
   operators is read by Fortran's grammar as an expression with the same value, for every valuation
   of the atoms -- provided the six precedence numbers of the printer satisfy prec_ok; likewise for
   powers, read back as a tree.  Induction on the nesting depth of parentheses (top_ok).  Inside one
   depth (Section Level) an operand is either read by the reader below -- e_not below e_and below
   e_or -- or is a chain of its own level printed without parentheses, which op_chain reads. *)
From Coq Require Import List Arith Bool Lia.
Import ListNotations.
From Dagrt Require Import FortranPrinter.

Section bexp_ind'.
  Variable P : bexp -> Prop.
  Hypothesis HAtom : forall n, P (BAtom n).
  Hypothesis HNot : forall a, P a -> P (BNot a).
  Hypothesis HAnd : forall l, Forall P l -> P (BAnd l).
  Hypothesis HOr : forall l, Forall P l -> P (BOr l).
  Fixpoint bexp_ind' (e : bexp) : P e :=
    match e with
    | BAtom n => HAtom n
    | BNot a => HNot a (bexp_ind' a)
    | BAnd l => HAnd l ((fix go (l : list bexp) : Forall P l :=
                           match l with [] => Forall_nil P | x :: r => Forall_cons x (bexp_ind' x) (go r) end) l)
    | BOr l => HOr l ((fix go (l : list bexp) : Forall P l :=
                         match l with [] => Forall_nil P | x :: r => Forall_cons x (bexp_ind' x) (go r) end) l)
    end.
End bexp_ind'.

(* what may follow an expression (stop) and an .or.-operand (not_and): the rest of the text does not
   go on with an operator that the reader at that level would take up *)
Definition stop (r : list tok) : Prop := match r with TAnd :: _ | TOr :: _ => False | _ => True end.
Definition not_and (r : list tok) : Prop := match r with TAnd :: _ => False | _ => True end.

Lemma height_child l c : In c l -> height c <= fold_right (fun c m => Nat.max (height c) m) 0 l.
Proof. induction l as [|x l IH]; cbn; [intros []|]. intros [->|H]; [lia|]. specialize (IH H). lia. Qed.

Lemma wf_operands l : (match l with _ :: _ :: _ => true | _ => false end && forallb wf l) = true ->
  2 <= length l /\ forall x, In x l -> wf x = true.
Proof.
  intros H. apply andb_true_iff in H as [Hn Hall]. rewrite forallb_forall in Hall.
  split; [|exact Hall]. destruct l as [|x [|y l]]; try discriminate. cbn. lia.
Qed.

Lemma join_cons sep x (l : list (list tok)) : l <> [] -> join sep (x :: l) = x ++ sep :: join sep l.
Proof. destruct l; [congruence|reflexivity]. Qed.

Lemma tok_eqb_refl t : tok_eqb t t = true.
Proof. destruct t; cbn; auto using Nat.eqb_refl. Qed.

Definition on_value (f : bool -> bool) (o : option (bool * list tok)) : option (bool * list tok) :=
  match o with Some (b, r) => Some (f b, r) | None => None end.

(* one operator level of Fortran's grammar, .and. or .or. *)
Section Op.
  Variable rd : nat -> list tok -> option (bool * list tok).
  Variable sep : tok.
  Variables (op : bool -> bool -> bool) (unit : bool).
  Variable after : list tok -> Prop.      (* what may follow an operand *)

  (* what rd does once an operand has been read to b with r left *)
  Definition cont (b : bool) (k : nat) (r : list tok) : option (bool * list tok) :=
    match r with
    | t :: r2 => if tok_eqb t sep then on_value (op b) (rd k r2) else Some (b, r)
    | [] => Some (b, r)
    end.

  Hypothesis after_sep : forall r, after (sep :: r).
  Hypothesis op_assoc : forall a b c, op a (op b c) = op (op a b) c.
  Hypothesis op_unit : forall a, op a unit = a.

  (* cnt x: the fuel rd spends on item x; need x: the fuel it must be given for that *)
  Lemma op_chain (item : bexp -> list tok) (f : bexp -> bool) (fold : list bexp -> bool) (cnt need : bexp -> nat) :
    fold [] = unit -> (forall x l, fold (x :: l) = op (f x) (fold l)) ->
    forall l, l <> [] ->
    Forall (fun x => cnt x <= need x /\
              forall k r, after r -> need x <= k -> rd k (item x ++ r) = cont (f x) (k - cnt x) r) l ->
    forall k r, after r -> fold_right (fun x n => need x + n) 0 l <= k ->
      rd k (join sep (map item l) ++ r) = cont (fold l) (k - fold_right (fun x n => cnt x + n) 0 l) r.
  Proof.
    intros Hnil Hcons. induction l as [|x l IH]; intros Hne Hall k r Hr Hk; [congruence|].
    apply Forall_cons_iff in Hall as [[Hcx Hx] Hl]. rewrite Hcons. cbn [fold_right] in Hk |- *.
    destruct l as [|y l].
    - cbn [map join fold_right] in Hk |- *. rewrite Hnil, op_unit, Nat.add_0_r. apply Hx; [exact Hr|lia].
    - change (map item (x :: y :: l)) with (item x :: map item (y :: l)).
      rewrite join_cons by discriminate. rewrite <- app_assoc. cbn [app].
      rewrite (Hx k _ (after_sep _)) by lia. cbn [cont]. rewrite tok_eqb_refl.
      rewrite (IH ltac:(discriminate) Hl (k - cnt x) r Hr) by lia.
      rewrite Nat.sub_add_distr. destruct r as [|t r2]; cbn [cont on_value]; [reflexivity|].
      destruct (tok_eqb t sep); [|reflexivity].
      destruct (rd _ r2) as [[b2 r3]|]; cbn [on_value]; [|reflexivity]. now rewrite op_assoc.
  Qed.
End Op.

Section Round.
  Variable v : nat -> bool.
  Variables or_child or_own and_child and_own not_child not_own : nat.
  Hypothesis Hok : prec_ok or_child or_own and_child and_own not_child not_own = true.

  Notation P := (bprint or_child or_own and_child and_own not_child not_own).
  Notation bv := (beval v).

  Lemma ok_or_and : or_own <? and_child = true.
  Proof. unfold prec_ok in Hok. rewrite !andb_true_iff in Hok. tauto. Qed.
  Lemma ok_or_not : or_own <? not_child = true.
  Proof. unfold prec_ok in Hok. rewrite !andb_true_iff in Hok. tauto. Qed.
  Lemma ok_and_not : and_own <? not_child = true.
  Proof. unfold prec_ok in Hok. rewrite !andb_true_iff in Hok. tauto. Qed.

  Lemma paren0 mine ts : paren 0 mine ts = ts.
  Proof. unfold paren. destruct (mine <? 0) eqn:E; [apply Nat.ltb_lt in E; lia|reflexivity]. Qed.

  Definition parenth (q : nat) (c : bexp) : bool :=
    match c with
    | BAtom _ => false
    | BNot _ => not_own <? q
    | BAnd _ => and_own <? q
    | BOr _ => or_own <? q
    end.

  Lemma print_paren q c : parenth q c = true -> P q c = TLP :: P 0 c ++ [TRP].
  Proof.
    destruct c; cbn [parenth bprint]; try discriminate; intros H; rewrite paren0; unfold paren; rewrite H;
      reflexivity.
  Qed.

  (* The number of .and.-operands / .or.-operands that the print of c contributes to an enclosing chain.  e_and's
     fuel bounds operands, e_or's is the token count that e_top hands it; `counts` says the second covers the first. *)
  Fixpoint acount (q : nat) (c : bexp) : nat :=
    match c with
    | BAnd l => if and_own <? q then 1 else fold_right (fun x n => acount and_child x + n) 0 l
    | _ => 1
    end.
  Fixpoint ocount (q : nat) (c : bexp) : nat :=
    match c with
    | BOr l => if or_own <? q then 1 else fold_right (fun x n => ocount or_child x + n) 0 l
    | _ => 1
    end.

  Lemma paren_length q mine ts : length ts <= length (paren q mine ts).
  Proof. unfold paren. destruct (mine <? q); cbn; [rewrite app_length; cbn; lia|lia]. Qed.

  Lemma sum_le (f g : bexp -> nat) (l : list bexp) :
    Forall (fun x => f x <= g x) l ->
    fold_right (fun x n => f x + n) 0 l <= fold_right (fun x n => g x + n) 0 l.
  Proof. induction 1; cbn; lia. Qed.

  Lemma join_map_length sep q (l : list bexp) :
    fold_right (fun x n => length (P q x) + n) 0 l <= length (join sep (map (P q) l)).
  Proof.
    induction l as [|x [|y l] IH]; cbn [map join fold_right length] in *; [lia|lia|].
    rewrite app_length. cbn [length]. lia.
  Qed.

  Lemma join_counts sep q' (cnt : bexp -> nat) l : 2 <= length l ->
    Forall (fun x => 1 <= length (P q' x) /\ cnt x <= length (P q' x)) l ->
    1 <= length (join sep (map (P q') l)) /\
    fold_right (fun x n => cnt x + n) 0 l <= length (join sep (map (P q') l)).
  Proof.
    intros Hne Hf. pose proof (join_map_length sep q' l) as Hj. split.
    - destruct Hf as [|x l [Hx _] _]; [cbn in Hne; lia|]. cbn [fold_right] in Hj. lia.
    - eapply Nat.le_trans; [|exact Hj]. apply sum_le. eapply Forall_impl; [|exact Hf]. intros x Hx. apply Hx.
  Qed.

  Lemma counts c : wf c = true ->
    forall q, 1 <= length (P q c) /\ acount q c <= length (P q c) /\ ocount q c <= length (P q c).
  Proof.
    induction c as [n|a IH|l IH|l IH] using bexp_ind'; intros Hwf q.
    - cbn. lia.
    - cbn [bprint acount ocount].
      assert (1 <= length (paren q not_own (TNot :: P not_child a)))
        by (eapply Nat.le_trans; [|apply paren_length]; cbn; lia). lia.
    - cbn [wf] in Hwf. apply wf_operands in Hwf as [Hne Hall].
      destruct (join_counts TAnd and_child (acount and_child) l Hne) as [H1 H2].
      { rewrite Forall_forall in *. intros x Hx. destruct (IH x Hx (Hall x Hx) and_child) as (A & B & _). auto. }
      cbn [bprint acount ocount]. pose proof (paren_length q and_own (join TAnd (map (P and_child) l))).
      destruct (and_own <? q); lia.
    - cbn [wf] in Hwf. apply wf_operands in Hwf as [Hne Hall].
      destruct (join_counts TOr or_child (ocount or_child) l Hne) as [H1 H2].
      { rewrite Forall_forall in *. intros x Hx. destruct (IH x Hx (Hall x Hx) or_child) as (A & _ & B). auto. }
      cbn [bprint acount ocount]. pose proof (paren_length q or_own (join TOr (map (P or_child) l))).
      destruct (or_own <? q); lia.
  Qed.

  Section Level.
    (* T: the reader handed to e_prim for what stands in parentheses; it reads every tree of height below depth *)
    Variable T : list tok -> option (bool * list tok).
    Variable depth : nat.
    Hypothesis HT : forall e0 r, wf e0 = true -> height e0 < depth -> stop r -> T (P 0 e0 ++ r) = Some (bv e0, r).

    Lemma prim_paren c r : wf c = true -> height c < depth ->
      e_prim v T (TLP :: P 0 c ++ TRP :: r) = Some (bv c, r).
    Proof. intros Hw Hh. cbn [e_prim]. rewrite HT; auto. exact I. Qed.

    Lemma paren_app q c r : parenth q c = true -> P q c ++ r = TLP :: P 0 c ++ TRP :: r.
    Proof. intros Hp. rewrite (print_paren q c Hp). cbn [app]. now rewrite <- app_assoc. Qed.

    (* printed forms that are a single .and.-operand: atoms, negations, anything in parentheses *)
    Definition tight (q : nat) (c : bexp) : bool :=
      match c with BAtom _ | BNot _ => true | BAnd _ => and_own <? q | BOr _ => or_own <? q end.

    Lemma tight_ok q c r :
      wf c = true -> height c <= depth -> (parenth q c = true -> height c < depth) -> tight q c = true ->
      e_not v T (P q c ++ r) = Some (bv c, r).
    Proof.
      intros Hw Hh Hp Ht. destruct c as [n|a|l|l].
      - reflexivity.
      - destruct (parenth q (BNot a)) eqn:Ep.
        + rewrite (paren_app q _ r Ep). cbn [e_not]. apply prim_paren; auto.
        + cbn [parenth] in Ep. cbn [bprint]. unfold paren. rewrite Ep. cbn [app e_not].
          cbn [wf] in Hw. apply andb_true_iff in Hw. destruct Hw as [Hwa Hnn]. cbn [height] in Hh.
          destruct a as [n|a'|l|l].
          * reflexivity.
          * discriminate.
          * rewrite (paren_app not_child (BAnd l) r ok_and_not), prim_paren; auto; lia.
          * rewrite (paren_app not_child (BOr l) r ok_or_not), prim_paren; auto; lia.
      - cbn [tight] in Ht. rewrite (paren_app q (BAnd l) r Ht). cbn [e_not]. apply prim_paren; auto.
      - cbn [tight] in Ht. rewrite (paren_app q (BOr l) r Ht). cbn [e_not]. apply prim_paren; auto.
    Qed.

    (* printed forms that are a single .or.-operand: all but an .or. chain without parentheses *)
    Definition andable (q : nat) (c : bexp) : bool := match c with BOr _ => or_own <? q | _ => true end.

    Notation and_cont := (cont (e_and v T) TAnd andb).
    Notation or_cont := (cont (e_or v T) TOr orb).

    Lemma and_step k ts b r : 1 <= k -> e_not v T ts = Some (b, r) -> e_and v T k ts = and_cont b (k - 1) r.
    Proof.
      intros Hk E. destruct k as [|k]; [lia|]. cbn [e_and Nat.sub]. rewrite E, Nat.sub_0_r.
      now destruct r as [|[] r2].
    Qed.

    Definition and_stmt (c : bexp) : Prop :=
      forall q k r, wf c = true -> height c <= depth -> (parenth q c = true -> height c < depth) ->
        andable q c = true -> acount q c <= k ->
        e_and v T k (P q c ++ r) = and_cont (bv c) (k - acount q c) r.

    (* an operand of a level that is not a chain of that level printed without parentheses goes to the
       reader below; one that is, is a chain of smaller operands *)
    Lemma and_operand c : and_stmt c.
    Proof.
      induction c as [n|a IH|l IH|l IH] using bexp_ind'; intros q k r Hw Hh Hp Ha Hk.
      1, 2, 4: apply and_step; [exact Hk|apply tight_ok; auto].
      cbn [acount] in *. destruct (and_own <? q) eqn:Ep; [apply and_step; [exact Hk|apply tight_ok; auto]|].
      cbn [bprint beval]. unfold paren. rewrite Ep. cbn [wf] in Hw. apply wf_operands in Hw as [Hne Hall].
      apply op_chain with (rd := e_and v T) (op := andb) (unit := true) (after := fun _ => True)
                          (f := bv) (fold := forallb bv) (cnt := acount and_child) (need := acount and_child);
        [exact (fun _ => I)|exact andb_assoc|exact andb_true_r|reflexivity|reflexivity
        |intros ->; cbn in Hne; lia| |exact I|exact Hk].
      rewrite Forall_forall in *. intros x Hx. split; [lia|]. intros k' r' _ Hk'.
      cbn [height] in Hh. pose proof (height_child l x Hx).
      apply (IH x Hx); auto; try lia. destruct x; try reflexivity. apply ok_or_and.
    Qed.

    Lemma or_step k ts b r : 1 <= k -> e_and v T k ts = Some (b, r) -> e_or v T k ts = or_cont b (k - 1) r.
    Proof.
      intros Hk E. destruct k as [|k]; [lia|]. cbn [e_or Nat.sub]. rewrite E, Nat.sub_0_r.
      now destruct r as [|[] r2].
    Qed.

    (* e_or passes its fuel on to e_and, and e_top hands it a token count: hence the length where and_stmt has acount;
       an .or.-operand ends where no .and. follows *)
    Definition or_stmt (c : bexp) : Prop :=
      forall q k r, wf c = true -> height c <= depth -> (parenth q c = true -> height c < depth) ->
        not_and r -> length (P q c) <= k ->
        e_or v T k (P q c ++ r) = or_cont (bv c) (k - ocount q c) r.

    Lemma or_andable q c k r :
      wf c = true -> height c <= depth -> (parenth q c = true -> height c < depth) -> andable q c = true ->
      not_and r -> length (P q c) <= k ->
      e_or v T k (P q c ++ r) = or_cont (bv c) (k - 1) r.
    Proof.
      intros Hw Hh Hp Ha Hr Hk. destruct (counts c Hw q) as (H1 & H2 & _).
      apply or_step; [lia|]. rewrite (and_operand c q k r) by (auto; lia).
      destruct r as [|[] r2]; try reflexivity. destruct Hr.
    Qed.

    Lemma or_operand c : or_stmt c.
    Proof.
      induction c as [n|a IH|l IH|l IH] using bexp_ind'; intros q k r Hw Hh Hp Hr Hk.
      1-3: apply or_andable; auto.
      cbn [ocount]. destruct (or_own <? q) eqn:Ep; [apply or_andable; auto|].
      cbn [bprint beval] in *. unfold paren in *. rewrite Ep in *.
      cbn [wf] in Hw. pose proof Hw as Hw'. apply wf_operands in Hw as [Hne Hall].
      apply op_chain with (rd := e_or v T) (op := orb) (unit := false) (after := not_and)
                          (f := bv) (fold := existsb bv) (cnt := ocount or_child)
                          (need := fun x => length (P or_child x));
        [exact (fun _ => I)|exact orb_assoc|exact orb_false_r|reflexivity|reflexivity
        |intros ->; cbn in Hne; lia| |exact Hr|].
      - rewrite Forall_forall in *. intros x Hx. split; [apply (counts x (Hall x Hx))|]. intros k' r' Hr' Hk'.
        cbn [height] in Hh. pose proof (height_child l x Hx). apply (IH x Hx); auto; lia.
      - eapply Nat.le_trans; [apply (join_map_length TOr)|exact Hk].
    Qed.

    Lemma level_ok e r : wf e = true -> height e <= depth -> stop r ->
      e_or v T (length (P 0 e ++ r)) (P 0 e ++ r) = Some (bv e, r).
    Proof.
      intros Hw Hh Hs.
      assert (Hp : parenth 0 e = true -> height e < depth).
      { destruct e; cbn; intros E; try discriminate; apply Nat.ltb_lt in E; lia. }
      rewrite (or_operand e 0 (length (P 0 e ++ r)) r Hw Hh Hp).
      - destruct r as [|[] r2]; try reflexivity; destruct Hs.
      - destruct r as [|[] r2]; try exact I; destruct Hs.
      - rewrite app_length. lia.
    Qed.
  End Level.

  Theorem top_ok : forall f e r, wf e = true -> height e <= f -> stop r ->
    e_top v (S f) (P 0 e ++ r) = Some (bv e, r).
  Proof.
    induction f as [|f IH]; intros e r Hw Hh Hs; cbn [e_top].
    - apply (level_ok (fun _ => None) 0); auto. intros e0 r0 _ Hlt. lia.
    - apply (level_ok (e_top v (S f)) (S f)); auto.
      intros e0 r0 Hw0 Hh0 Hs0. apply IH; auto. lia.
  Qed.

  Lemma join_length_exact sep (l : list (list tok)) : l <> [] ->
    length (join sep l) + 1 = fold_right (fun x n => length x + 1 + n) 0 l.
  Proof.
    induction l as [|x [|y l] IH]; intros Hn; [congruence|cbn; lia|].
    specialize (IH ltac:(discriminate)). cbn [join fold_right] in *. rewrite app_length. cbn [length]. lia.
  Qed.

  Lemma height_join sep q0 (l : list bexp) : 2 <= length l ->
    Forall (fun x => height x <= length (P q0 x)) l ->
    S (fold_right (fun c m => Nat.max (height c) m) 0 l) <= length (join sep (map (P q0) l)).
  Proof.
    intros Hn Hf.
    assert (G : fold_right (fun c m => Nat.max (height c) m) 0 l + length l
                <= fold_right (fun x n => length x + 1 + n) 0 (map (P q0) l)).
    { clear Hn. induction Hf; cbn [fold_right map length]; lia. }
    assert (Hne : map (P q0) l <> []) by (destruct l; [cbn in Hn; lia|discriminate]).
    pose proof (join_length_exact sep (map (P q0) l) Hne). lia.
  Qed.

  Lemma height_le_length e : wf e = true -> forall q, height e <= length (P q e).
  Proof.
    induction e as [n|a IH|l IH|l IH] using bexp_ind'; intros Hw q.
    - cbn. lia.
    - cbn [wf] in Hw. apply andb_true_iff in Hw. destruct Hw as [Hwa _].
      cbn [bprint height]. eapply Nat.le_trans; [|apply paren_length]. cbn [length]. specialize (IH Hwa not_child). lia.
    - cbn [wf] in Hw. apply wf_operands in Hw as [Hn Hall].
      cbn [bprint height]. eapply Nat.le_trans; [|apply paren_length]. apply height_join; [exact Hn|].
      rewrite Forall_forall in *. intros y Hy. apply IH; auto.
    - cbn [wf] in Hw. apply wf_operands in Hw as [Hn Hall].
      cbn [bprint height]. eapply Nat.le_trans; [|apply paren_length]. apply height_join; [exact Hn|].
      rewrite Forall_forall in *. intros y Hy. apply IH; auto.
  Qed.

  Theorem print_read e : wf e = true -> fortran_value v (P 0 e) = Some (bv e).
  Proof.
    intros Hw. unfold fortran_value.
    pose proof (top_ok (length (P 0 e)) e [] Hw (height_le_length e Hw 0) I) as E.
    rewrite app_nil_r in E. now rewrite E.
  Qed.
End Round.

Definition printer_statement (oc oo ac ao nc no : nat) : Prop :=
  forall v e, wf e = true -> fortran_value v (bprint oc oo ac ao nc no 0 e) = Some (beval v e).

Theorem printer_holds oc oo ac ao nc no : prec_ok oc oo ac ao nc no = true -> printer_statement oc oo ac ao nc no.
Proof. intros H v e Hw. apply print_read; auto. Qed.

(* a printer that hands the operands of .and. the precedence of .or.: a and (b or c) with a false, c true *)
Definition wit_or_under_and : bexp := BAnd [BAtom 0; BOr [BAtom 1; BAtom 2]].
Definition wit_valuation (n : nat) : bool := Nat.eqb n 2.

Lemma printer_refuted oc oo ao nc no : ~ printer_statement oc oo oo ao nc no.
Proof.
  intros H. specialize (H wit_valuation wit_or_under_and eq_refl).
  unfold wit_or_under_and in H. cbn [bprint map join] in H. unfold paren in H.
  rewrite Nat.ltb_irrefl in H.
  replace (ao <? 0) with false in H by (symmetry; apply Nat.ltb_ge; lia).
  cbn in H. discriminate.
Qed.

(* non-vacuity, with pymbolic's numbers (or 4/4, and 5/5, not 13/13) *)
Example ex_pymbolic_numbers : prec_ok 4 4 5 5 13 13 = true.
Proof. reflexivity. Qed.
Example ex_print :
  bprint 4 4 5 5 13 13 0 (BAnd [BAtom 0; BOr [BAtom 1; BNot (BAnd [BAtom 2; BAtom 3])]; BNot (BAtom 4)])
  = [TAtom 0; TAnd; TLP; TAtom 1; TOr; TNot; TLP; TAtom 2; TAnd; TAtom 3; TRP; TRP; TAnd; TNot; TAtom 4].
Proof. reflexivity. Qed.

Definition nostar (r : list ptok) : Prop := match r with PStar :: _ => False | _ => True end.

(* stated on trees: what is read back is the tree that was printed; values are compared in the witness only *)
Definition power_statement (bp xp own : nat) : Prop :=
  forall e r, nostar r -> pread (S (psize e)) (pprint bp xp own 0 e ++ r) = Some (e, r).

Definition punparen (bp xp own : nat) (e : pexp) : list ptok :=
  match e with
  | PAtom n => [PA n]
  | PPow b x => pprint bp xp own bp b ++ PStar :: pprint bp xp own xp x
  end.

Definition pparenth (own enc : nat) (e : pexp) : bool :=
  match e with PAtom _ => false | PPow _ _ => own <? enc end.

Lemma pprint_cases bp xp own enc e :
  pprint bp xp own enc e =
  if pparenth own enc e then PL :: punparen bp xp own e ++ [PR] else punparen bp xp own e.
Proof. destruct e; cbn [pprint punparen pparenth]; [reflexivity|]. destruct (own <? enc); reflexivity. Qed.

Lemma pread_nostar f b r ts : nostar r ->
  pprim (pread f) ts = Some (b, r) -> pread (S f) ts = Some (b, r).
Proof.
  intros Hr H. cbn [pread]. rewrite H. destruct r as [| [] r']; try reflexivity. destruct Hr.
Qed.

Section PowerRound.
  Variables bp xp own : nat.
  Hypothesis Hb : (own <? bp) = true.

  Lemma punparen_read : forall e F r, psize e <= F -> nostar r ->
    pread F (punparen bp xp own e ++ r) = Some (e, r).
  Proof.
    induction e as [n | b IHb x IHx]; intros F r HF Hr.
    - destruct F as [| f]; [cbn in HF; lia |].
      apply pread_nostar; [exact Hr | reflexivity].
    - cbn [psize] in HF. destruct F as [| f]; [lia |].
      cbn [punparen]. rewrite <- app_assoc. cbn [app].
      assert (Hbase : forall rest, pprim (pread f) (pprint bp xp own bp b ++ rest) = Some (b, rest)).
      { intro rest. rewrite pprint_cases. destruct b as [n | b1 b2]; [reflexivity |].
        cbn [pparenth]. rewrite Hb. cbn [app]. rewrite <- app_assoc. cbn [app pprim].
        rewrite (IHb f (PR :: rest)); [reflexivity | lia | exact I]. }
      cbn [pread]. rewrite Hbase.
      assert (Hexp : pread f (pprint bp xp own xp x ++ r) = Some (x, r)).
      { rewrite pprint_cases. destruct (pparenth own xp x).
        - destruct f as [| f']; [lia |].
          cbn [app]. rewrite <- app_assoc. cbn [app].
          apply pread_nostar; [exact Hr |]. cbn [pprim].
          rewrite (IHx f' (PR :: r)); [reflexivity | lia | exact I].
        - apply IHx; [lia | exact Hr]. }
      rewrite Hexp. reflexivity.
  Qed.

  Lemma pprint_read enc e r : nostar r -> pread (S (psize e)) (pprint bp xp own enc e ++ r) = Some (e, r).
  Proof.
    intro Hr. rewrite pprint_cases. destruct (pparenth own enc e).
    - cbn [app]. rewrite <- app_assoc. cbn [app].
      apply pread_nostar; [exact Hr |]. cbn [pprim].
      rewrite (punparen_read e (psize e) (PR :: r)); [reflexivity | lia | exact I].
    - apply punparen_read; [lia | exact Hr].
  Qed.
End PowerRound.

Theorem power_holds bp xp own : (own <? bp) = true -> power_statement bp xp own.
Proof. intros H e r Hr. now apply pprint_read. Qed.

(* (a0 ** a1) ** a2 with a0 = 2, a1 = 2, a2 = 3: 64; printed without parentheses and read by Fortran: 2 ** (2 ** 3) = 256
   (corpus/C03/power_nested_base.json) *)
Definition wit_pow_base : pexp := PPow (PPow (PAtom 0) (PAtom 1)) (PAtom 2).
Definition wit_pow_values (n : nat) : nat := match n with 2 => 3 | _ => 2 end.

Lemma wit_pow_base_print bp xp own : (own <? bp) = false ->
  pprint bp xp own 0 wit_pow_base = [PA 0; PStar; PA 1; PStar; PA 2].
Proof.
  intro H. unfold wit_pow_base. cbn [pprint]. rewrite H.
  assert (E : (own <? 0) = false) by (destruct own; reflexivity).
  rewrite E. reflexivity.
Qed.

Lemma wit_pow_base_values bp xp own : (own <? bp) = false ->
  pval wit_pow_values wit_pow_base = 64 /\
  option_map (fun p => pval wit_pow_values (fst p)) (pread (S (psize wit_pow_base)) (pprint bp xp own 0 wit_pow_base)) = Some 256.
Proof.
  intro H. rewrite (wit_pow_base_print bp xp own H). split; vm_compute; reflexivity.
Qed.

Theorem power_refuted bp xp own : (own <? bp) = false -> ~ power_statement bp xp own.
Proof.
  intros H S. specialize (S wit_pow_base [] I). rewrite app_nil_r in S.
  rewrite (wit_pow_base_print bp xp own H) in S. vm_compute in S. discriminate S.
Qed.

Lemma power_either bp xp own :
  if own <? bp then power_statement bp xp own else ~ power_statement bp xp own.
Proof.
  destruct (own <? bp) eqn:E; [now apply power_holds | now apply power_refuted].
Qed.
