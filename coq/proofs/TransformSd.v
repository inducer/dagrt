(* eliminate_self_dependencies.  What ms_sd puts in the place of a statement is a relation (sdderived, over copies:
   one copy statement per variable; ms_sd_r, sd_loop_r: every run that returns); what the copies are and do are
   inductions over copies (copies_shape, copies_sem); ms_sd meets the leaf specification sspec (ms_sd_spec).
   rvars and wrs are TransformSyn's, which stands beside the chain of files and rests on TransformSpec only. *)
From Coq Require Import List ZArith NArith String Ascii Bool Arith Lia Permutation.
Import ListNotations.
From Dagrt Require Import Lang LangProofs Sched Transform TransformSem TransformSide TransformBasics TransformHoist
     TransformSpec TransformMappers TransformLeaf TransformStmt TransformSyn ListFacts.

(* what map_expressions(substitute, include_lhs=False) returns *)
Definition ksubst (sb : list (string * string)) (k : skind) : skind :=
  match k with
  | KAssign x sub rhs loops =>
      KAssign x sub (subst sb rhs)
              (map (fun l => (fst (fst l), subst sb (snd (fst l)), subst sb (snd l))) loops)
  | KCall xs fn args kw =>
      KCall xs (subst_name sb fn) (map (subst sb) args) (combine (map fst kw) (map (subst sb) (map snd kw)))
  | KYield comp tid time e => KYield comp tid (subst sb time) (subst sb e)
  | k => k
  end.

Lemma assoc_in {A} k (l : list (string * A)) v : assoc k l = Some v -> In (k, v) l.
Proof.
  induction l as [|[k' v'] l IH]; cbn; [discriminate|]. destruct (String.eqb k k') eqn:E.
  - apply String.eqb_eq in E. subst. intros H. inversion H; subst. now left.
  - intros H. right. auto.
Qed.

Lemma assoc_none {A} k (l : list (string * A)) : assoc k l = None -> ~ In k (map fst l).
Proof.
  induction l as [|[k' v'] l IH]; cbn; [tauto|]. destruct (String.eqb k k') eqn:E; [discriminate|].
  intros H [Hk|Hk]; [|now apply IH]. subst. rewrite String.eqb_refl in E. discriminate.
Qed.

Lemma vars_subst sb e : forall x, In x (vars (subst sb e)) -> In x (vars e) \/ In x (map snd sb).
Proof.
  induction e as [z|bb| |y|e1 IH1|c t e IHc IHt IHe|o e1 e2 IH1 IH2|o l IH] using expr_ind';
    intros x Hx; cbn [subst vars] in *; try contradiction.
  - destruct Hx as [<-|[]]. unfold subst_name. destruct (assoc y sb) as [n|] eqn:E; [|left; now left].
    right. apply assoc_in in E. apply in_map_iff. exists (y, n). auto.
  - auto.
  - rewrite !in_app_iff in *. destruct Hx as [Hx|[Hx|Hx]]; [apply IHc in Hx|apply IHt in Hx|apply IHe in Hx]; tauto.
  - rewrite !in_app_iff in *. destruct Hx as [Hx|Hx]; [apply IH1 in Hx|apply IH2 in Hx]; tauto.
  - assert (Hl : In x (flat_map vars (map (subst sb) l)) -> In x (flat_map vars l) \/ In x (map snd sb)).
    { clear Hx. induction IH as [|e1 l H1 _ IHl]; cbn [map flat_map]; [tauto|].
      rewrite !in_app_iff. intros [Hx|Hx]; [apply H1 in Hx|apply IHl in Hx]; tauto. }
    destruct o; cbn [vars] in Hx; auto.
Qed.

Lemma vars_subst_list sb l :
  forall x, In x (flat_map vars (map (subst sb) l)) -> In x (flat_map vars l) \/ In x (map snd sb).
Proof.
  induction l as [|e l IH]; cbn [map flat_map]; [tauto|]. intros x Hx. rewrite in_app_iff in *.
  destruct Hx as [Hx|Hx]; [apply vars_subst in Hx|apply IH in Hx]; tauto.
Qed.

Lemma kvars_subst sb k :
  forall x, In x (kvars (ksubst sb k)) -> In x (kvars k) \/ In x (map snd sb).
Proof.
  intros x Hx. destruct k as [y sub rhs loops|xs fn args kw|comp tid time e| | | |]; cbn [ksubst kvars] in *;
    try contradiction.
  - destruct Hx as [<-|Hx]; [left; now left|]. rewrite !in_app_iff in Hx. destruct Hx as [Hx|[Hx|Hx]].
    + left. right. rewrite !in_app_iff. tauto.
    + apply vars_subst in Hx. destruct Hx; [left; right; rewrite !in_app_iff; tauto|tauto].
    + assert (H : In x (flat_map (fun l => fst (fst l) :: vars (snd (fst l)) ++ vars (snd l)) loops)
                  \/ In x (map snd sb)).
      { induction loops as [|[[i lo] hi] loops IHl]; cbn [map flat_map fst snd] in *; [contradiction|].
        destruct Hx as [<-|Hx]; [left; now left|]. rewrite !in_app_iff in Hx. rewrite in_app_iff. cbn [In]. rewrite !in_app_iff.
        destruct Hx as [[Hx|Hx]|Hx]; [apply vars_subst in Hx|apply vars_subst in Hx|apply IHl in Hx]; tauto. }
      destruct H; [left; right; rewrite !in_app_iff; tauto|tauto].
  - rewrite map_snd_combine in Hx by now rewrite !map_length.
    rewrite !in_app_iff in Hx. destruct Hx as [Hx|[Hx|Hx]]; [left; apply in_app_iff; now left| |];
      (apply vars_subst_list in Hx; destruct Hx as [Hx|Hx]; [left|now right]; apply in_app_iff; right;
       apply in_app_iff); [now left|now right].
  - rewrite !in_app_iff in *. destruct Hx as [Hx|Hx]; apply vars_subst in Hx; tauto.
Qed.

Lemma mk_subst sb k st :
  loopfree k = true ->
  map_kind_w false (fun e => retw (subst sb e)) k st = TOk (ksubst sb k, [], [], st).
Proof.
  intros Hl. destruct k as [x sub rhs loops|xs fn args kw|comp tid time e| | | |]; try reflexivity.
  - destruct loops; [|discriminate]. destruct sub; reflexivity.
  - cbn [map_kind_w ksubst]. unfold bindw, retw, call_expr. cbn [subst].
    rewrite map_app.
    replace (List.length (map (subst sb) args ++ map (subst sb) (map snd kw)) - List.length (map fst kw))%nat
      with (List.length (map (subst sb) args)) by (rewrite app_length, !map_length; lia).
    rewrite split_at_app_len. reflexivity.
Qed.

Lemma ksubst_writes sb k : kind_writes (ksubst sb k) = kind_writes k.
Proof. now destruct k. Qed.

Lemma ksubst_props sb k : kind_writes (ksubst sb k) = kind_writes k /\ (loopfree k = true -> loopfree (ksubst sb k) = true).
Proof. split; [apply ksubst_writes|]. destruct k as [x sub rhs [|l loops]| | | | | |]; auto. Qed.

Lemma dedup_incl l : incl (dedup l) l.
Proof.
  induction l as [|x l IH]; cbn [dedup]; [apply incl_refl|].
  destruct (smem x l); intros y Hy.
  - right. now apply IH.
  - destruct Hy as [<-|Hy]; [now left|right; now apply IH].
Qed.

Lemma subset_incl a b : subset a b = true -> incl a b.
Proof. unfold subset. rewrite forallb_forall. intros H x Hx. apply smem_In. now apply H. Qed.

Lemma sinsert_in x l y : In y (sinsert x l) -> y = x \/ In y l.
Proof.
  induction l as [|z l IH]; cbn [sinsert]; [intros [<-|[]]; now left|].
  destruct (String.leb x z); cbn [In]; [intros [<-|H]; auto|].
  intros [<-|H]; [right; now left|]. apply IH in H. destruct H; auto.
Qed.

Lemma ssort_incl l : incl (ssort l) l.
Proof.
  induction l as [|x l IH]; [apply incl_refl|]. unfold ssort. cbn [fold_right]. fold (ssort l).
  intros y Hy. apply sinsert_in in Hy. destruct Hy as [->|Hy]; [now left|right; now apply IH].
Qed.

Lemma read_and_written_sub lsr lbr s x :
  In x (read_and_written lsr lbr s) -> In x (sreads lsr lbr s) /\ In x (kind_writes (tkd s)).
Proof.
  unfold read_and_written. intros Hx. apply dedup_incl, filter_In in Hx. destruct Hx as [H1 H2].
  apply smem_In in H2. auto.
Qed.

Lemma rw_order_sub lsr lbr sds ords s vs :
  rw_order lsr lbr sds ords s = Some vs -> incl vs (read_and_written lsr lbr s).
Proof.
  unfold rw_order. destruct sds; [intros H; inversion H; subst; apply ssort_incl|].
  destruct (assoc (tid s) ords) as [o|]; [|intros H; inversion H; subst; apply incl_refl].
  destruct (subset o _ && subset _ o && nodupb o) eqn:E; [|discriminate].
  intros H. inversion H; subst. apply andb_true_iff in E. destruct E as [E _].
  apply andb_true_iff in E. destruct E as [E _]. now apply subset_incl.
Qed.

Lemma rw_order_incl lsr lbr sds ords s vs :
  rw_order lsr lbr sds ords s = Some vs -> incl vs (kind_writes (tkd s)).
Proof. intros H x Hx. apply (read_and_written_sub lsr lbr). now apply (rw_order_sub _ _ _ _ _ _ H). Qed.

Lemma kind_writes_kvars k : incl (kind_writes k) (kvars k).
Proof.
  destruct k as [x sub rhs loops|xs fn args kw|? ? ? ?| | | |]; cbn; intros y Hy; try contradiction.
  - destruct Hy as [<-|[]]. now left.
  - apply in_app_iff. now left.
Qed.

Inductive copies (s : tstmt) :
  list var -> list (string * string) -> list string -> list tstmt -> list var -> list string -> Prop :=
| cp_nil : copies s [] [] [] [] [] []
| cp_cons v vs name id sb ids ns N I :
    copies s vs sb ids ns N I ->
    copies s (v :: vs) ((v, name) :: sb) (id :: ids)
           (mkT id (tdeps s) (tcond s) (KAssign name None (EVar v) []) :: ns) (N ++ [name]) (I ++ [id]).

Lemma sd_loop_r s vs : forall st sb ids ns st',
  sd_loop s vs st = TOk ((sb, ids, ns), st') -> exists N I, ext st st' N I /\ copies s vs sb ids ns N I.
Proof.
  induction vs as [|v vs IH]; intros st sb ids ns st' E; cbn [sd_loop] in E.
  - unfold ret in E. inversion E; subst. exists [], []. split; [apply ext_refl|constructor].
  - apply bind_inv in E. destruct E as (name & st1 & G1 & E). apply bind_inv in E. destruct E as (id & st2 & G2 & E).
    apply bind_inv in E. destruct E as ([[sb0 ids0] ns0] & st3 & E3 & E).
    unfold ret in E. inversion E; subst sb ids ns st'. clear E.
    destruct (IH _ _ _ _ _ E3) as (N & I & X & C).
    exists (N ++ [name]), (I ++ [id]). split; [exact (ext_trans _ _ _ _ _ _ _ (ext_two _ _ _ _ _ _ _ G1 G2) X)|].
    now constructor.
Qed.

Lemma copies_shape {s vs sb ids ns N I} :
  copies s vs sb ids ns N I ->
  map fst sb = vs /\ (forall x, In x N <-> In x (map snd sb)) /\ incl ids I /\ idcount ns I /\
  Forall (fun n => tcond n = tcond s /\ incl (swr n) N) ns /\
  wrs ns = map snd sb /\ Forall (fun n => exists v, In v vs /\ rvars n = vars (tcond s) ++ [v]) ns.
Proof.
  induction 1 as [|v vs name id sb ids ns N I _ (Hf & HN & Hi & Hc & Hn & Hw & Hr)].
  - repeat split; try constructor; try tauto. apply incl_refl.
  - split; [cbn; now rewrite Hf|split; [|split; [|split; [|split; [|split]]]]].
    + intros x. cbn [map snd]. rewrite in_app_iff. cbn. rewrite HN. tauto.
    + intros x [<-|Hx]; apply in_app_iff; [right; now left|left; now apply Hi].
    + intros x. cbn [map tid count_occ]. rewrite count_occ_app, Hc. cbn [count_occ]. destruct (string_dec id x); lia.
    + constructor; [split; [reflexivity|now apply incl_appr]|].
      eapply Forall_impl; [|exact Hn]. intros n [A B]. split; [exact A|now apply incl_appl].
    + cbn. now rewrite <- Hw.
    + constructor; [exists v; split; [now left|reflexivity]|].
      eapply Forall_impl; [|exact Hr]. intros n (v' & Hv' & E). exists v'. split; [now right|exact E].
Qed.

Lemma copies_fst {s vs sb ids ns N I} : copies s vs sb ids ns N I -> map fst sb = vs.
Proof. apply copies_shape. Qed.
Lemma copies_names {s vs sb ids ns N I} : copies s vs sb ids ns N I -> forall x, In x N <-> In x (map snd sb).
Proof. apply copies_shape. Qed.
Lemma copies_ids {s vs sb ids ns N I} : copies s vs sb ids ns N I -> incl ids I.
Proof. apply copies_shape. Qed.
Lemma copies_idcount {s vs sb ids ns N I} : copies s vs sb ids ns N I -> idcount ns I.
Proof. apply copies_shape. Qed.
Lemma copies_emitted {s vs sb ids ns N I} :
  copies s vs sb ids ns N I -> Forall (fun n => tcond n = tcond s /\ incl (swr n) N) ns.
Proof. apply copies_shape. Qed.
Lemma copies_wrs {s vs sb ids ns N I} : copies s vs sb ids ns N I -> wrs ns = map snd sb.
Proof. apply copies_shape. Qed.
Lemma copies_rvars {s vs sb ids ns N I} :
  copies s vs sb ids ns N I -> Forall (fun n => exists v, In v vs /\ rvars n = vars (tcond s) ++ [v]) ns.
Proof. apply copies_shape. Qed.

(* what ms_sd puts in the place of s: s itself, or copies of the variables it reads and writes, in the order vs, and s
   with the copies substituted for them *)
Inductive sdderived (lsr lbr : bool) (s : tstmt) : list tstmt -> list var -> list string -> Prop :=
| sdd_same : sdderived lsr lbr s [s] [] []
| sdd_copies vs sb ids ns N I :
    incl vs (read_and_written lsr lbr s) -> copies s vs sb ids ns N I ->
    sdderived lsr lbr s (ns ++ [mkT (tid s) (tdeps s ++ ids) (tcond s) (ksubst sb (tkd s))]) N I.

Lemma ms_sd_r lsr lbr sds ords s st l st' :
  loopfree (tkd s) = true -> ms_sd lsr lbr sds ords s st = TOk (l, st') ->
  exists N I, ext st st' N I /\ sdderived lsr lbr s l N I.
Proof.
  intros Hlf E. unfold ms_sd in E. destruct (rw_order lsr lbr sds ords s) as [vs|] eqn:Er; [|discriminate].
  apply rw_order_sub in Er. destruct vs as [|v vs].
  { unfold ret in E. inversion E; subst. exists [], []. split; [apply ext_refl|constructor]. }
  apply bind_inv in E. destruct E as ([[sb ids] ns] & st1 & El & E).
  rewrite (mk_subst sb (tkd s) st1 Hlf) in E. inversion E; subst l st'. clear E.
  destruct (sd_loop_r _ _ _ _ _ _ _ El) as (N & I & X & C). exists N, I. split; [exact X|now apply (sdd_copies _ _ _ (v :: vs))].
Qed.

Section Sd.
  Variable F : string -> list val -> list (string * val) -> option (list val).
  Variable dg : bool.
  Notation evalt := (evalt F).
  Notation evalt_list := (evalt_list F).

  (* in b the name n of each pair (v, n) of sb holds the value v has in a *)
  Definition sb_ok (sb : list (string * string)) (N : list var) (a b : store) : Prop :=
    same_off N a b /\ (forall v n, In (v, n) sb -> getv b n = getv a v).

  Lemma subst_name_other sb x : ~ In x (map fst sb) -> subst_name sb x = x.
  Proof.
    intros H. unfold subst_name. destruct (assoc x sb) as [y|] eqn:E; [|reflexivity].
    exfalso. apply H. apply assoc_in in E. apply in_map_iff. exists (x, y). auto.
  Qed.

  Lemma evalt_subst sb N a b e :
    sb_ok sb N a b ->
    (forall x, In x (vars e) -> ~ In x N) ->
    (forall f, In f (fnames e) -> ~ In f (map fst sb)) ->
    evalt b (subst sb e) = evalt a e.
  Proof.
    intros [Hoff Hsb].
    induction e as [z|bb| |x|e1 IH1|c t e IHc IHt IHe|o e1 e2 IH1 IH2|o l IH] using expr_ind';
      intros Hv Hf; try reflexivity.
    - cbn [subst]. rewrite !evalt_var. f_equal. f_equal. unfold subst_name.
      destruct (assoc x sb) as [n|] eqn:E.
      + apply Hsb. now apply assoc_in.
      + unfold getv. rewrite Hoff; [reflexivity|]. apply Hv. now left.
    - cbn [subst TransformSem.evalt]. rewrite IH1; auto.
    - cbn [subst TransformSem.evalt]. cbn [vars fnames] in *.
      rewrite IHc, IHt, IHe; try reflexivity;
        try (intros x Hx; apply Hv; rewrite !in_app_iff; tauto);
        try (intros x Hx; apply Hf; rewrite !in_app_iff; tauto).
    - cbn [subst TransformSem.evalt]. cbn [vars fnames] in *.
      rewrite IH1, IH2; try reflexivity;
        try (intros x Hx; apply Hv; rewrite !in_app_iff; tauto);
        try (intros x Hx; apply Hf; rewrite !in_app_iff; tauto).
    - cbn [vars fnames] in *.
      assert (Es : subst sb (ENary o l) = ENary o (map (subst sb) l)).
      { destruct o; try reflexivity. cbn [subst]. rewrite (subst_name_other sb f); [reflexivity|apply Hf; now left]. }
      rewrite Es. clear Es. apply evalt_nary_map.
      induction IH as [|e1 l H1 _ IHl]; constructor.
      + apply H1; intros x Hx; first [apply Hv|apply Hf]; cbn [flat_map app] in *; rewrite ?in_app_iff in *; tauto.
      + apply IHl; intros x Hx; first [apply Hv|apply Hf]; cbn [flat_map app] in *; rewrite ?in_app_iff in *; tauto.
  Qed.

  Lemma evalt_list_subst sb N a b l :
    sb_ok sb N a b ->
    (forall x, In x (flat_map vars l) -> ~ In x N) ->
    (forall f, In f (flat_map fnames l) -> ~ In f (map fst sb)) ->
    evalt_list b (map (subst sb) l) = evalt_list a l.
  Proof.
    intros Hok. induction l as [|e l IH]; intros Hv Hf; [reflexivity|]. cbn [map TransformSem.evalt_list].
    rewrite (evalt_subst sb N a b e Hok), IH; try reflexivity;
      intros x Hx; first [apply Hv|apply Hf]; cbn [flat_map]; rewrite in_app_iff; tauto.
  Qed.

  Lemma exec_kind_subst sb N a b k :
    sb_ok sb N a b -> loopfree k = true ->
    (forall x, In x (kvars k) -> ~ In x N) ->
    (forall f, In f (kfnames k) -> ~ In f (map fst sb)) ->
    fst (exec_kind_t F dg a k) = fst (exec_kind_t F dg b (ksubst sb k)) /\
    orel N (snd (exec_kind_t F dg a k)) (snd (exec_kind_t F dg b (ksubst sb k))).
  Proof.
    intros Hok Hl Hv Hf. pose proof Hok as [Hoff _]. apply (exec_kind_same F dg N a b); [exact Hoff|].
    destruct k as [x sub rhs loops|xs fn args kw|comp tid time e| | | |]; cbn [ksubst kind_same kvars kfnames] in *;
      try reflexivity.
    - destruct loops; [|discriminate]. split; [reflexivity|split].
      + apply (evalt_subst sb N a b rhs Hok).
        * intros y Hy. apply Hv. right. rewrite !in_app_iff. tauto.
        * intros y Hy. apply Hf. rewrite !in_app_iff. tauto.
      + destruct sub as [ie|]; [|exact I]. split; [apply Hoff, Hv; now left|].
        apply evalt_frame. intros y Hy. apply Hoff, Hv. right. rewrite !in_app_iff. tauto.
    - rewrite map_snd_combine, map_fst_combine by now rewrite !map_length.
      split; [reflexivity|split; [apply subst_name_other, Hf; now left|split; [reflexivity|]]].
      split; apply (evalt_list_subst sb N a b _ Hok); intros y Hy; first [apply Hv|apply Hf; right];
        rewrite !in_app_iff; tauto.
    - repeat (split; [reflexivity|]).
      split; apply (evalt_subst sb N a b _ Hok); intros y Hy; first [apply Hv|apply Hf]; rewrite !in_app_iff; tauto.
  Qed.

  Lemma copies_sem s vs sb ids ns N I :
    copies s vs sb ids ns N I ->
    forall K, incl vs K -> incl (vars (tcond s)) K -> fresh_for K N ->
    forall a, cond_t F a (tcond s) = ([], Ok true) ->
      exists b, exec_list F dg ns a = Some ([], b) /\ sb_ok sb N a b.
  Proof.
    induction 1 as [|v vs name id sb ids ns N I C IH]; intros K Hvs Hvc Fr a Hc.
    - exists a. split; [reflexivity|]. split; [apply same_off_refl|intros v n []].
    - apply fresh_for_app_inv in Fr. destruct Fr as [[_ Fn] Fr].
      assert (Hname : ~ In name K) by (apply Fn; now left).
      set (a1 := upd a name (getv a v)).
      assert (E1 : exec_t F dg a (mkT id (tdeps s) (tcond s) (KAssign name None (EVar v) [])) = ([], ONext a1 None))
        by (apply exec_assign; [exact Hc|apply evalt_var]).
      assert (Hc1 : cond_t F a1 (tcond s) = ([], Ok true)).
      { rewrite <- Hc. apply cond_t_frame. intros x Hx. unfold a1. apply upd_other. intros ->. apply Hname, Hvc, Hx. }
      destruct (IH ([name] ++ K)) with (a := a1) as (b & Hb & Hoff & Hsb);
        [intros x Hx; right; apply Hvs; now right|now apply incl_appr|exact Fr|exact Hc1|].
      exists b. split; [cbn [exec_list]; now rewrite E1, Hb|].
      assert (HnN : ~ In name N) by (intros Hin; destruct Fr as [_ Fr]; apply (Fr name Hin); now left).
      split.
      + intros x Hx. rewrite in_app_iff in Hx. rewrite Hoff by tauto. unfold a1. apply upd_other.
        intros ->. apply Hx. right. now left.
      + intros v' n [Heq|Hin].
        * inversion Heq; subst v' n. unfold getv at 1. rewrite Hoff by exact HnN. unfold a1. now rewrite upd_same.
        * rewrite (Hsb v' n Hin). unfold getv, a1. rewrite upd_other; [reflexivity|].
          intros ->. apply Hname, Hvs. right. rewrite <- (copies_fst C).
          apply in_map_iff. exists (name, n). auto.
  Qed.

  Lemma sd_loop_spec s vs : forall st sb ids ns st',
    sd_loop s vs st = TOk ((sb, ids, ns), st') ->
    exists N I,
      ext st st' N I /\ map fst sb = vs /\ (forall x, In x N <-> In x (map snd sb)) /\
      incl ids I /\ idcount ns I /\
      Forall (fun n => tcond n = tcond s /\ incl (swr n) N) ns /\
      (incl vs (ex (gvars st)) -> incl (vars (tcond s)) (ex (gvars st)) ->
       forall a, cond_t F a (tcond s) = ([], Ok true) ->
         exists b, exec_list F dg ns a = Some ([], b) /\ sb_ok sb N a b).
  Proof.
    intros st sb ids ns st' E. destruct (sd_loop_r _ _ _ _ _ _ _ E) as (N & I & X & C).
    exists N, I. split; [exact X|split; [exact (copies_fst C)|split; [exact (copies_names C)|]]].
    split; [exact (copies_ids C)|split; [exact (copies_idcount C)|split; [exact (copies_emitted C)|]]].
    intros Hvs Hvc. exact (copies_sem _ _ _ _ _ _ _ C _ Hvs Hvc (ext_fresh_vars _ _ _ _ X)).
  Qed.

  Theorem ms_sd_spec lsr lbr sds ords s :
    has_call (tcond s) = false -> loopfree (tkd s) = true ->
    (forall f, In f (kfnames (tkd s)) -> ~ In f (kind_writes (tkd s))) ->
    forall st l st', ms_sd lsr lbr sds ords s st = TOk (l, st') -> sspec F dg s st l st'.
  Proof.
    intros Hnc Hlf Hfn st l st' E. destruct (ms_sd_r _ _ _ _ _ _ _ _ Hlf E) as (N & I & X & D).
    destruct D as [|vs sb ids ns N I Hrw C]; [now apply sspec_same|].
    assert (Hvs : incl vs (kind_writes (tkd s))).
    { intros x Hx. exact (proj2 (read_and_written_sub lsr lbr s x (Hrw x Hx))). }
    destruct (ksubst_props sb (tkd s)) as [Hw Hl2].
    apply (leaf_sspec F dg s st st' N I ns _ _ X Hnc); [|exact (copies_idcount C)| |exact Hw|now apply Hl2|].
    - eapply Forall_impl; [|exact (copies_emitted C)]. intros n [A B]. exact (emitted_one _ _ _ A B).
    - intros y Hy. apply in_app_iff. apply kvars_subst in Hy. destruct Hy as [Hy|Hy]; [now left|right].
      now apply (copies_names C).
    - (* the copies run first and leave the values of vs in the names of sb; then k with the names substituted *)
      intros K Hvk Hvc Fr b L o Hc He Hno.
      assert (Hvs1 : incl vs K) by (intros y Hy; apply Hvk, kind_writes_kvars, Hvs, Hy).
      destruct (copies_sem _ _ _ _ _ _ _ C _ Hvs1 Hvc Fr b Hc) as (b1 & Hb1 & Hok).
      destruct (exec_kind_subst sb N b b1 (tkd s) Hok Hlf) as [E1 E2].
      { intros y Hy Hin. apply (in_fresh_not_old _ _ _ Fr Hin). now apply Hvk. }
      { intros f Hf. rewrite (copies_fst C). intros Hin. apply (Hfn f Hf). now apply Hvs. }
      rewrite He in E1, E2. cbn [fst snd] in E1, E2.
      destruct (exec_kind_t F dg b1 (ksubst sb (tkd s))) as [L2 o'] eqn:Ek. cbn [fst snd] in E1, E2. subst L2.
      exists [], b1, L, o'. destruct Hok as [Hoff _].
      split; [exact Hb1|split; [exact Hoff|split; [exact Ek|split; [exact E2|apply Permutation_refl]]]].
  Qed.
End Sd.
