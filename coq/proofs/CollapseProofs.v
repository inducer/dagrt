From Coq Require Import List ZArith String Ascii Bool Arith Lia.
Import ListNotations.
From Dagrt Require Import Collapse ListFacts.
Open Scope string_scope.
Open Scope list_scope.

Section expr_ind'.
  Variable P : expr -> Prop.
  Hypothesis HI : forall z, P (EInt z).
  Hypothesis HV : forall x, P (EVar x).
  Hypothesis HS : forall l, Forall P l -> P (ESum l).
  Hypothesis HP : forall l, Forall P l -> P (EProd l).
  Hypothesis HQ : forall a b, P a -> P b -> P (EQuot a b).
  Hypothesis HW : forall a b, P a -> P b -> P (EPow a b).
  Hypothesis HC : forall f l, Forall P l -> P (ECall f l).
  Hypothesis HK : forall f l kw, Forall P l -> Forall (fun kv => P (snd kv)) kw -> P (ECallKw f l kw).
  Hypothesis HN : forall a, P a -> P (ENot a).
  Fixpoint expr_ind' (e : expr) : P e :=
    let go := fix go (l : list expr) : Forall P l :=
                match l with
                | [] => Forall_nil P
                | x :: l' => Forall_cons x (expr_ind' x) (go l')
                end in
    let gok := fix gok (kw : list (string * expr)) : Forall (fun kv => P (snd kv)) kw :=
                 match kw with
                 | [] => Forall_nil _
                 | kv :: kw' =>
                     Forall_cons kv (match kv as kv0 return P (snd kv0) with
                                     | (_, v) => expr_ind' v
                                     end) (gok kw')
                 end in
    match e with
    | EInt z => HI z
    | EVar x => HV x
    | ESum l => HS l (go l)
    | EProd l => HP l (go l)
    | EQuot a b => HQ a b (expr_ind' a) (expr_ind' b)
    | EPow a b => HW a b (expr_ind' a) (expr_ind' b)
    | ECall f l => HC f l (go l)
    | ECallKw f l kw => HK f l kw (go l) (gok kw)
    | ENot a => HN a (expr_ind' a)
    end.
End expr_ind'.


(* the children of a node as both mappers visit them: the function symbol of a call is visited
   as Variable(f) *)
Definition children (e : expr) : list expr :=
  match e with
  | EInt _ | EVar _ => []
  | ESum l | EProd l => l
  | EQuot a b | EPow a b => [a; b]
  | ECall f l => EVar f :: l
  | ECallKw f l kw => EVar f :: l ++ map snd kw
  | ENot a => [a]
  end.

Lemma subs_children e : subs e = e :: flat_map subs (children e).
Proof.
  destruct e; cbn; rewrite ?app_nil_r; try reflexivity.
  now rewrite flat_map_app, flat_map_map.
Qed.

Lemma names_children e : children e <> [] -> names e = flat_map names (children e).
Proof.
  destruct e; cbn; rewrite ?app_nil_r; try reflexivity; try contradiction.
  now rewrite flat_map_app, flat_map_map.
Qed.

Lemma wfb_children e : children e <> [] -> wfb e = forallb wfb (children e).
Proof.
  destruct e as [| |[|]|[|]| | | | |]; cbn; rewrite ?andb_true_r; try reflexivity; try contradiction.
  now rewrite forallb_app, forallb_map.
Qed.

Lemma isconst_children free e :
  children e <> [] -> isconst free e = forallb (isconst free) (children e).
Proof.
  destruct e; cbn; rewrite ?andb_true_r; try reflexivity; try contradiction.
  now rewrite forallb_app, forallb_map, andb_assoc.
Qed.

Lemma In_subs_self e : In e (subs e).
Proof. rewrite subs_children. now left. Qed.

Lemma In_subs_child e c x : In c (children e) -> In x (subs c) -> In x (subs e).
Proof. intros Hc Hx. rewrite subs_children. right. apply in_flat_map. eauto. Qed.

Lemma expr_children_ind (P : expr -> Prop) : (forall e, Forall P (children e) -> P e) -> forall e, P e.
Proof.
  intros H. assert (Hv : forall x, P (EVar x)) by (intros x; apply H; constructor).
  induction e using expr_ind'; apply H; cbn [children]; auto.
  constructor; [auto|]. apply Forall_app. split; [assumption | now apply Forall_map].
Qed.

Fixpoint list_same (l m : list expr) : bool :=
  match l, m with
  | [], [] => true
  | x :: l', y :: m' => expr_same x y && list_same l' m'
  | _, _ => false
  end.

Fixpoint kw_same (l m : list (string * expr)) : bool :=
  match l, m with
  | [], [] => true
  | (k1, x) :: l', (k2, y) :: m' => String.eqb k1 k2 && expr_same x y && kw_same l' m'
  | _, _ => false
  end.

Lemma expr_same_sum l m : expr_same (ESum l) (ESum m) = list_same l m.
Proof. reflexivity. Qed.
Lemma expr_same_prod l m : expr_same (EProd l) (EProd m) = list_same l m.
Proof. reflexivity. Qed.
Lemma expr_same_call f g l m : expr_same (ECall f l) (ECall g m) = String.eqb f g && list_same l m.
Proof. reflexivity. Qed.
Lemma expr_same_callkw f g l m kw kw2 :
  expr_same (ECallKw f l kw) (ECallKw g m kw2) = String.eqb f g && list_same l m && kw_same kw kw2.
Proof. reflexivity. Qed.

Lemma list_same_refl l : Forall (fun a => expr_same a a = true) l -> list_same l l = true.
Proof. induction 1 as [|x l Hx _ IH]; cbn; [reflexivity | now rewrite Hx]. Qed.

Lemma kw_same_refl kw : Forall (fun kv => expr_same (snd kv) (snd kv) = true) kw -> kw_same kw kw = true.
Proof.
  induction 1 as [|[k x] kw Hx _ IH]; cbn [kw_same]; [reflexivity|].
  cbn in Hx. now rewrite String.eqb_refl, Hx.
Qed.

Lemma expr_same_refl a : expr_same a a = true.
Proof.
  induction a as [z|x|l IH|l IH|a1 a2 IH1 IH2|a1 a2 IH1 IH2|f l IH|f l kw IH IHk|a IH] using expr_ind'.
  - apply Z.eqb_refl.
  - apply String.eqb_refl.
  - now apply list_same_refl.
  - now apply list_same_refl.
  - cbn. now rewrite IH1.
  - cbn. now rewrite IH1.
  - rewrite expr_same_call, String.eqb_refl. now apply list_same_refl.
  - rewrite expr_same_callkw, String.eqb_refl, list_same_refl, kw_same_refl; auto.
  - exact IH.
Qed.

Lemma list_same_inj l : Forall (fun a => forall b, expr_same a b = true -> a = b) l ->
  forall m, list_same l m = true -> l = m.
Proof.
  induction 1 as [|x l Hx _ IH]; intros [|y m] H; try discriminate H; [reflexivity|].
  cbn in H. apply andb_true_iff in H. destruct H as [H1 H2]. f_equal; auto.
Qed.

Lemma kw_same_inj kw : Forall (fun kv => forall b, expr_same (snd kv) b = true -> snd kv = b) kw ->
  forall kw2, kw_same kw kw2 = true -> kw = kw2.
Proof.
  induction 1 as [|[k x] kw Hx _ IH]; intros [|[k2 y] kw2] H; try discriminate H; [reflexivity|].
  cbn [kw_same] in H. rewrite !andb_true_iff, String.eqb_eq in H. destruct H as [[-> H1] H2].
  f_equal; [f_equal; now apply Hx | now apply IH].
Qed.

Lemma expr_same_eq a : forall b, expr_same a b = true <-> a = b.
Proof.
  intros b. split; [|intros <-; apply expr_same_refl]. revert b.
  induction a as [z|x|l IH|l IH|a1 a2 IH1 IH2|a1 a2 IH1 IH2|f l IH|f l kw IH IHk|a IH] using expr_ind';
    intros b H; destruct b; try discriminate H.
  - apply Z.eqb_eq in H. now subst.
  - apply String.eqb_eq in H. now subst.
  - f_equal. now apply (list_same_inj l IH).
  - f_equal. now apply (list_same_inj l IH).
  - cbn in H. apply andb_true_iff in H. destruct H. f_equal; auto.
  - cbn in H. apply andb_true_iff in H. destruct H. f_equal; auto.
  - rewrite expr_same_call, andb_true_iff, String.eqb_eq in H. destruct H as [-> H].
    f_equal. now apply (list_same_inj l IH).
  - rewrite expr_same_callkw, !andb_true_iff, String.eqb_eq in H. destruct H as [[-> H1] H2].
    f_equal; [now apply (list_same_inj l IH) | now apply (kw_same_inj kw IHk)].
  - f_equal. now apply IH.
Qed.

Fixpoint list_eqb (l m : list expr) : bool :=
  match l, m with
  | [], [] => true
  | x :: l', y :: m' => expr_eqb x y && list_eqb l' m'
  | _, _ => false
  end.

Definition kw_match (kv1 kv2 : string * expr) : bool :=
  String.eqb (fst kv1) (fst kv2) && expr_eqb (snd kv1) (snd kv2).
Definition kw_sub (kw kw2 : list (string * expr)) : bool :=
  forallb (fun kv1 => existsb (fun kv2 => kw_match kv1 kv2) kw2) kw.
Definition kw_sup (kw kw2 : list (string * expr)) : bool :=
  forallb (fun kv2 => existsb (fun kv1 => kw_match kv1 kv2) kw) kw2.

Lemma expr_eqb_sum l m : expr_eqb (ESum l) (ESum m) = list_eqb l m.
Proof. reflexivity. Qed.
Lemma expr_eqb_prod l m : expr_eqb (EProd l) (EProd m) = list_eqb l m.
Proof. reflexivity. Qed.
Lemma expr_eqb_call f g l m : expr_eqb (ECall f l) (ECall g m) = String.eqb f g && list_eqb l m.
Proof. reflexivity. Qed.
Lemma expr_eqb_callkw f g l m kw kw2 :
  expr_eqb (ECallKw f l kw) (ECallKw g m kw2) =
  String.eqb f g && list_eqb l m && Nat.eqb (List.length kw) (List.length kw2) &&
  kw_sub kw kw2 && kw_sup kw kw2.
Proof. reflexivity. Qed.

Lemma list_eqb_refl l : Forall (fun a => expr_eqb a a = true) l -> list_eqb l l = true.
Proof. induction 1 as [|x l Hx _ IH]; cbn; [reflexivity | now rewrite Hx, IH]. Qed.

Lemma expr_eqb_refl a : expr_eqb a a = true.
Proof.
  induction a as [z|x|l IH|l IH|a1 a2 IH1 IH2|a1 a2 IH1 IH2|f l IH|f l kw IH IHk|a IH] using expr_ind'.
  - apply Z.eqb_refl.
  - apply String.eqb_refl.
  - rewrite expr_eqb_sum. now apply list_eqb_refl.
  - rewrite expr_eqb_prod. now apply list_eqb_refl.
  - cbn. now rewrite IH1, IH2.
  - cbn. now rewrite IH1, IH2.
  - rewrite expr_eqb_call, String.eqb_refl. now apply list_eqb_refl.
  - rewrite expr_eqb_callkw, String.eqb_refl, Nat.eqb_refl, (list_eqb_refl l IH). cbn [andb].
    assert (Hself : forall kv, In kv kw -> existsb (fun kv2 => kw_match kv kv2) kw = true /\
                                           existsb (fun kv1 => kw_match kv1 kv) kw = true).
    { intros kv Hin. rewrite Forall_forall in IHk.
      split; apply existsb_exists; exists kv; (split; [exact Hin|]);
        unfold kw_match; now rewrite String.eqb_refl, (IHk kv Hin). }
    apply andb_true_iff. split; apply forallb_forall; intros kv Hin; now apply Hself.
  - exact IH.
Qed.

Section EqbIsConst.
  Variable free : list string.
  Notation isc := (isconst free).

  Lemma list_eqb_isconst l :
    Forall (fun a => forall b, expr_eqb a b = true -> isc a = isc b) l ->
    forall m, list_eqb l m = true -> forallb isc l = forallb isc m.
  Proof.
    induction 1 as [|x l Hx _ IH]; intros [|y m]; cbn; intro H; try discriminate; auto.
    apply andb_true_iff in H. destruct H as [H1 H2]. now rewrite (Hx y H1), (IH m H2).
  Qed.

  Lemma kw_eqb_isconst kw kw2 :
    Forall (fun kv => forall b, expr_eqb (snd kv) b = true -> isc (snd kv) = isc b) kw ->
    kw_sub kw kw2 = true -> kw_sup kw kw2 = true ->
    forallb (fun kv => isc (snd kv)) kw = forallb (fun kv => isc (snd kv)) kw2.
  Proof.
    intros IH Hsub Hsup. rewrite Forall_forall in IH.
    unfold kw_sub in Hsub. unfold kw_sup in Hsup. rewrite forallb_forall in Hsub, Hsup.
    apply eq_true_iff_eq. rewrite !forallb_forall. split; intros H kv Hin.
    - specialize (Hsup kv Hin). apply existsb_exists in Hsup. destruct Hsup as (kv1 & Hin1 & Hm).
      unfold kw_match in Hm. apply andb_true_iff in Hm. destruct Hm as [_ Hm].
      rewrite <- (IH kv1 Hin1 _ Hm). now apply H.
    - specialize (Hsub kv Hin). apply existsb_exists in Hsub. destruct Hsub as (kv2 & Hin2 & Hm).
      unfold kw_match in Hm. apply andb_true_iff in Hm. destruct Hm as [_ Hm].
      rewrite (IH kv Hin _ Hm). now apply H.
  Qed.

  Lemma expr_eqb_isconst a : forall b, expr_eqb a b = true -> isc a = isc b.
  Proof.
    induction a as [z|x|l IH|l IH|a1 a2 IH1 IH2|a1 a2 IH1 IH2|f l IH|f l kw IH IHk|a IH] using expr_ind';
      intros b H.
    - destruct b; cbn in H; try discriminate. reflexivity.
    - destruct b; cbn in H; try discriminate. apply String.eqb_eq in H. now subst.
    - destruct b as [| |m| | | | | |]; try (cbn in H; discriminate).
      rewrite expr_eqb_sum in H. cbn [isconst]. now apply list_eqb_isconst.
    - destruct b as [| | |m| | | | |]; try (cbn in H; discriminate).
      rewrite expr_eqb_prod in H. cbn [isconst]. now apply list_eqb_isconst.
    - destruct b; cbn in H; try discriminate. apply andb_true_iff in H. destruct H as [H1 H2].
      cbn [isconst]. now rewrite (IH1 _ H1), (IH2 _ H2).
    - destruct b; cbn in H; try discriminate. apply andb_true_iff in H. destruct H as [H1 H2].
      cbn [isconst]. now rewrite (IH1 _ H1), (IH2 _ H2).
    - destruct b as [| | | | | |g m| |]; try (cbn in H; discriminate).
      rewrite expr_eqb_call in H. apply andb_true_iff in H. destruct H as [H1 H2].
      apply String.eqb_eq in H1. subst g. cbn [isconst]. now rewrite (list_eqb_isconst l IH m H2).
    - destruct b as [| | | | | | |g m kw2|]; try (cbn in H; discriminate).
      rewrite expr_eqb_callkw in H. rewrite !andb_true_iff in H.
      destruct H as [[[[H1 H2] _] H3] H4]. apply String.eqb_eq in H1. subst g. cbn [isconst].
      now rewrite (list_eqb_isconst l IH m H2), (kw_eqb_isconst kw kw2 IHk H3 H4).
    - destruct b; cbn in H; try discriminate. cbn [isconst]. now apply IH.
  Qed.
End EqbIsConst.

Section FinderProofs.
  Variable free : list string.
  Notation isc := (isconst free).

  Definition dict_ok (d : dict) : Prop := Forall (fun kv => snd kv = isc (fst kv)) d.
  Definition covers (d : dict) (l : list expr) : Prop :=
    Forall (fun s => dget d s = Some (isc s)) l.

  Lemma dget_ok d k v : dict_ok d -> dget d k = Some v -> v = isc k.
  Proof.
    induction 1 as [|[k' v'] d Hkv _ IH]; cbn; [discriminate|].
    destruct (expr_eqb k' k) eqn:E.
    - intros [= <-]. cbn in Hkv. rewrite Hkv. now apply expr_eqb_isconst.
    - exact IH.
  Qed.

  Lemma dget_head k v d : dget ((k, v) :: d) k = Some v.
  Proof. cbn. now rewrite expr_eqb_refl. Qed.

  Definition grows (d d' : dict) : Prop :=
    forall k, dget d k = Some (isc k) -> dget d' k = Some (isc k).

  Lemma grows_cons k d : grows d ((k, isc k) :: d).
  Proof.
    intros k' H. cbn. destruct (expr_eqb k k') eqn:E; [|exact H].
    f_equal. now apply expr_eqb_isconst.
  Qed.

  (* the finder only ever conses onto the dictionary, and a correct prefix hides no correct entry *)
  Lemma grows_app new d : dict_ok (new ++ d) -> grows d (new ++ d).
  Proof.
    induction new as [|[k v] new IH]; cbn [app]; intros Hok; [now intros k|].
    inversion Hok as [|? ? Hkv Hok']; subst. cbn in Hkv. subst v.
    intros k' H. now apply grows_cons, IH.
  Qed.

  Lemma covers_grows d d' l : grows d d' -> covers d l -> covers d' l.
  Proof. intros Hg. apply Forall_impl, Hg. Qed.

  Lemma fold_andb {A} (f : A -> bool) l a : fold_left andb (map f l) a = a && forallb f l.
  Proof.
    revert a. induction l as [|b l IH]; intros a; cbn; [now rewrite andb_true_r|].
    now rewrite IH, andb_assoc.
  Qed.

  (* what the finder has done when it has visited the expressions cs from dictionary d0 with results rs and is at
     d: no empty Sum/Product was met, the results are the right classifications, d is d0 with entries put in
     front, all of them right, and classifies every subexpression of cs *)
  Definition visited (d0 : dict) (cs : list expr) (rs : list bool) (d : dict) : Prop :=
    forallb wfb cs = true /\ rs = map isc cs /\ dict_ok d /\ (exists new, d = new ++ d0) /\
    covers d (flat_map subs cs).

  Lemma visited_wfb d0 cs rs d : visited d0 cs rs d -> forallb wfb cs = true.
  Proof. intros H. apply H. Qed.
  Lemma visited_res d0 cs rs d : visited d0 cs rs d -> rs = map isc cs.
  Proof. intros H. apply H. Qed.
  Lemma visited_ok d0 cs rs d : visited d0 cs rs d -> dict_ok d.
  Proof. intros H. apply H. Qed.
  Lemma visited_covers d0 cs rs d : visited d0 cs rs d -> covers d (flat_map subs cs).
  Proof. intros H. apply H. Qed.

  Arguments visited_wfb {d0 cs rs d}.
  Arguments visited_res {d0 cs rs d}.
  Arguments visited_ok {d0 cs rs d}.
  Arguments visited_covers {d0 cs rs d}.

  Lemma visited_nil d : dict_ok d -> visited d [] [] d.
  Proof. intros Hd. repeat split; [exact Hd | now exists [] | constructor]. Qed.

  Lemma visited_app d0 cs1 rs1 d1 cs2 rs2 d2 :
    visited d0 cs1 rs1 d1 -> visited d1 cs2 rs2 d2 -> visited d0 (cs1 ++ cs2) (rs1 ++ rs2) d2.
  Proof.
    intros (W1 & -> & _ & [n1 ->] & C1) (W2 & -> & D2 & [n2 ->] & C2).
    unfold visited. rewrite forallb_app, W1, W2, map_app, flat_map_app. repeat split; auto.
    - exists (n2 ++ n1). apply app_assoc.
    - apply Forall_app. split; [exact (covers_grows _ _ _ (grows_app n2 _ D2) C1) | exact C2].
  Qed.

  Lemma visited_node d0 e rs d :
    wfb e = true -> visited d0 (children e) rs d -> visited d0 [e] [isc e] ((e, isc e) :: d).
  Proof.
    intros Hw (_ & _ & Hd & [n ->] & Hc). repeat split.
    - cbn. now rewrite Hw.
    - now constructor.
    - now exists ((e, isc e) :: n).
    - cbn [flat_map]. rewrite app_nil_r, subs_children. constructor; [apply dget_head|].
      exact (covers_grows _ _ _ (grows_cons e _) Hc).
  Qed.

  (* the finder's outcomes: on Ok the postcondition P of result, stack and dictionary; TypeError only if W holds;
     no other exception *)
  Definition fwp {A} (out : res (A * fstate)) (W : Prop) (P : A -> list expr -> dict -> Prop) : Prop :=
    match out with
    | Ok (a, (stk, d)) => P a stk d
    | TypeError => W
    | _ => False
    end.

  Lemma fwp_bind {A B} (m : res (A * fstate)) (k : A -> fstate -> res (B * fstate)) (W1 W : Prop) P
        (Q : B -> list expr -> dict -> Prop) :
    fwp m W1 P -> (W1 -> W) -> (forall a stk d, P a stk d -> fwp (k a (stk, d)) W Q) ->
    fwp ('(a, s) <- m ;; k a s) W Q.
  Proof. destruct m as [[a [stk d]]| | | |]; cbn; auto; contradiction. Qed.

  Arguments fwp_bind {A B m k W1 W P Q}.
  Arguments visited_app {d0 cs1 rs1 d1 cs2 rs2 d2}.
  (* unary_combines = true: the unary pass-through methods call combine(); for false the node pushed for ENot a is
     never popped and ENot a is never classified (collapse_unfixed_refuted). *)
  Notation frec1 := (fun c s => fmap true free c (push c s)).

  Definition visits (c : expr) : Prop :=
    forall stk d, dict_ok d ->
      fwp (fmap true free c (c :: stk, d)) (wfb c = false)
          (fun r stk' d' => stk' = stk /\ visited d [c] [r] d').

  Definition visits_list (run : fstate -> res (list bool * fstate)) (cs : list expr) : Prop :=
    forall stk d, dict_ok d ->
      fwp (run (stk, d)) (forallb wfb cs = false)
          (fun rs stk' d' => stk' = stk /\ visited d cs rs d').

  Lemma fgo_list_char cs : Forall visits cs -> visits_list (fgo_list frec1 cs) cs.
  Proof.
    induction 1 as [|c cs Hc _ IH]; intros stk d Hd; cbn [fgo_list].
    - split; [reflexivity | now apply visited_nil].
    - apply (fwp_bind (Hc stk d Hd)); [cbn; now intros ->|].
      intros r ? d1 [-> H1].
      apply (fwp_bind (IH stk d1 (visited_ok H1)));
        [cbn; intros ->; apply andb_false_r|].
      intros rs ? d2 [-> H2]. split; [reflexivity | exact (visited_app H1 H2)].
  Qed.

  Lemma fgo_kw_list (g : expr -> fstate -> res (bool * fstate)) kw :
    forall s, fgo_kw g kw s = fgo_list g (map snd kw) s.
  Proof.
    induction kw as [|kv kw IH]; intros s; [reflexivity|]. cbn [fgo_kw fgo_list map].
    destruct (g (snd kv) s) as [[rc s']| | | |]; cbn [bind]; try reflexivity. now rewrite IH.
  Qed.

  (* reduce(and_, <generator>) computes what reduce(and_, <list>) does *)
  Lemma fgo_and_list (g : expr -> fstate -> res (bool * fstate)) cs :
    forall acc s, fgo_and g cs acc s = '(rs, s') <- fgo_list g cs s ;; Ok (fold_left andb rs acc, s').
  Proof.
    induction cs as [|c cs IH]; intros acc s; [reflexivity|]. cbn [fgo_and fgo_list].
    destruct (g c s) as [[rc s']| | | |]; cbn [bind]; try reflexivity. rewrite IH.
    now destruct (fgo_list g cs s') as [[rs s'']| | | |].
  Qed.

  Lemma combine_post_map {A} (f : A -> bool) cs e stk d :
    cs <> [] -> combine_post (map f cs) (e :: stk, d) = Ok (forallb f cs, (stk, (e, forallb f cs) :: d)).
  Proof. destruct cs as [|c cs]; [contradiction|]. intros _. cbn. now rewrite fold_andb. Qed.

  Lemma node_char e stk d0 rs d :
    children e <> [] -> visited d0 (children e) rs d ->
    fwp (combine_post rs (e :: stk, d)) (wfb e = false)
        (fun r stk' d' => stk' = stk /\ visited d0 [e] [r] d').
  Proof.
    intros Hne H. pose proof (visited_wfb H) as Hw. rewrite <- (wfb_children e Hne) in Hw.
    rewrite (visited_res H), (combine_post_map _ _ _ _ _ Hne), <- (isconst_children free e Hne).
    split; [reflexivity | exact (visited_node d0 e _ d Hw H)].
  Qed.

  Lemma fgo_and_char cs : Forall visits cs -> forall acc stk d, dict_ok d ->
    fwp (fgo_and frec1 cs acc (stk, d)) (forallb wfb cs = false)
        (fun r stk' d' => stk' = stk /\ exists rs, r = fold_left andb rs acc /\ visited d cs rs d').
  Proof.
    intros H acc stk d Hd. rewrite fgo_and_list.
    apply (fwp_bind (fgo_list_char cs H stk d Hd)); [auto|].
    intros rs ? d' [-> H']. cbn. eauto.
  Qed.

  Lemma atom_char e : is_atomic e = true -> visits e.
  Proof.
    intros E stk d Hd. destruct e as [z|x| | | | | | |]; try discriminate E.
    - split; [reflexivity|]. apply (visited_node d (EInt z) [] d); [reflexivity | now apply visited_nil].
    - split; [reflexivity|]. apply (visited_node d (EVar x) [] d); [reflexivity | now apply visited_nil].
  Qed.

  (* CombineMapper.map_sum and map_product run the same code *)
  Lemma commut_char (mk : list expr -> expr) l :
    mk = ESum \/ mk = EProd -> Forall visits l -> visits (mk l).
  Proof.
    intros [-> | ->] IH stk d Hd.
    all: cbn [fmap fpop push fst snd bind]; destruct l as [|c cs]; [reflexivity|].
    all: inversion IH as [|? ? Hc Hcs]; subst.
    all: apply (fwp_bind (Hc stk d Hd)); [cbn; now intros ->|]; intros r0 ? d1 [-> H1].
    all: apply (fwp_bind (fgo_and_char cs Hcs r0 stk d1 (visited_ok H1)));
      [cbn; intros ->; apply andb_false_r|]; intros r ? d2 (-> & rs & -> & H2).
    (* map_sum popped the node before visiting the children, node_char speaks of combine_post, which pops it
       after: with the node on top of the stack both put (node, r) in front of d2 and leave stk, and the two
       sides compute to the same Ok *)
    all: eapply (node_char _ stk d (r0 :: rs) d2); [|exact (visited_app H1 H2)]; discriminate.
  Qed.

  Lemma bin_char (mk : expr -> expr -> expr) a b :
    mk = EQuot \/ mk = EPow -> visits a -> visits b -> visits (mk a b).
  Proof.
    intros [-> | ->] IHa IHb stk d Hd.
    all: cbn [fmap push fst snd].
    all: apply (fwp_bind (IHa _ d Hd)); [cbn; now intros ->|]; intros ra ? d1 [-> H1].
    all: apply (fwp_bind (IHb _ d1 (visited_ok H1))); [cbn; intros ->; apply andb_false_r|];
      intros rb ? d2 [-> H2].
    all: eapply (node_char _ stk d _ d2); [|exact (visited_app H1 H2)]; discriminate.
  Qed.

  Lemma fmap_char e : visits e.
  Proof.
    induction e as [z|x|l IH|l IH|a b IHa IHb|a b IHa IHb|f l IH|f l kw IH IHk|a IH] using expr_ind'.
    - now apply atom_char.
    - now apply atom_char.
    - apply (commut_char ESum); auto.
    - apply (commut_char EProd); auto.
    - apply (bin_char EQuot); auto.
    - apply (bin_char EPow); auto.
    - intros stk d Hd. cbn [fmap push fst snd].
      apply (fwp_bind (atom_char (EVar f) eq_refl _ d Hd)); [discriminate|]. intros rf ? d1 [-> H1].
      apply (fwp_bind (fgo_list_char l IH _ d1 (visited_ok H1))); [auto|].
      intros rs ? d2 [-> H2].
      exact (node_char (ECall f l) stk d _ d2 ltac:(discriminate) (visited_app H1 H2)).
    - intros stk d Hd. cbn [fmap push fst snd].
      apply (fwp_bind (atom_char (EVar f) eq_refl _ d Hd)); [discriminate|]. intros rf ? d1 [-> H1].
      apply (fwp_bind (fgo_list_char l IH _ d1 (visited_ok H1))); [cbn; now intros ->|].
      intros rs ? d2 [-> H2]. rewrite fgo_kw_list. apply Forall_map in IHk.
      apply (fwp_bind (fgo_list_char _ IHk _ d2 (visited_ok H2)));
        [cbn; rewrite forallb_map; intros ->; apply andb_false_r|].
      intros rk ? d3 [-> H3].
      exact (node_char (ECallKw f l kw) stk d _ d3 ltac:(discriminate)
               (visited_app (visited_app H1 H2) H3)).
    - intros stk d Hd. cbn [fmap push fst snd].
      apply (fwp_bind (IH _ d Hd)); [auto|]. intros ra ? d1 [-> H1].
      exact (node_char (ENot a) stk d _ d1 ltac:(discriminate) H1).
  Qed.

  Lemma seed_ok_gen l d : (forall x, In x l -> In x free) -> dict_ok d ->
    dict_ok (fold_left (fun d x => (EVar x, false) :: d) l d).
  Proof.
    revert d. induction l as [|x l IH]; intros d Hl Hd; cbn; [exact Hd|].
    apply IH; [intros y Hy; apply Hl; now right|].
    constructor; [|exact Hd]. cbn.
    assert (H : mem x free = true) by (apply existsb_str_In, Hl; now left). now rewrite H.
  Qed.

  Lemma seed_ok : dict_ok (seed_dict free).
  Proof. apply seed_ok_gen; [auto | constructor]. Qed.

  Lemma find_char e :
    match find true free e with
    | Ok d => wfb e = true /\ covers d (subs e)
    | TypeError => wfb e = false
    | _ => False
    end.
  Proof.
    unfold find, push. cbn [fst snd]. generalize (fmap_char e [] (seed_dict free) seed_ok).
    destruct (fmap true free e ([e], seed_dict free)) as [[r [stk' d']]| | | |]; cbn [bind fwp snd];
      auto.
    intros [_ H]. pose proof (visited_wfb H) as Hw. pose proof (visited_covers H) as Hcov. cbn in Hw, Hcov.
    now rewrite andb_true_r in Hw; rewrite app_nil_r in Hcov.
  Qed.
End FinderProofs.

(* The collapsing mapper consults its classification only on subexpressions of its argument. *)
Section Ext.
  Variable fresh : nat -> string.
  Variables look1 look2 : expr -> option bool.
  Notation crec1 := (crec_gen fresh look1 (cmap fresh look1)).
  Notation crec2 := (crec_gen fresh look2 (cmap fresh look2)).

  Lemma crec_gen_ext c :
    look1 c = look2 c -> (forall st, cmap fresh look1 c st = cmap fresh look2 c st) ->
    forall st, crec1 c st = crec2 c st.
  Proof. intros Hl Hc st. unfold crec_gen. now rewrite Hl, !Hc. Qed.

  Lemma cloop_ext rec1 rec2 l :
    (forall c, In c l -> look1 c = look2 c /\ forall st, rec1 c st = rec2 c st) ->
    forall st, cloop look1 rec1 l st = cloop look2 rec2 l st.
  Proof.
    induction l as [|c l IH]; intros H st; [reflexivity|].
    cbn [cloop]. destruct (H c (or_introl eq_refl)) as [Hl Hr]. rewrite Hl.
    assert (IH' : forall st, cloop look1 rec1 l st = cloop look2 rec2 l st)
      by (apply IH; intros c' Hc'; apply H; now right).
    destruct (look2 c) as [[|]|]; [now rewrite IH' | | reflexivity].
    rewrite Hr. destruct (rec2 c st) as [[c' s1]| | | |]; cbn [bind]; try reflexivity.
    now rewrite IH'.
  Qed.

  Lemma cgo_ext rec1 rec2 l :
    (forall c, In c l -> forall st, rec1 c st = rec2 c st) ->
    forall st, cgo rec1 l st = cgo rec2 l st.
  Proof.
    induction l as [|c l IH]; intros H st; [reflexivity|].
    cbn [cgo]. rewrite (H c (or_introl eq_refl)).
    destruct (rec2 c st) as [[c' s1]| | | |]; cbn [bind]; try reflexivity.
    rewrite IH; [reflexivity|]. intros c'' Hc''. apply H. now right.
  Qed.

  Lemma cgo_kw_ext rec1 rec2 kw :
    (forall kv, In kv kw -> forall st, rec1 (snd kv) st = rec2 (snd kv) st) ->
    forall st, cgo_kw rec1 kw st = cgo_kw rec2 kw st.
  Proof.
    induction kw as [|kv kw IH]; intros H st; [reflexivity|].
    cbn [cgo_kw]. rewrite (H kv (or_introl eq_refl)).
    destruct (rec2 (snd kv) st) as [[c' s1]| | | |]; cbn [bind]; try reflexivity.
    rewrite IH; [reflexivity|]. intros kv' Hkv'. apply H. now right.
  Qed.

  Lemma cmap_ext e : (forall s, In s (subs e) -> look1 s = look2 s) ->
    forall st, cmap fresh look1 e st = cmap fresh look2 e st.
  Proof.
    induction e as [e IH] using expr_children_ind. intros H.
    assert (R : forall c, In c (children e) -> look1 c = look2 c /\ forall st, crec1 c st = crec2 c st).
    { intros c Hc. rewrite Forall_forall in IH.
      assert (Hs : forall s, In s (subs c) -> look1 s = look2 s)
        by (intros s Hs; exact (H s (In_subs_child e c s Hc Hs))).
      split; [apply Hs, In_subs_self | apply crec_gen_ext; [apply Hs, In_subs_self | exact (IH c Hc Hs)]]. }
    destruct e as [z|x|l|l|a b|a b|f l|f l kw|a]; cbn [cmap children] in *; intros st; try reflexivity.
    - now rewrite (cloop_ext _ crec2 l R).
    - now rewrite (cloop_ext _ crec2 l R).
    - rewrite (proj2 (R a (or_introl eq_refl))).
      destruct (crec2 a st) as [[a' s1]| | | |]; cbn [bind]; try reflexivity.
      now rewrite (proj2 (R b (or_intror (or_introl eq_refl)))).
    - rewrite (proj2 (R a (or_introl eq_refl))).
      destruct (crec2 a st) as [[a' s1]| | | |]; cbn [bind]; try reflexivity.
      now rewrite (proj2 (R b (or_intror (or_introl eq_refl)))).
    - rewrite (cgo_ext _ crec2 l); [reflexivity|]. intros c Hc. apply R. now right.
    - rewrite (cgo_ext _ crec2 l) by (intros c Hc; apply R; right; apply in_or_app; now left).
      destruct (cgo crec2 l st) as [[l' s1]| | | |]; cbn [bind]; try reflexivity.
      rewrite (cgo_kw_ext _ crec2 kw); [reflexivity|].
      intros kv Hkv. apply R. right. apply in_or_app. right. now apply in_map.
    - now rewrite (proj2 (R a (or_introl eq_refl))).
  Qed.
End Ext.

Section Monoid.
  Variable op : Z -> Z -> Z.
  Variable u : Z.
  Hypothesis op_assoc : forall a b c, op a (op b c) = op (op a b) c.
  Hypothesis op_comm : forall a b, op a b = op b a.
  Hypothesis op_unit : forall a, op a u = a.

  Notation big := (fold_right op u).

  Lemma big_app l1 l2 : big (l1 ++ l2) = op (big l1) (big l2).
  Proof.
    induction l1 as [|a l1 IH]; cbn; [now rewrite op_comm, op_unit|].
    now rewrite IH, op_assoc.
  Qed.

  Lemma big_partition {A} (g : A -> Z) (p : A -> bool) l :
    big (map g l) = op (big (map g (filter p l))) (big (map g (filter (fun x => negb (p x)) l))).
  Proof.
    induction l as [|a l IH]; cbn; [now rewrite op_unit|].
    rewrite IH. destruct (p a); cbn.
    - now rewrite op_assoc.
    - rewrite !op_assoc. f_equal. apply op_comm.
  Qed.
End Monoid.

Lemma filter_length_split {A} (p : A -> bool) l :
  List.length l = List.length (filter p l) + List.length (filter (fun x => negb (p x)) l).
Proof. induction l as [|a l IH]; cbn; [reflexivity|]. destruct (p a); cbn; lia. Qed.

Section EvalProofs.
  Variable qop pop : Z -> Z -> Z.
  Variable nop : Z -> Z.
  Variable F : string -> list Z -> Z.
  Variable Fk : string -> list Z -> list (string * Z) -> Z.
  Notation ev := (eval qop pop nop F Fk).

  Definition agree (N : list string) (rho rho' : string -> Z) : Prop :=
    forall x, In x N -> rho' x = rho x.

  Lemma agree_mono N N' rho rho' : incl N N' -> agree N' rho rho' -> agree N rho rho'.
  Proof. intros Hi H x Hx. apply H, Hi, Hx. Qed.

  Lemma map_ev_agree l :
    Forall (fun e => forall rho rho', agree (names e) rho rho' -> ev rho' e = ev rho e) l ->
    forall rho rho', agree (flat_map names l) rho rho' -> map (ev rho') l = map (ev rho) l.
  Proof.
    induction 1 as [|c l Hc _ IH]; intros rho rho' Ha; [reflexivity|]. cbn [map flat_map] in *. f_equal.
    - apply Hc. exact (agree_mono _ _ _ _ (incl_appl _ (incl_refl _)) Ha).
    - apply IH. exact (agree_mono _ _ _ _ (incl_appr _ (incl_refl _)) Ha).
  Qed.

  Lemma map_ev_agree_kw (kw : list (string * expr)) :
    Forall (fun kv => forall rho rho', agree (names (snd kv)) rho rho' -> ev rho' (snd kv) = ev rho (snd kv)) kw ->
    forall rho rho', agree (flat_map (fun kv => names (snd kv)) kw) rho rho' ->
    map (fun kv => (fst kv, ev rho' (snd kv))) kw = map (fun kv => (fst kv, ev rho (snd kv))) kw.
  Proof.
    induction 1 as [|kv kw Hc _ IH]; intros rho rho' Ha; [reflexivity|]. cbn [map flat_map] in *. f_equal.
    - f_equal. apply Hc. exact (agree_mono _ _ _ _ (incl_appl _ (incl_refl _)) Ha).
    - apply IH. exact (agree_mono _ _ _ _ (incl_appr _ (incl_refl _)) Ha).
  Qed.

  Lemma eval_agree e : forall rho rho', agree (names e) rho rho' -> ev rho' e = ev rho e.
  Proof.
    induction e as [z|x|l IH|l IH|a b IHa IHb|a b IHa IHb|f l IH|f l kw IH IHk|a IH] using expr_ind';
      intros rho rho' H; cbn [eval names] in *.
    - reflexivity.
    - apply H. now left.
    - f_equal. now apply map_ev_agree.
    - f_equal. now apply map_ev_agree.
    - f_equal; [apply IHa | apply IHb]; (eapply agree_mono; [|exact H]; auto with datatypes).
    - f_equal; [apply IHa | apply IHb]; (eapply agree_mono; [|exact H]; auto with datatypes).
    - f_equal. apply (map_ev_agree l IH), (agree_mono _ _ _ _ (incl_tl _ (incl_refl _)) H).
    - f_equal; [apply (map_ev_agree l IH) | apply (map_ev_agree_kw kw IHk)];
        (eapply agree_mono; [|exact H]; auto with datatypes).
    - f_equal. now apply IH.
  Qed.
End EvalProofs.

Lemma filter_all {A} (p : A -> bool) l : forallb p (filter p l) = true.
Proof. apply forallb_forall. intros x Hx. now apply filter_In in Hx. Qed.

Lemma flat_map_filter_incl {A B} (g : A -> list B) (p : A -> bool) l :
  incl (flat_map g (filter p l)) (flat_map g l).
Proof.
  intros x Hx. apply in_flat_map in Hx. destruct Hx as (a & Ha & Hxa). apply in_flat_map.
  exists a. split; auto. apply filter_In in Ha. tauto.
Qed.

(* rho' gives the new name of xc the value its term has under rho *)
Definition bound qop pop nop F Fk (rho rho' : string -> Z) (xc : string * expr) : Prop :=
  rho' (fst xc) = eval qop pop nop F Fk rho (snd xc).

(* e' stands for e once the names of new are bound: they have the same value whenever rho' agrees with rho on N
   (the names of the expression being collapsed) and binds every name of new to its term, under every interpretation
   of the operators and function symbols.  bind_all and substitution are two such rho' (bind_all_spec,
   ext_env_spec). *)
Definition same_val (N : list string) (new : list (string * expr)) (e' e : expr) : Prop :=
  forall qop pop nop F Fk rho rho',
    agree N rho rho' -> Forall (bound qop pop nop F Fk rho rho') new ->
    eval qop pop nop F Fk rho' e' = eval qop pop nop F Fk rho e.

Lemma same_val_list N new l' l : Forall2 (same_val N new) l' l ->
  forall qop pop nop F Fk rho rho',
    agree N rho rho' -> Forall (bound qop pop nop F Fk rho rho') new ->
    map (eval qop pop nop F Fk rho') l' = map (eval qop pop nop F Fk rho) l.
Proof. induction 1; intros; cbn; f_equal; auto. Qed.

Section CollapseSpec.
  Variable free : list string.
  Variable fresh : nat -> string.
  Variable look : expr -> option bool.
  Notation isc := (isconst free).
  Notation nisc := (fun c => negb (isconst free c)).
  Notation len := (@List.length (string * expr)).
  Notation crec := (crec_gen fresh look (cmap fresh look)).

  (* what is required of a hoisted term, and of the names given to a run of hoisted terms starting at the n-th call
     of the supplier *)
  Definition hoisted_ok (N : list string) (xc : string * expr) : Prop :=
    isc (snd xc) = true /\ is_atomic (snd xc) = false /\ incl (names (snd xc)) N.
  Definition fresh_seq (n : nat) (new : list (string * expr)) : Prop :=
    map fst new = map fresh (seq n (len new)).

  Lemma fresh_seq_app n new1 new2 :
    fresh_seq n new1 -> fresh_seq (n + len new1) new2 -> fresh_seq n (new1 ++ new2).
  Proof. unfold fresh_seq. intros H1 H2. now rewrite map_app, app_length, seq_app, map_app, H1, H2. Qed.

  Lemma hoisted_mono N N' l : incl N N' -> Forall (hoisted_ok N) l -> Forall (hoisted_ok N') l.
  Proof.
    intros Hi. apply Forall_impl. intros xc (H1 & H2 & H3). repeat split; auto. exact (incl_tran H3 Hi).
  Qed.

  (* a run of the collapsing mapper from state s: it does not raise, calls the supplier len new times, appends new
     (rightly named, every term constant, not atomic, over N) to the log, and its result a is related by V to every
     list of bindings all that contains new.  Asking V of every such all, not of new alone, is what lets Spec_bind
     hand what the first run established to the conclusion of the second at the same all, so that no value relation
     is ever carried from new1 to new1 ++ new2; all := new gives the facts that do not depend on all. *)
  Definition Spec {A} (N : list string) (V : A -> list (string * expr) -> Prop)
             (s : cstate) (out : res (A * cstate)) : Prop :=
    exists a new,
      out = Ok (a, (fst s + len new, snd s ++ new)) /\
      fresh_seq (fst s) new /\ Forall (hoisted_ok N) new /\ forall all, incl new all -> V a all.

  Lemma Spec_ret {A} N (V : A -> _ -> Prop) s a : (forall all, V a all) -> Spec N V s (Ok (a, s)).
  Proof.
    intros H. exists a, []. cbn. rewrite Nat.add_0_r, app_nil_r, <- surjective_pairing.
    repeat split; auto.
  Qed.

  Lemma Spec_bind {A B} N (V1 : A -> _ -> Prop) (V : B -> _ -> Prop) s m
        (k : A -> cstate -> res (B * cstate)) :
    Spec N V1 s m ->
    (forall a new1, V1 a new1 -> forall s1, Spec N (fun b all => V1 a all -> V b all) s1 (k a s1)) ->
    Spec N V s ('(a, s1) <- m ;; k a s1).
  Proof.
    intros (a & new1 & -> & F1 & H1 & Va) Hk.
    destruct (Hk a new1 (Va _ (incl_refl _)) (fst s + len new1, snd s ++ new1))
      as (b & new2 & E & F2 & H2 & Vb).
    exists b, (new1 ++ new2). cbn [bind fst snd] in *. rewrite E, app_length, Nat.add_assoc, app_assoc.
    repeat split; auto.
    - now apply fresh_seq_app.
    - apply Forall_app. auto.
    - intros all Hi. apply incl_app_inv in Hi. destruct Hi. auto.
  Qed.

  Arguments Spec_bind {A B N V1 V s m k}.

  Lemma Spec_impl {A} N (V V' : A -> _ -> Prop) s out :
    (forall a all, V a all -> V' a all) -> Spec N V s out -> Spec N V' s out.
  Proof. intros HV (a & new & H). exists a, new. intuition. Qed.

  Lemma Spec_map {A B} N (V1 : A -> _ -> Prop) (V : B -> _ -> Prop) s m (g : A -> B) :
    Spec N V1 s m -> (forall a all, V1 a all -> V (g a) all) ->
    Spec N V s ('(a, s1) <- m ;; Ok (g a, s1)).
  Proof. intros (a & new & -> & H) HV. exists (g a), new. intuition. Qed.

  Arguments Spec_map {A B N V1 V s m g}.
  Arguments Spec_impl {A N V V' s out}.

  Notation SpecE N e := (Spec N (fun e' new => same_val N new e' e)).

  Lemma Spec_hoist N c s :
    isc c = true -> is_atomic c = false -> incl (names c) N -> SpecE N c s (Ok (hoist fresh c s)).
  Proof.
    intros Hi Hat Hn. exists (EVar (fresh (fst s))), [(fresh (fst s), c)]. cbn [hoist List.length].
    rewrite Nat.add_1_r. repeat split; [repeat constructor; auto|].
    intros all Hin qop pop nop F Fk rho rho' _ Hb. rewrite Forall_forall in Hb.
    exact (Hb _ (Hin _ (or_introl eq_refl))).
  Qed.

  (* what the mapper needs of its argument: no empty Sum/Product, the classification right on every subexpression
     (all it consults), the names among N *)
  Definition ready (N : list string) (e : expr) : Prop :=
    wfb e = true /\ (forall x, In x (subs e) -> look x = Some (isc x)) /\ incl (names e) N.

  Lemma ready_wfb N e : ready N e -> wfb e = true.
  Proof. intros H. apply H. Qed.
  Lemma ready_look N e : ready N e -> look e = Some (isc e).
  Proof. intros H. apply H, In_subs_self. Qed.
  Lemma ready_names N e : ready N e -> incl (names e) N.
  Proof. intros H. apply H. Qed.

  Lemma ready_child N e c : ready N e -> In c (children e) -> ready N c.
  Proof.
    intros (Hw & Hl & Hn) Hc.
    assert (Hne : children e <> []) by (intros E; rewrite E in Hc; destruct Hc).
    rewrite (wfb_children e Hne), forallb_forall in Hw. rewrite (names_children e Hne) in Hn.
    repeat split; auto.
    - intros x Hx. eapply Hl, In_subs_child; eauto.
    - intros x Hx. apply Hn, in_flat_map. eauto.
  Qed.

  Definition cmap_ok (e : expr) : Prop :=
    forall N, ready N e -> forall s, SpecE N e s (cmap fresh look e s).
  Definition crec_ok (N : list string) (e : expr) : Prop :=
    ready N e /\ forall s, SpecE N e s (crec e s).

  Lemma crec_spec N e : cmap_ok e -> ready N e -> crec_ok N e.
  Proof.
    intros Hc R. split; [exact R|]. intros s. unfold crec_gen. rewrite (ready_look N e R).
    destruct (is_atomic e) eqn:Hat; [now apply Hc|].
    destruct (isc e) eqn:Hi; [apply Spec_hoist; [exact Hi | exact Hat | exact (ready_names N e R)] | now apply Hc].
  Qed.

  Lemma crec_children N e l :
    ready N e -> incl l (children e) -> Forall cmap_ok l -> Forall (crec_ok N) l.
  Proof.
    intros R Hi H. rewrite Forall_forall in *. intros c Hc.
    apply crec_spec; [auto | exact (ready_child N e c R (Hi c Hc))].
  Qed.

  Lemma cgo_spec N l : Forall (crec_ok N) l ->
    forall s, Spec N (fun l' new => Forall2 (same_val N new) l' l) s (cgo crec l s).
  Proof.
    induction 1 as [|c l [_ Hc] _ IH]; intros s; cbn [cgo]; [apply Spec_ret; constructor|].
    apply (Spec_bind (Hc s)). intros c' _ _ s1.
    apply (Spec_map (IH s1)). intros l' all Hl' Hc'. now constructor.
  Qed.

  Definition same_kw (N : list string) (new : list (string * expr)) (kv' kv : string * expr) : Prop :=
    fst kv' = fst kv /\ same_val N new (snd kv') (snd kv).

  Lemma same_val_kw N new kw' kw : Forall2 (same_kw N new) kw' kw ->
    forall qop pop nop F Fk rho rho',
      agree N rho rho' -> Forall (bound qop pop nop F Fk rho rho') new ->
      map (fun kv => (fst kv, eval qop pop nop F Fk rho' (snd kv))) kw' =
      map (fun kv => (fst kv, eval qop pop nop F Fk rho (snd kv))) kw.
  Proof.
    induction 1 as [|kv' kv kw' kw [Hk Hv] _ IH]; intros; cbn [map]; [reflexivity|].
    rewrite Hk. f_equal; [f_equal|]; auto.
  Qed.

  Lemma cgo_kw_spec N kw : Forall (crec_ok N) (map snd kw) ->
    forall s, Spec N (fun kw' new => Forall2 (same_kw N new) kw' kw) s (cgo_kw crec kw s).
  Proof.
    induction kw as [|kv kw IH]; intros H s; cbn [cgo_kw]; [apply Spec_ret; constructor|].
    inversion H as [|? ? [_ Hc] Hkw]; subst.
    apply (Spec_bind (Hc s)). intros c' _ _ s1.
    apply (Spec_map (IH Hkw s1)). intros kw' all Hkw' Hc'. now repeat constructor.
  Qed.

  Lemma cloop_spec N l : Forall (crec_ok N) l ->
    forall s, Spec N (fun r new => fst r = filter isc l /\
                                   Forall2 (same_val N new) (snd r) (filter nisc l))
                   s (cloop look crec l s).
  Proof.
    induction 1 as [|c l [R Hc] _ IH]; intros s; cbn [cloop filter].
    - apply Spec_ret. split; [reflexivity | constructor].
    - rewrite (ready_look N c R). destruct (isc c); cbn [negb].
      + apply (Spec_bind (IH s)). intros [cs ncs] _ _ s1. apply Spec_ret.
        cbn [fst snd]. now intros all [-> Hncs].
      + apply (Spec_bind (Hc s)). intros c' _ _ s1.
        apply (Spec_bind (IH s1)). intros [cs ncs] _ _ s2. apply Spec_ret.
        cbn [fst snd]. intros all [Hcs Hncs] Hc'. split; [exact Hcs | now constructor].
  Qed.

  (* Sum and Product share map_commut_assoc: proved once for a constructor mk whose value is the fold of a
     commutative monoid (op, u), instantiated twice in cmap_spec *)
  Section Commut.
    Variable mk : list expr -> expr.
    Variable op : Z -> Z -> Z.
    Variable u : Z.
    Hypothesis op_assoc : forall a b c, op a (op b c) = op (op a b) c.
    Hypothesis op_comm : forall a b, op a b = op b a.
    Hypothesis op_unit : forall a, op a u = a.
    Hypothesis mk_ev : forall qop pop nop F Fk rho l,
      eval qop pop nop F Fk rho (mk l) = fold_right op u (map (eval qop pop nop F Fk rho) l).
    Hypothesis mk_names : forall l, names (mk l) = flat_map names l.
    Hypothesis mk_isc : forall l, isc (mk l) = forallb isc l.
    Hypothesis mk_atomic : forall l, is_atomic (mk l) = false.
    Notation big := (fold_right op u).

    Definition fold_part (c0 : expr) (crest : list expr) (s : cstate) : expr * cstate :=
      match crest with
      | [] => if is_atomic c0 then (c0, s) else hoist fresh c0 s
      | _ => hoist fresh (mk (c0 :: crest)) s
      end.

    Lemma fold_part_spec N c0 crest s :
      forallb isc (c0 :: crest) = true -> incl (flat_map names (c0 :: crest)) N ->
      SpecE N (mk (c0 :: crest)) s (Ok (fold_part c0 crest s)).
    Proof.
      intros Hall Hinc. unfold fold_part. destruct crest as [|c1 crest].
      - cbn in Hall, Hinc. rewrite andb_true_r in Hall. rewrite app_nil_r in Hinc.
        assert (Hone : forall e' new, same_val N new e' c0 -> same_val N new e' (mk [c0])).
        { intros e' new H qop pop nop F Fk rho rho' Ha Hb. rewrite mk_ev. cbn. rewrite op_unit.
          now apply H. }
        destruct (is_atomic c0) eqn:Hat.
        + apply Spec_ret. intros all. apply Hone. intros qop pop nop F Fk rho rho' Ha _. apply eval_agree.
          now apply (agree_mono _ N).
        + apply (Spec_impl Hone). now apply Spec_hoist.
      - apply Spec_hoist; [now rewrite mk_isc | apply mk_atomic | now rewrite mk_names].
    Qed.

    Lemma finish_unfold c0 crest ncs s :
      finish_commut fresh mk (c0 :: crest) ncs s =
      '(folded, s') <- Ok (fold_part c0 crest s) ;;
      Ok (match ncs with [] => folded | _ => mk (folded :: ncs) end, s').
    Proof. now destruct ncs. Qed.

    (* how many non-constants cloop returned is known before finish_commut runs (it excludes the assertion); that
       they have the values of the non-constants of l is asked at the list of bindings the conclusion is about *)
    Lemma finish_spec N l ncs :
      l <> [] -> incl (flat_map names l) N -> List.length ncs = List.length (filter nisc l) ->
      forall s, Spec N (fun e' all => Forall2 (same_val N all) ncs (filter nisc l) ->
                                      same_val N all e' (mk l)) s
                     (finish_commut fresh mk (filter isc l) ncs s).
    Proof.
      intros Hne Hinc Hlen s.
      (* it is enough that e' evaluates to (constants of l) op (ncs) *)
      assert (Hval : forall all e',
                 (forall qop pop nop F Fk rho rho', agree N rho rho' ->
                    Forall (bound qop pop nop F Fk rho rho') all ->
                    eval qop pop nop F Fk rho' e' =
                    op (big (map (eval qop pop nop F Fk rho) (filter isc l)))
                       (big (map (eval qop pop nop F Fk rho') ncs))) ->
                 Forall2 (same_val N all) ncs (filter nisc l) -> same_val N all e' (mk l)).
      { intros all e' H Hncs qop pop nop F Fk rho rho' Ha Hb.
        rewrite (H _ _ _ _ _ _ _ Ha Hb), mk_ev, (big_partition op u op_assoc op_comm op_unit _ isc l).
        do 2 f_equal. now apply (same_val_list _ _ _ _ Hncs). }
      pose proof (filter_all isc l) as Hall. pose proof (flat_map_filter_incl names isc l) as Hcs.
      destruct (filter isc l) as [|c0 crest] eqn:Ecs.
      - destruct ncs as [|x [|y ncs']]; cbn [finish_commut].
        + exfalso. pose proof (filter_length_split isc l) as Hl.
          rewrite Ecs, <- Hlen in Hl. destruct l; [auto | discriminate].
        + apply Spec_ret. intros all. apply Hval. intros. cbn. now rewrite op_unit, op_comm, op_unit.
        + apply Spec_ret. intros all. apply Hval. intros. rewrite mk_ev. cbn [map fold_right].
          now rewrite (op_comm u), op_unit.
      - rewrite finish_unfold.
        apply (Spec_map (fold_part_spec N c0 crest s Hall (incl_tran Hcs Hinc))).
        intros folded all Hf. apply Hval. intros qop pop nop F Fk rho rho' Ha Hb.
        rewrite <- mk_ev, <- (Hf qop pop nop F Fk rho rho' Ha Hb).
        destruct ncs; [cbn; now rewrite op_unit | now rewrite mk_ev].
    Qed.

    Lemma commut_spec N l : l <> [] -> incl (flat_map names l) N -> Forall (crec_ok N) l ->
      forall s, SpecE N (mk l) s
                      ('(cs, ncs, s') <- cloop look crec l s ;; finish_commut fresh mk cs ncs s').
    Proof.
      intros Hne Hinc H s. apply (Spec_bind (cloop_spec N l H s)).
      intros [cs ncs] new1 [Hcs Hncs] s1. cbn [fst snd] in *. subst cs.
      eapply Spec_impl; [|apply (finish_spec N l ncs Hne Hinc (Forall2_length _ _ _ Hncs))].
      intros e' all Hf Hc. apply Hf, Hc.
    Qed.
  End Commut.

  Lemma bin_spec (mk : expr -> expr -> expr) N a b :
    children (mk a b) = [a; b] ->
    (forall new a' b', same_val N new a' a -> same_val N new b' b -> same_val N new (mk a' b') (mk a b)) ->
    cmap_ok a -> cmap_ok b -> ready N (mk a b) ->
    forall s, SpecE N (mk a b) s ('(a', s1) <- crec a s ;; '(b', s2) <- crec b s1 ;; Ok (mk a' b', s2)).
  Proof.
    intros Hch Hmk Ha Hb R s.
    assert (Hab : Forall (crec_ok N) [a; b])
      by (apply (crec_children N (mk a b)); [exact R | now rewrite Hch | now repeat constructor]).
    inversion Hab as [|? ? [_ Ha1] Hb0]; inversion Hb0 as [|? ? [_ Hb1] _]; subst.
    apply (Spec_bind (Ha1 s)). intros a' _ _ s1.
    apply (Spec_map (Hb1 s1)). intros b' all Hb' Ha'. now apply Hmk.
  Qed.

  Lemma cmap_spec e : cmap_ok e.
  Proof.
    induction e as [z|x|l IH|l IH|a b IHa IHb|a b IHa IHb|f l IH|f l kw IH IHk|a IH] using expr_ind';
      intros N R s; cbn [cmap].
    - apply Spec_ret. now intros all qop pop nop F Fk rho rho' _ _.
    - apply Spec_ret. intros all qop pop nop F Fk rho rho' Ha _. apply Ha, (ready_names N _ R). now left.
    - apply (commut_spec ESum Z.add 0%Z Z.add_assoc Z.add_comm Z.add_0_r); try reflexivity.
      + intros ->. discriminate (ready_wfb N _ R).
      + exact (ready_names N _ R).
      + exact (crec_children N (ESum l) l R (incl_refl _) IH).
    - apply (commut_spec EProd Z.mul 1%Z Z.mul_assoc Z.mul_comm Z.mul_1_r); try reflexivity.
      + intros ->. discriminate (ready_wfb N _ R).
      + exact (ready_names N _ R).
      + exact (crec_children N (EProd l) l R (incl_refl _) IH).
    - apply bin_spec; auto.
      intros new a' b' Ha Hb qop pop nop F Fk rho rho' Hag Hbd. cbn [eval]. f_equal; auto.
    - apply bin_spec; auto.
      intros new a' b' Ha Hb qop pop nop F Fk rho rho' Hag Hbd. cbn [eval]. f_equal; auto.
    - apply (Spec_map (cgo_spec N l (crec_children N (ECall f l) l R (incl_tl _ (incl_refl _)) IH) s)).
      intros l' new Hl qop pop nop F Fk rho rho' Hag Hbd. cbn [eval]. f_equal. now apply (same_val_list N new).
    - apply Forall_map in IHk.
      apply (Spec_bind (cgo_spec N l (crec_children N (ECallKw f l kw) l R
                                        (incl_tl _ (incl_appl _ (incl_refl _))) IH) s)).
      intros l' _ _ s1.
      apply (Spec_map (cgo_kw_spec N kw (crec_children N (ECallKw f l kw) _ R
                                        (incl_tl _ (incl_appr _ (incl_refl _))) IHk) s1)).
      intros kw' all Hk Hl qop pop nop F Fk rho rho' Hag Hbd. cbn [eval]. f_equal.
      + now apply (same_val_list N all).
      + now apply (same_val_kw N all).
    - assert (Ha : crec_ok N a) by (apply crec_spec; [exact IH | apply (ready_child N _ a R); now left]).
      apply (Spec_map (proj2 Ha s)). intros a' new Ha' qop pop nop F Fk rho rho' Hag Hbd. cbn [eval]. f_equal.
      now apply Ha'.
  Qed.
End CollapseSpec.

Lemma aset_fresh d k v : ~ In k (map fst d) -> aset d k v = d ++ [(k, v)].
Proof.
  induction d as [|[k' v'] d IH]; cbn; intros H; [reflexivity|].
  destruct (String.eqb k' k) eqn:E.
  - apply String.eqb_eq in E. subst. exfalso. apply H. now left.
  - f_equal. apply IH. intros Hin. apply H. now right.
Qed.

Lemma dict_of_log_gen log : forall acc, NoDup (map fst (acc ++ log)) ->
  fold_left (fun d kv => aset d (fst kv) (snd kv)) log acc = acc ++ log.
Proof.
  induction log as [|[k v] log IH]; intros acc H; cbn [fold_left fst snd]; [now rewrite app_nil_r|].
  rewrite aset_fresh.
  - rewrite IH; rewrite <- app_assoc; [reflexivity | exact H].
  - rewrite map_app in H. cbn in H. apply NoDup_remove_2 in H. intros Hin. apply H.
    apply in_or_app. now left.
Qed.

Lemma dict_of_log_nodup log : NoDup (map fst log) -> dict_of_log log = log.
Proof. intros H. unfold dict_of_log. now rewrite dict_of_log_gen. Qed.

Lemma aset_Forall (Q : expr -> Prop) d k v :
  Forall (fun xc => Q (snd xc)) d -> Q v -> Forall (fun xc => Q (snd xc)) (aset d k v).
Proof.
  induction 1 as [|[k' v'] d Hh Hd IH]; intros Hv; cbn [aset]; [repeat constructor; exact Hv|].
  destruct (String.eqb k' k); constructor; cbn [snd] in *; auto.
Qed.

Lemma dict_of_log_Forall (Q : expr -> Prop) log :
  Forall (fun xc => Q (snd xc)) log -> Forall (fun xc => Q (snd xc)) (dict_of_log log).
Proof.
  unfold dict_of_log. intros H.
  assert (G : forall acc, Forall (fun xc => Q (snd xc)) acc ->
                          Forall (fun xc => Q (snd xc))
                                 (fold_left (fun d kv => aset d (fst kv) (snd kv)) log acc)).
  { induction H as [|[k v] log Hh _ IH]; intros acc Ha; cbn [fold_left]; [exact Ha|].
    apply IH. now apply aset_Forall. }
  apply G. constructor.
Qed.

Lemma isconst_names free e : isconst free e = true -> forall v, In v (names e) -> ~ In v free.
Proof.
  induction e as [e IH] using expr_children_ind. intros H v Hv.
  destruct (children e) as [|c cs] eqn:E.
  - destruct e; try discriminate E; cbn in E; subst; cbn in H, Hv; try contradiction.
    destruct Hv as [<-|[]]. intros Hin. apply existsb_str_In in Hin. unfold mem in H. now rewrite Hin in H.
  - assert (Hne : children e <> []) by (rewrite E; discriminate). rewrite <- E in IH.
    rewrite (isconst_children free e Hne), forallb_forall in H.
    rewrite (names_children e Hne) in Hv. apply in_flat_map in Hv. destruct Hv as (x & Hx & Hv).
    rewrite Forall_forall in IH. exact (IH x Hx (H x Hx) v Hv).
Qed.

Section Binding.
  Variable qop pop : Z -> Z -> Z.
  Variable nop : Z -> Z.
  Variable F : string -> list Z -> Z.
  Variable Fk : string -> list Z -> list (string * Z) -> Z.
  Notation ev := (eval qop pop nop F Fk).
  Notation ball := (bind_all qop pop nop F Fk).
  Notation bnd := (bound qop pop nop F Fk).

  Lemma bind_all_cons rho x c r : ball rho ((x, c) :: r) = ball (upd rho x (ev rho c)) r.
  Proof. reflexivity. Qed.

  Lemma bind_all_other asg : forall rho y, ~ In y (map fst asg) -> ball rho asg y = rho y.
  Proof.
    induction asg as [|[x c] r IH]; intros rho y H; [reflexivity|].
    rewrite bind_all_cons, IH; [|intros Hin; apply H; now right].
    unfold upd. destruct (String.eqb y x) eqn:E; [|reflexivity].
    apply String.eqb_eq in E. subst. exfalso. apply H. now left.
  Qed.

  Lemma bind_all_spec N asg :
    NoDup (map fst asg) -> (forall x, In x (map fst asg) -> ~ In x N) ->
    Forall (fun xc => incl (names (snd xc)) N) asg ->
    forall rho, agree N rho (ball rho asg) /\ Forall (bnd rho (ball rho asg)) asg.
  Proof.
    induction asg as [|[x c] r IH]; intros Hnd Hfr Hinc rho.
    - split; [intros y _; reflexivity | constructor].
    - cbn [map fst] in Hnd, Hfr. inversion Hnd as [|? ? Hx Hnd']; subst.
      inversion Hinc as [|? ? Hc Hinc']; subst. cbn [snd] in Hc.
      set (rho1 := upd rho x (ev rho c)).
      assert (Hag1 : agree N rho rho1).
      { intros y Hy. unfold rho1, upd. destruct (String.eqb y x) eqn:E; [|reflexivity].
        apply String.eqb_eq in E. subst. exfalso. apply (Hfr x); auto. now left. }
      destruct (IH Hnd' (fun y Hy => Hfr y (or_intror Hy)) Hinc' rho1) as [Hag Hbd].
      rewrite bind_all_cons. fold rho1. split.
      + intros y Hy. rewrite (Hag y Hy). now apply Hag1.
      + constructor.
        * unfold bound. cbn [fst snd]. rewrite bind_all_other; [|exact Hx].
          unfold rho1, upd. now rewrite String.eqb_refl.
        * rewrite Forall_forall in *. intros [x' c'] Hin. specialize (Hbd _ Hin).
          unfold bound in *. cbn [fst snd] in *. rewrite Hbd. apply eval_agree.
          eapply agree_mono; [|exact Hag1]. exact (Hinc' _ Hin).
  Qed.

  Definition ext_env (rho : string -> Z) (asg : list (string * expr)) : string -> Z :=
    fun y => match alookup y asg with Some c => ev rho c | None => rho y end.

  Lemma eval_subst asg rho e : ev rho (subst asg e) = ev (ext_env rho asg) e.
  Proof.
    induction e as [z|x|l IH|l IH|a b IHa IHb|a b IHa IHb|f l IH|f l kw IH IHk|a IH] using expr_ind';
      cbn [subst eval].
    - reflexivity.
    - unfold ext_env. destruct (alookup x asg); reflexivity.
    - f_equal. rewrite map_map. apply map_ext_in. now apply Forall_forall.
    - f_equal. rewrite map_map. apply map_ext_in. now apply Forall_forall.
    - now rewrite IHa, IHb.
    - now rewrite IHa, IHb.
    - f_equal. rewrite map_map. apply map_ext_in. now apply Forall_forall.
    - f_equal.
      + rewrite map_map. apply map_ext_in. now apply Forall_forall.
      + rewrite map_map. apply map_ext_in. intros kv Hkv. cbn [fst snd]. f_equal.
        rewrite Forall_forall in IHk. now apply IHk.
    - now rewrite IH.
  Qed.

  Lemma alookup_none y asg : ~ In y (map fst asg) -> alookup y asg = None.
  Proof.
    induction asg as [|[x c] r IH]; intros H; [reflexivity|]. cbn [alookup].
    destruct (String.eqb y x) eqn:E.
    - apply String.eqb_eq in E. subst. exfalso. apply H. now left.
    - apply IH. intros Hin. apply H. now right.
  Qed.

  Lemma alookup_some x c asg : NoDup (map fst asg) -> In (x, c) asg -> alookup x asg = Some c.
  Proof.
    induction asg as [|[x' c'] r IH]; intros Hnd Hin; [destruct Hin|].
    cbn [map fst] in Hnd. inversion Hnd as [|? ? Hx Hnd']; subst. cbn [alookup].
    destruct Hin as [[= -> ->]|Hin]; [now rewrite String.eqb_refl|].
    destruct (String.eqb x x') eqn:E; [|now apply IH].
    apply String.eqb_eq in E. subst. exfalso. apply Hx. apply in_map_iff. now exists (x', c).
  Qed.

  Lemma ext_env_spec N asg :
    NoDup (map fst asg) -> (forall x, In x (map fst asg) -> ~ In x N) ->
    forall rho, agree N rho (ext_env rho asg) /\ Forall (bnd rho (ext_env rho asg)) asg.
  Proof.
    intros Hnd Hfr rho. split.
    - intros y Hy. unfold ext_env. rewrite alookup_none; [reflexivity|].
      intros Hin. exact (Hfr y Hin Hy).
    - apply Forall_forall. intros [x c] Hin. unfold bound, ext_env. cbn [fst snd].
      now rewrite (alookup_some x c asg Hnd Hin).
  Qed.
End Binding.

Definition look0 (free : list string) : expr -> option bool := fun s => Some (isconst free s).

Section Final.
  Variable fresh : nat -> string.
  Variable free : list string.

  Lemma collapse_char e :
    match collapse true fresh free e with
    | Ok (e', asg, n) =>
        wfb e = true /\
        exists new, asg = dict_of_log new /\ n = List.length new /\
          fresh_seq fresh 0 new /\ Forall (hoisted_ok free (names e)) new /\
          same_val (names e) new e' e
    | TypeError => wfb e = false
    | _ => False
    end.
  Proof.
    unfold collapse. generalize (find_char free e).
    destruct (find true free e) as [d| | | |]; cbn [bind]; auto.
    intros [Hw Hcov].
    destruct (cmap_spec free fresh (dget d) e (names e)) with (s := (0, @nil (string * expr)))
      as (e' & new & -> & Hs & Hh & Hv).
    - split; [exact Hw|]. split; [now apply Forall_forall | apply incl_refl].
    - cbn. split; [exact Hw|]. exists new. repeat split; auto. apply Hv, incl_refl.
  Qed.

  Lemma collapse_run e :
    match collapse true fresh free e with
    | Ok (e', asg, n) =>
        wfb e = true /\
        exists new, cmap fresh (look0 free) e (0, []) = Ok (e', (n, new)) /\ asg = dict_of_log new
    | TypeError => wfb e = false
    | _ => False
    end.
  Proof.
    unfold collapse. generalize (find_char free e).
    destruct (find true free e) as [d| | | |]; cbn [bind]; auto.
    intros [Hw Hcov]. rewrite (cmap_ext fresh (dget d) (look0 free) e) by (apply Forall_forall, Hcov).
    destruct (cmap_spec free fresh (look0 free) e (names e)) with (s := (0, @nil (string * expr)))
      as (e' & new & -> & _).
    - split; [exact Hw|]. split; [reflexivity | apply incl_refl].
    - cbn. split; [exact Hw|]. exists new. auto.
  Qed.

  Theorem collapse_total e : wfb e = true -> exists e' asg n, collapse true fresh free e = Ok (e', asg, n).
  Proof.
    intros Hw. generalize (collapse_char e).
    destruct (collapse true fresh free e) as [[[e' asg] n]| | | |]; try contradiction; eauto.
    intros Hf. rewrite Hw in Hf. discriminate.
  Qed.

  Theorem collapse_error e : wfb e = false -> collapse true fresh free e = TypeError.
  Proof.
    intros Hw. generalize (collapse_char e).
    destruct (collapse true fresh free e) as [[[e' asg] n]| | | |]; try contradiction; auto.
    intros (Hf & _). rewrite Hw in Hf. discriminate.
  Qed.

  Theorem collapse_constant e e' asg n :
    collapse true fresh free e = Ok (e', asg, n) ->
    Forall (fun xc => (forall v, In v free -> ~ In v (names (snd xc))) /\
                      is_atomic (snd xc) = false /\ incl (names (snd xc)) (names e)) asg.
  Proof.
    intros H. generalize (collapse_char e). rewrite H. intros (_ & new & -> & _ & _ & Hh & _).
    apply (dict_of_log_Forall
             (fun c => (forall v, In v free -> ~ In v (names c)) /\
                       is_atomic c = false /\ incl (names c) (names e))).
    eapply Forall_impl; [|exact Hh]. intros [x c] (H1 & H2 & H3). cbn [snd] in *.
    split; [|auto]. intros v Hv Hin. exact (isconst_names free c H1 v Hin Hv).
  Qed.

  Theorem collapse_once e e' asg n :
    collapse true fresh free e = Ok (e', asg, n) ->
    NoDup (map fresh (seq 0 n)) ->
    NoDup (map fst asg) /\ map fst asg = map fresh (seq 0 n) /\ List.length asg = n.
  Proof.
    intros H Hnd. generalize (collapse_char e). rewrite H. intros (_ & new & -> & -> & Hs & _).
    unfold fresh_seq in Hs. rewrite <- Hs in Hnd. rewrite (dict_of_log_nodup new Hnd).
    repeat split; auto.
  Qed.

  Theorem collapse_value e e' asg n :
    collapse true fresh free e = Ok (e', asg, n) ->
    NoDup (map fresh (seq 0 n)) ->
    (forall i, i < n -> ~ In (fresh i) (names e)) ->
    forall qop pop nop F Fk rho,
      eval qop pop nop F Fk (bind_all qop pop nop F Fk rho asg) e' = eval qop pop nop F Fk rho e /\
      eval qop pop nop F Fk rho (subst asg e') = eval qop pop nop F Fk rho e.
  Proof.
    intros H Hnd Hfr qop pop nop F Fk rho.
    generalize (collapse_char e). rewrite H. intros (_ & new & -> & -> & Hs & Hh & Hv).
    unfold fresh_seq in Hs. rewrite <- Hs in Hnd. rewrite (dict_of_log_nodup new Hnd).
    assert (Hfr' : forall x, In x (map fst new) -> ~ In x (names e)).
    { intros x Hx. rewrite Hs in Hx. apply in_map_iff in Hx. destruct Hx as (i & <- & Hi).
      apply in_seq in Hi. apply Hfr. lia. }
    assert (Hinc : Forall (fun xc => incl (names (snd xc)) (names e)) new).
    { eapply Forall_impl; [|exact Hh]. intros xc (_ & _ & H3). exact H3. }
    split.
    - destruct (bind_all_spec qop pop nop F Fk (names e) new Hnd Hfr' Hinc rho) as [Hag Hbd].
      now apply Hv.
    - rewrite eval_subst.
      destruct (ext_env_spec qop pop nop F Fk (names e) new Hnd Hfr' rho) as [Hag Hbd].
      now apply Hv.
  Qed.
End Final.

(* unary_combines = false (pass-through methods inherited from CombineMapper): a well-formed expression on which
   collapse_constants raises KeyError *)
Lemma collapse_unfixed_refuted :
  exists fresh free e, wfb e = true /\ collapse false fresh free e = KeyError.
Proof.
  exists fresh_v, ["x"], (ESum [EVar "x"; ENot (EVar "a")]). split; vm_compute; reflexivity.
Qed.

(* the hypotheses are satisfiable on a non-trivial input *)
Definition ex_expr : expr :=
  ESum [EVar "x";
        EProd [EVar "b"; EVar "a"; EVar "x"; ESum [EVar "a"; EInt 2]];
        ECall "f" [EProd [EVar "a"; EVar "b"]; EVar "x"; ECall "g" [EPow (EVar "a") (EInt 2)]];
        EQuot (ENot (EVar "a")) (ESum [EVar "b"; EInt 1]);
        EVar "a"; EInt 3].

Definition ex_expr' : expr :=
  ESum [EVar "v3"; EVar "x";
        EProd [EVar "v0"; EVar "x"];
        ECall "f" [EVar "v1"; EVar "x"; EVar "v2"]].

Definition ex_asg : list (string * expr) :=
  [("v0", EProd [EVar "b"; EVar "a"; ESum [EVar "a"; EInt 2]]);
   ("v1", EProd [EVar "a"; EVar "b"]);
   ("v2", ECall "g" [EPow (EVar "a") (EInt 2)]);
   ("v3", ESum [EQuot (ENot (EVar "a")) (ESum [EVar "b"; EInt 1]); EVar "a"; EInt 3])].

Example ex_collapse_exact : collapse true fresh_v ["x"] ex_expr = Ok (ex_expr', ex_asg, 4).
Proof. vm_compute. reflexivity. Qed.

Example ex_collapse_run :
  exists e' asg n, collapse true fresh_v ["x"] ex_expr = Ok (e', asg, n) /\ n = 4 /\ List.length asg = 4.
Proof. vm_compute. repeat eexists. Qed.

Example ex_collapse_hyps :
  wfb ex_expr = true /\
  exists e' asg n, collapse true fresh_v ["x"] ex_expr = Ok (e', asg, n) /\
    NoDup (map fresh_v (seq 0 n)) /\ (forall i, i < n -> ~ In (fresh_v i) (names ex_expr)).
Proof.
  split; [reflexivity|]. exists ex_expr', ex_asg, 4. split; [exact ex_collapse_exact|]. split.
  - vm_compute. repeat constructor; cbn; intuition discriminate.
  - intros i Hi. do 4 (destruct i as [|i]; [vm_compute; intuition discriminate|]). lia.
Qed.

Example ex_collapse_value :
  forall rho, exists e' asg n, collapse true fresh_v ["x"] ex_expr = Ok (e', asg, n) /\
    eval Z.div Z.pow (fun v => if Z.eqb v 0 then 1%Z else 0%Z) (fun _ l => zsum l) (fun _ l kw => (zsum l + zsum (map snd kw))%Z)
         (bind_all Z.div Z.pow (fun v => if Z.eqb v 0 then 1%Z else 0%Z) (fun _ l => zsum l) (fun _ l kw => (zsum l + zsum (map snd kw))%Z) rho asg) e'
    = eval Z.div Z.pow (fun v => if Z.eqb v 0 then 1%Z else 0%Z) (fun _ l => zsum l) (fun _ l kw => (zsum l + zsum (map snd kw))%Z) rho ex_expr.
Proof.
  intros rho. destruct ex_collapse_hyps as (_ & e' & asg & n & E & Hnd & Hfr).
  exists e', asg, n. split; [exact E|].
  now apply (collapse_value fresh_v ["x"] ex_expr e' asg n E Hnd Hfr).
Qed.

(* calls with keyword arguments: positional and keyword values are hoisted in order, the keys
   are kept in place; a constant call with keyword arguments is hoisted as a whole *)
Definition ex_kw_expr : expr :=
  ESum [EVar "x";
        ECallKw "f" [ESum [EVar "a"; EInt 1]; EVar "x"]
                [("m", EProd [EVar "a"; EVar "b"]);
                 ("k", EQuot (EVar "x") (ESum [EVar "b"; EInt 2]))];
        ECallKw "g" [EVar "a"] [("s", ENot (EVar "b"))]].

Definition ex_kw_expr' : expr :=
  ESum [EVar "v3"; EVar "x";
        ECallKw "f" [EVar "v0"; EVar "x"] [("m", EVar "v1"); ("k", EQuot (EVar "x") (EVar "v2"))]].

Definition ex_kw_asg : list (string * expr) :=
  [("v0", ESum [EVar "a"; EInt 1]);
   ("v1", EProd [EVar "a"; EVar "b"]);
   ("v2", ESum [EVar "b"; EInt 2]);
   ("v3", ECallKw "g" [EVar "a"] [("s", ENot (EVar "b"))])].

Example ex_kw_collapse_exact : collapse true fresh_v ["x"] ex_kw_expr = Ok (ex_kw_expr', ex_kw_asg, 4).
Proof. vm_compute. reflexivity. Qed.

Example ex_kw_collapse_hyps :
  wfb ex_kw_expr = true /\
  exists e' asg n, collapse true fresh_v ["x"] ex_kw_expr = Ok (e', asg, n) /\
    NoDup (map fresh_v (seq 0 n)) /\ (forall i, i < n -> ~ In (fresh_v i) (names ex_kw_expr)).
Proof.
  split; [reflexivity|]. exists ex_kw_expr', ex_kw_asg, 4. split; [exact ex_kw_collapse_exact|]. split.
  - vm_compute. repeat constructor; cbn; intuition discriminate.
  - intros i Hi. do 4 (destruct i as [|i]; [vm_compute; intuition discriminate|]). lia.
Qed.

Example ex_kw_collapse_value :
  forall Fk rho, exists e' asg n, collapse true fresh_v ["x"] ex_kw_expr = Ok (e', asg, n) /\
    eval Z.div Z.pow Z.opp (fun _ l => zsum l) Fk
         (bind_all Z.div Z.pow Z.opp (fun _ l => zsum l) Fk rho asg) e'
    = eval Z.div Z.pow Z.opp (fun _ l => zsum l) Fk rho ex_kw_expr.
Proof.
  intros Fk rho. destruct ex_kw_collapse_hyps as (_ & e' & asg & n & E & Hnd & Hfr).
  exists e', asg, n. split; [exact E|].
  now apply (collapse_value fresh_v ["x"] ex_kw_expr e' asg n E Hnd Hfr).
Qed.

(* a free variable that occurs only as a keyword value keeps the call (and every term around it)
   from being hoisted *)
Example ex_kw_free_only_in_keyword :
  collapse true fresh_v ["x"] (ESum [ECallKw "f" [] [("m", EVar "x")]; EVar "a"])
  = Ok (ESum [EVar "a"; ECallKw "f" [] [("m", EVar "x")]], [], 0).
Proof. vm_compute. reflexivity. Qed.

(* pymbolic equality of calls with keyword arguments: the keywords form a mapping (order
   irrelevant), the class matters (CallWithKwargs with no keyword is not a Call) *)
Example ex_kw_equality :
  expr_eqb (ECallKw "f" [] [("m", EVar "x"); ("k", EInt 1)]) (ECallKw "f" [] [("k", EInt 1); ("m", EVar "x")]) = true /\
  expr_same (ECallKw "f" [] [("m", EVar "x"); ("k", EInt 1)]) (ECallKw "f" [] [("k", EInt 1); ("m", EVar "x")]) = false /\
  expr_eqb (ECallKw "f" [] [("m", EVar "x")]) (ECallKw "f" [] [("m", EVar "a")]) = false /\
  expr_eqb (ECallKw "f" [] []) (ECall "f" []) = false.
Proof. vm_compute. auto. Qed.

(* the contract on the supplier is needed: with a supplier that returns a name of the expression (here also the
   same name twice) the value breaks *)
Example ex_fresh_needed :
  exists fresh e e' asg n,
    collapse true fresh [] e = Ok (e', asg, n) /\
    eval Z.div Z.pow Z.opp (fun _ _ => 0%Z) (fun _ _ _ => 0%Z) (bind_all Z.div Z.pow Z.opp (fun _ _ => 0%Z) (fun _ _ _ => 0%Z) (fun _ => 1%Z) asg) e'
    <> eval Z.div Z.pow Z.opp (fun _ _ => 0%Z) (fun _ _ _ => 0%Z) (fun _ => 1%Z) e.
Proof.
  exists (fun _ => "a"), (EQuot (ESum [EVar "a"; EVar "a"]) (ESum [EVar "a"; EVar "a"; EVar "a"])),
         (EQuot (EVar "a") (EVar "a")), [("a", ESum [EVar "a"; EVar "a"; EVar "a"])], 2.
  split; [reflexivity | vm_compute; discriminate].
Qed.

(* the full statement, parameterised by the shape switch of coq/gen/GenC18.v: it holds when the finder's unary
   methods call combine() and fails when they are inherited *)
Definition full_statement (flag : bool) : Prop :=
  forall (fresh : nat -> string) (free : list string) (e : expr),
    wfb e = true ->
    exists e' asg n,
      collapse flag fresh free e = Ok (e', asg, n) /\
      Forall (fun xc => forall v, In v free -> ~ In v (names (snd xc))) asg /\
      (NoDup (map fresh (seq 0 n)) ->
       (forall i, i < n -> ~ In (fresh i) (names e)) ->
       NoDup (map fst asg) /\ map fst asg = map fresh (seq 0 n) /\
       forall qop pop nop F Fk rho,
         eval qop pop nop F Fk rho (subst asg e') = eval qop pop nop F Fk rho e /\
         eval qop pop nop F Fk (bind_all qop pop nop F Fk rho asg) e' = eval qop pop nop F Fk rho e).

Lemma full_fixed : full_statement true.
Proof.
  intros fresh free e Hw.
  destruct (collapse_total fresh free e Hw) as (e' & asg & n & E).
  exists e', asg, n. split; [exact E|]. split.
  - eapply Forall_impl; [|exact (collapse_constant fresh free e e' asg n E)]. intros xc H. apply H.
  - intros Hnd Hfr. destruct (collapse_once fresh free e e' asg n E Hnd) as (H1 & H2 & _).
    split; [exact H1|]. split; [exact H2|]. intros qop pop nop F Fk rho.
    destruct (collapse_value fresh free e e' asg n E Hnd Hfr qop pop nop F Fk rho). auto.
Qed.

Lemma full_unfixed_refuted : ~ full_statement false.
Proof.
  intros H.
  destruct (H fresh_v ["x"] (ESum [EVar "x"; ENot (EVar "a")]) eq_refl) as (e' & asg & n & E & _).
  vm_compute in E. discriminate.
Qed.
