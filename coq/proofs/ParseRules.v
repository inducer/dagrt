(* C19 -- derived "rules" of the fuel-indexed parser of model/Parse.v: fuel-free specifications
   PE / LP / AL (the call succeeds with this result for EVERY fuel above twice the number of
   tokens) and one lemma per branch of parse_prefix / parse_postfix / parse_arglist that the
   printed form of an expression exercises.  All reasoning about the parser's fuel is in this file
   (the lexer's fuel is the length of the text: LexRender.lex_render, LexProofs.lex_bt). *)
From Coq Require Import List ZArith NArith String Ascii Bool Arith Lia ZifyBool.
Import ListNotations.
From Dagrt Require Import GenC19 Print Parse ExprInd.
Open Scope nat_scope.
Notation length := List.length.

(* Each call of parse_expr / loop / arglist consumes a token or is the last one on its token list,
   and parse_expr spends one unit of fuel on itself and one on its loop: twice the number of
   tokens is enough, with one more for arglist, which is entered from loop with loop's fuel
   (parse_toks starts with S (2 * length ts)).  The first conjunct lets a caller pass its own
   bound on to the next call; parse_expr always consumes a token. *)
Definition PE (p : nat) (ts : list token) (r : expr * list token) : Prop :=
  length (snd r) < length ts /\ forall n, 2 * length ts < n -> parse_expr n p ts = Ok r.

Definition LP (p : nat) (l : expr) (fin : bool) (ts : list token) (r : expr * list token) : Prop :=
  length (snd r) <= length ts /\ forall n, 2 * length ts < n -> loop n p l fin ts = Ok r.

Definition AL (args : list expr) (kw : list (string * expr)) (ca : bool) (ts : list token)
           (r : list expr * list (string * expr) * list token) : Prop :=
  length (snd r) <= length ts /\ forall n, 2 * length ts + 1 < n -> arglist n args kw ca ts = Ok r.

(* What a rule of parse_prefix / parse_postfix delivers: its result, and that it consumes a token.
   f is the fuel of the calls inside the rule, one less than that of the parse_expr or loop which
   runs it: hence <= where PE and LP say <. *)
Definition Pre (ts : list token) (out : expr * bool * list token) : Prop :=
  length (snd out) < length ts /\ forall f, 2 * length ts <= f -> prefix (parse_expr f) ts = Ok out.

Definition Post (p : nat) (l : expr) (fin : bool) (ts : list token) (out : expr * list token) : Prop :=
  length (snd out) < length ts
  /\ forall f, 2 * length ts <= f -> postfix (parse_expr f) (arglist f [] [] false) p l fin ts = Ok (Some out).

Lemma parse_expr_S f p ts :
  parse_expr (S f) p ts
  = bind (prefix (parse_expr f) ts) (fun x => loop f p (fst (fst x)) (snd (fst x)) (snd x)).
Proof. reflexivity. Qed.

Lemma loop_S f p l fin ts :
  loop (S f) p l fin ts
  = match ts with
    | [] => Ok (l, [])
    | _ => bind (postfix (parse_expr f) (arglist f [] [] false) p l fin ts) (fun o =>
             match o with
             | Some x => loop f p (fst x) false (snd x)
             | None => Ok (l, ts)
             end)
    end.
Proof. reflexivity. Qed.

Lemma PE_intro p ts l fin ts' r : Pre ts (l, fin, ts') -> LP p l fin ts' r -> PE p ts r.
Proof.
  intros [Hlen Hpre] [Hl Hloop]. cbn [snd] in Hlen. split; [lia|].
  intros n Hn. destruct n as [|f]; [lia|].
  rewrite parse_expr_S, Hpre by lia. cbn [bind fst snd].
  apply Hloop. lia.
Qed.

(* the postfix rule of t applies at min_precedence = m: the loop of parse_expression goes on *)
Definition accepts (m : nat) (t : token) : bool :=
  match t with
  | TLPar | TLBrk => m <? PA_CALL
  | TIf => m <? PA_IF
  | TPlus => m <? thr_plus
  | TMinus => m <? thr_minus
  | TTimes => m <? thr_times
  | TFloorDiv => m <? thr_floordiv
  | TOver => m <? thr_over
  | TMod => m <? thr_modulo
  | TPow => m <? thr_power
  | TAnd => m <? thr_and
  | TOr => m <? thr_or
  | TCmp _ => m <? thr_cmp
  | TComma => m <? PA_COMMA
  | _ => false
  end.

Definition is_id (t : token) : bool := match t with TId _ => true | _ => false end.

(* what may follow a sub-expression whose right edge was parsed at level m: a token that does not
   continue an expression at level m, and not an identifier (a tag-only name <dt> would absorb it) *)
Definition follow (m : nat) (ts : list token) : bool :=
  match ts with
  | [] => true
  | t :: _ => negb (accepts m t) && negb (is_id t)
  end.

Definition threshold (t : token) : option nat :=
  match t with
  | TLPar | TLBrk => Some PA_CALL
  | TIf => Some PA_IF
  | TPlus => Some thr_plus | TMinus => Some thr_minus | TTimes => Some thr_times
  | TFloorDiv => Some thr_floordiv | TOver => Some thr_over | TMod => Some thr_modulo
  | TPow => Some thr_power | TAnd => Some thr_and | TOr => Some thr_or | TCmp _ => Some thr_cmp
  | TComma => Some PA_COMMA
  | _ => None
  end.

Lemma accepts_threshold m t :
  accepts m t = match threshold t with Some k => m <? k | None => false end.
Proof. destruct t; reflexivity. Qed.

Lemma follow_mono m m' ts : m <= m' -> follow m ts = true -> follow m' ts = true.
Proof.
  intros Hm. destruct ts as [|t r]; [reflexivity|]. unfold follow. rewrite !accepts_threshold.
  destruct (threshold t) as [k|]; [|trivial].
  intros H. apply andb_true_iff in H as [Ha%negb_true_iff%Nat.ltb_ge Hi]. rewrite Hi, andb_true_r.
  apply negb_true_iff, Nat.ltb_ge. lia.
Qed.

Lemma postfix_none rec argl m l fin ts : follow m ts = true -> postfix rec argl m l fin ts = Ok None.
Proof.
  destruct ts as [|t r]; [reflexivity|]. intros H. unfold follow in H.
  apply andb_true_iff in H as [Ha _]. apply negb_true_iff in Ha.
  destruct t; cbn [accepts] in Ha; cbn [postfix]; try rewrite Ha; reflexivity.
Qed.

Lemma LP_stop p l fin ts : follow p ts = true -> LP p l fin ts (l, ts).
Proof.
  intros H. split; [cbn; lia|]. intros n Hn. destruct n as [|f]; [lia|].
  rewrite loop_S. destruct ts as [|t r]; [reflexivity|].
  rewrite postfix_none by exact H. reflexivity.
Qed.

Lemma LP_step p l fin ts l' ts' r : Post p l fin ts (l', ts') -> LP p l' false ts' r -> LP p l fin ts r.
Proof.
  intros [Hlen Hpost] [Hl Hloop]. cbn [snd] in Hlen. split; [lia|].
  intros n Hn. destruct n as [|f]; [lia|].
  rewrite loop_S. destruct ts as [|t r0]; [cbn in Hlen; lia|].
  rewrite Hpost by lia. cbn [bind fst snd]. apply Hloop. lia.
Qed.

(* parse_prefix answers ParseError on `)` and `,`, and on `k = ...` the loop stops in front of the
   `=`: a rule with a PE premise needs no premise about the first token of that operand. *)
Lemma PE_head p ts r :
  PE p ts r ->
  match ts with
  | [] | TRPar :: _ | TComma :: _ => False
  | TId _ :: TAssign :: _ => exists r', snd r = TAssign :: r'
  | _ => True
  end.
Proof.
  intros [Hl H]. destruct ts as [|t ts]; [cbn in Hl; lia|].
  specialize (H (S (S (2 * length (t :: ts)))) ltac:(lia)). rewrite parse_expr_S in H.
  destruct t; try exact I; try discriminate H.
  destruct ts as [|[] ts]; try exact I.
  cbn [prefix parse_terminal bind fst snd] in H. rewrite loop_S in H. injection H as <-. eexists; reflexivity.
Qed.

Ltac consumed := cbn [snd length] in *; lia.

Lemma prefix_int n r : Pre (TInt n :: r) (EInt (Z.of_N n), false, r).
Proof. split; [consumed | reflexivity]. Qed.
Lemma prefix_true r : Pre (TTrue :: r) (EBool true, false, r).
Proof. split; [consumed | reflexivity]. Qed.
Lemma prefix_false r : Pre (TFalse :: r) (EBool false, false, r).
Proof. split; [consumed | reflexivity]. Qed.
Lemma prefix_id s r : Pre (TId s :: r) (EVar s, false, r).
Proof. split; [consumed | reflexivity]. Qed.
Lemma prefix_tag2 t u r :
  Pre (TCmp CLt :: TId t :: TCmp CGt :: TId u :: r) (EVar ("<" ++ t ++ ">" ++ u)%string, false, r).
Proof. split; [consumed | reflexivity]. Qed.
Lemma prefix_tag1 t r :
  match r with TId _ :: _ => False | _ => True end ->
  Pre (TCmp CLt :: TId t :: TCmp CGt :: r) (EVar ("<" ++ t ++ ">")%string, false, r).
Proof. intros H. split; [consumed|]. destruct r as [|[] r]; cbn; intros; try reflexivity; contradiction. Qed.

Lemma prefix_not r a r' : PE PA_UNARY r (a, r') -> Pre (TNot :: r) (ENot a, false, r').
Proof.
  intros [Hl H]. split; [consumed|]. intros f Hf. cbn [prefix length] in *. rewrite H by lia. reflexivity.
Qed.

Lemma prefix_minus_int n r :
  follow PA_UNARY r = true -> Pre (TMinus :: TInt n :: r) (EInt (- Z.of_N n), false, r).
Proof.
  intros Hfo. split; [consumed|]. intros f Hf. cbn [prefix length] in *.
  destruct f as [|f]; [lia|]. rewrite parse_expr_S. cbn [prefix parse_terminal bind fst snd].
  destruct (LP_stop PA_UNARY (EInt (Z.of_N n)) false r Hfo) as [_ H].
  rewrite H by lia. reflexivity.
Qed.

Lemma prefix_paren r e r' : PE 0 r (e, TRPar :: r') -> Pre (TLPar :: r) (e, is_tuple e, r').
Proof.
  intros HP. pose proof (PE_head _ _ _ HP) as Hh. destruct HP as [Hl H].
  split; [consumed|]. intros f Hf. cbn [length] in Hf. assert (E := H f ltac:(lia)). clear H Hf.
  destruct r as [|t r0]; [|destruct t; try contradiction]; cbn [prefix]; rewrite E; reflexivity.
Qed.

(* The infix rules of parse_postfix that a printed expression exercises: threshold on
   min_precedence, level at which the right operand is parsed, whether both operands must be
   arithmetic, the node built.  (Binary minus is never printed.) *)
Definition infix_rule (t : token) : option (nat * nat * bool * (expr -> expr -> expr)) :=
  match t with
  | TPlus => Some (thr_plus, rhs_plus, true, fun l x => ENary NSum [l; x])
  | TTimes => Some (thr_times, rhs_times, true, fun l x => ENary NProd [l; x])
  | TOver => Some (thr_over, rhs_over, true, EBin BQuot)
  | TFloorDiv => Some (thr_floordiv, rhs_floordiv, true, EBin BFloorDiv)
  | TMod => Some (thr_modulo, rhs_modulo, true, EBin BRem)
  | TPow => Some (thr_power, rhs_power, true, EBin BPow)
  | TAnd => Some (thr_and, rhs_and, false, fun l x => ENary NAnd [l; x])
  | TOr => Some (thr_or, rhs_or, false, fun l x => ENary NOr [l; x])
  | TCmp c => Some (thr_cmp, rhs_cmp, false, EBin (BCmp c))
  | _ => None
  end.

Section Postfix.
  Variables (p : nat) (l : expr) (fin : bool) (r : list token).

  Lemma postfix_infix t thr rhs ar mk b r' :
    infix_rule t = Some (thr, rhs, ar, mk) ->
    p <? thr = true -> PE rhs r (b, r') ->
    (ar = true -> is_arith b = true /\ is_arith l = true) ->
    Post p l fin (t :: r) (mk l b, r').
  Proof.
    intros Ht Hp [Hl0 H] Har. split; [consumed|]. intros f Hf. cbn [length] in Hf. assert (E := H f ltac:(lia)). clear H Hf.
    destruct t; try discriminate Ht; injection Ht as <- <- <- <-;
      try destruct (Har eq_refl) as [Hb Hl];
      cbn [postfix]; rewrite Hp, ?Hl, E; cbn [bind fst snd]; rewrite ?Hb, ?Hl; reflexivity.
  Qed.

  Lemma postfix_if c r2 e r3 :
    p <? PA_IF = true -> PE PA_IF r (c, TElse :: r2) -> PE 0 r2 (e, r3) ->
    Post p l fin (TIf :: r) (EIf c l e, r3).
  Proof.
    intros Hp [Hl1 H1] [Hl2 H2]. split; [consumed|]. intros f Hf. cbn [postfix length snd] in *. rewrite Hp.
    destruct r as [|t r0]; [cbn in Hl1; lia|]. rewrite H1 by lia. cbn [bind fst snd].
    rewrite H2 by (cbn [length] in *; lia). reflexivity.
  Qed.

  Lemma postfix_call args kw r' :
    p <? PA_CALL = true -> AL [] [] false r (args, kw, r') ->
    Post p l fin (TLPar :: r) (ECall l args kw, r').
  Proof.
    intros Hp [Hl0 H]. split; [consumed|]. intros f Hf. cbn [postfix length] in *. rewrite Hp, H by lia. reflexivity.
  Qed.

  Lemma postfix_sub i r2 :
    p <? PA_CALL = true -> PE 0 r (i, TRBrk :: r2) ->
    Post p l fin (TLBrk :: r) (ESub l i, r2).
  Proof.
    intros Hp [Hl0 H]. split; [consumed|]. intros f Hf. cbn [postfix length snd] in *. rewrite Hp.
    destruct r as [|t r0]; [cbn in Hl0; lia|]. rewrite H by lia. reflexivity.
  Qed.

  Lemma postfix_comma el r' :
    p <? PA_COMMA = true -> PE PA_COMMA r (el, r') ->
    Post p l fin (TComma :: r) (ETuple ((if fin then [l] else items l) ++ [el]), r').
  Proof.
    intros Hp HP. pose proof (PE_head _ _ _ HP) as Hh. destruct HP as [Hl0 H].
    split; [consumed|]. intros f Hf. cbn [length] in Hf. assert (E := H f ltac:(lia)). clear H Hf.
    replace (ETuple _)
      with (match l with ETuple es => if fin then ETuple [l; el] else ETuple (es ++ [el]) | _ => ETuple [l; el] end)
      by (destruct l, fin; reflexivity).
    destruct r as [|t r0]; [contradiction|].
    destruct t; try contradiction; cbn [postfix]; rewrite Hp, E; reflexivity.
  Qed.
End Postfix.

Lemma arglist_S f args kw ca ts :
  arglist (S f) args kw ca ts = arglist_body (parse_expr f) (arglist f) args kw ca ts.
Proof. reflexivity. Qed.

Definition is_start (t : token) : bool :=
  match t with
  | TInt _ | TId _ | TCmp CLt | TMinus | TNot | TLPar | TTrue | TFalse => true
  | _ => false
  end.
Definition starts_ok (ts : list token) : bool :=
  match ts with t :: _ => is_start t | [] => false end.

Lemma AL_close args kw ca r : AL args kw ca (TRPar :: r) (args, kw, r).
Proof.
  split; [cbn; lia|]. intros n Hn. destruct n as [|f]; [lia|].
  rewrite arglist_S; unfold arglist_body. cbn. destruct ca; reflexivity.
Qed.

Lemma AL_close_comma args kw r : AL args kw true (TComma :: TRPar :: r) (args, kw, r).
Proof.
  split; [cbn; lia|]. intros n Hn. destruct n as [|f]; [lia|].
  rewrite arglist_S; unfold arglist_body. reflexivity.
Qed.

(* ca is parse_arglist's comma_allowed: false before the first item, true behind one *)
Definition item_toks (ca : bool) (ts : list token) : list token := if ca then TComma :: ts else ts.

Lemma arglist_body_pos rec argl args ca ts :
  match ts with [] | TRPar :: _ | TComma :: _ | TId _ :: TAssign :: _ => False | _ => True end ->
  arglist_body rec argl args [] ca (item_toks ca ts)
  = bind (rec PA_COMMA ts) (fun x => argl (args ++ [fst x])%list [] true (snd x)).
Proof.
  intros H. destruct ts as [|t r]; [contradiction|].
  destruct t; try contradiction; try (destruct ca; reflexivity).
  destruct r as [|[] r]; try contradiction; destruct ca; reflexivity.
Qed.

Lemma arglist_body_kw rec argl args kw ca k ts :
  arglist_body rec argl args kw ca (item_toks ca (TId k :: TAssign :: ts))
  = bind (rec PA_COMMA ts) (fun x => argl args (kw_set kw k (fst x)) true (snd x)).
Proof. destruct ca; reflexivity. Qed.

Lemma item_toks_length ca ts : length ts <= length (item_toks ca ts) <= S (length ts).
Proof. destruct ca; cbn [item_toks length]; lia. Qed.

Lemma AL_pos ca args ts a ts' R :
  PE PA_COMMA ts (a, ts') -> match ts' with TAssign :: _ => False | _ => True end ->
  AL (args ++ [a]) [] true ts' R ->
  AL args [] ca (item_toks ca ts) R.
Proof.
  intros HP Hna [Hl HA]. pose proof (PE_head _ _ _ HP) as Hh. destruct HP as [Hlen H]. cbn [snd] in *.
  pose proof (item_toks_length ca ts). split; [lia|].
  intros n Hn. destruct n as [|f]; [lia|].
  rewrite arglist_S, arglist_body_pos, H; [apply HA; lia | lia |].
  destruct ts as [|t r]; [contradiction|]. destruct t; try exact Hh.
  destruct r as [|[] ?]; try exact I. destruct Hh as [? ->]. contradiction.
Qed.

Lemma AL_kw ca args kw k ts v ts' R :
  PE PA_COMMA ts (v, ts') ->
  AL args (kw_set kw k v) true ts' R ->
  AL args kw ca (item_toks ca (TId k :: TAssign :: ts)) R.
Proof.
  intros [Hlen H] [Hl HA]. cbn [snd] in Hlen. pose proof (item_toks_length ca (TId k :: TAssign :: ts)) as Hi.
  cbn [length] in Hi. split; [lia|].
  intros n Hn. destruct n as [|f]; [lia|].
  rewrite arglist_S, arglist_body_kw, H by lia. apply HA. lia.
Qed.

Lemma parse_toks_intro ts e :
  PE 0 ts (e, []) -> parse_toks ts = Ok e.
Proof.
  intros [_ H]. unfold parse_toks. rewrite H by lia. reflexivity.
Qed.
