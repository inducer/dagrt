(* C19 -- the parser inverts the printer on expressions in parser-normal form.  The levels of
   the two precedence tables; how a printed operand, an argument list and a subscript index are
   parsed; and the main induction: parsing (at any admissible level) the un-parenthesised tokens
   of e followed by `rest` behaves like continuing the operator loop with e as left operand on
   `rest`. *)
From Coq Require Import List ZArith NArith String Ascii Bool Arith Lia ZifyBool.
Import ListNotations.
From Dagrt Require Import GenC19 Print Parse ExprInd ParseRules RoundTrip.
Open Scope list_scope.
Open Scope nat_scope.
Notation length := List.length.

(* "No operator to get through": above every level of the parser (the printer's NOPAREN is the
   same number for the same purpose; nothing depends on their being equal). *)
Definition BIG : nat := 1000.

(* min_precedence must be below this for the loop to get through the top operator of e *)
Definition top_lvl (e : expr) : nat :=
  match e with
  | ENary NSum _ => thr_plus | ENary NProd _ => thr_times
  | ENary NAnd _ => thr_and | ENary NOr _ => thr_or
  | EBin BQuot _ _ => thr_over | EBin BFloorDiv _ _ => thr_floordiv | EBin BRem _ _ => thr_modulo
  | EBin BPow _ _ => thr_power | EBin (BCmp _) _ _ => thr_cmp
  | EIf _ _ _ => PA_IF
  | ECall _ _ _ | ESub _ _ => PA_CALL
  | _ => BIG
  end.

(* lowest level at which a right-most operand inside the un-parenthesised text of e is parsed *)
Definition redge0 (e : expr) : nat :=
  match e with
  | EInt z => if (z <? 0)%Z then PA_UNARY else BIG
  | ENary NSum _ => rhs_plus | ENary NProd _ => rhs_times
  | ENary NAnd _ => rhs_and | ENary NOr _ => rhs_or
  | EBin BQuot _ _ => rhs_over | EBin BFloorDiv _ _ => rhs_floordiv | EBin BRem _ _ => rhs_modulo
  | EBin BPow _ _ => rhs_power | EBin (BCmp _) _ _ => rhs_cmp
  (* `not a**b` is printed without parentheses: the operand of `not` is parsed at PA_UNARY, the
     exponent inside it at rhs_power, which is the lower of the two *)
  | ENot _ => Nat.min PA_UNARY rhs_power
  | EIf _ _ _ => 0
  | _ => BIG
  end.

Definition redge (q : nat) (e : expr) : nat := if prec e <? q then BIG else redge0 e.

Lemma top_lvl_min c : PA_IF <= top_lvl c.
Proof. lvl_cases c; apply Nat.leb_le; reflexivity. Qed.

Lemma top_lvl_pos c : 0 < top_lvl c.
Proof. apply (Nat.lt_le_trans _ PA_IF); [apply Nat.ltb_lt; reflexivity | apply top_lvl_min]. Qed.

Lemma follow_rpar m r : follow m (TRPar :: r) = true.
Proof. reflexivity. Qed.
Lemma follow_rbrk m r : follow m (TRBrk :: r) = true.
Proof. reflexivity. Qed.
Lemma follow_else m r : follow m (TElse :: r) = true.
Proof. reflexivity. Qed.

(* Printer precedence, in increasing order, against the parser's levels: the threshold that
   min_precedence must stay below for the loop to take the operator printed at that precedence, and
   the level at which the rule parses its right operand.  PR_UNARY has no postfix rule of its own
   and shares the row of the next precedence up. *)
Definition level_table : list (nat * (nat * nat)) :=
  [(PR_IF, (PA_IF, 0)); (PR_LOGICAL_OR, (thr_or, rhs_or)); (PR_LOGICAL_AND, (thr_and, rhs_and));
   (PR_COMPARISON, (thr_cmp, rhs_cmp)); (PR_SUM, (thr_plus, rhs_plus));
   (PR_PRODUCT, (thr_times, rhs_times)); (PR_POWER, (thr_power, rhs_power)); (PR_CALL, (PA_CALL, BIG))].

Fixpoint lookup (tbl : list (nat * nat)) (d q : nat) : nat :=
  match tbl with
  | [] => d
  | (k, v) :: r => if q <=? k then v else lookup r d q
  end.

Fixpoint ascending (v : nat) (tbl : list (nat * nat)) (d : nat) : Prop :=
  match tbl with
  | [] => v <= d
  | (_, w) :: r => v <= w /\ ascending w r d
  end.

Lemma ascending_lookup v tbl d q : ascending v tbl d -> v <= lookup tbl d q <= d.
Proof.
  revert v. induction tbl as [|[k w] r IH]; cbn [ascending lookup]; intros v H; [lia|].
  destruct H as [Hvw Hr]. specialize (IH w Hr). destruct (q <=? k); lia.
Qed.

Lemma lookup_mono v tbl d q q' : ascending v tbl d -> q <= q' -> lookup tbl d q <= lookup tbl d q'.
Proof.
  intros H Hq. revert v H. induction tbl as [|[k w] r IH]; cbn [ascending lookup]; intros v H; [reflexivity|].
  destruct H as [_ Hr]. destruct (q <=? k) eqn:E, (q' <=? k) eqn:E'; [reflexivity | | lia | eauto].
  apply (ascending_lookup _ _ _ _ Hr).
Qed.

Definition pa : nat -> nat := lookup (map (fun kv => (fst kv, fst (snd kv))) level_table) PA_CALL.
Definition lo : nat -> nat := lookup (map (fun kv => (fst kv, snd (snd kv))) level_table) BIG.

Lemma pa_ascending : ascending 0 (map (fun kv => (fst kv, fst (snd kv))) level_table) PA_CALL.
Proof. cbn. repeat split; apply Nat.leb_le; reflexivity. Qed.
Lemma lo_ascending : ascending 0 (map (fun kv => (fst kv, snd (snd kv))) level_table) BIG.
Proof. cbn. repeat split; apply Nat.leb_le; reflexivity. Qed.

Lemma top_lvl_prec c : pa (prec c) <= top_lvl c.
Proof. lvl_cases c; cbn [prec]; rewrite ?Hz; apply Nat.leb_le; reflexivity. Qed.

Lemma redge0_prec c : lo (prec c) <= redge0 c.
Proof. lvl_cases c; cbn [prec redge0]; rewrite ?Hz; apply Nat.leb_le; reflexivity. Qed.

(* Why level_table decides parenthesisation: a node which the printer leaves without parentheses at
   enclosing precedence q is taken up by the loop below pa q, and parses its right-most operand
   at lo q or above. *)
Lemma top_ge q c : prec c <? q = false -> pa q <= top_lvl c.
Proof.
  intros H%Nat.ltb_ge. etransitivity; [apply (lookup_mono _ _ _ _ _ pa_ascending H) | apply top_lvl_prec].
Qed.

Lemma redge_ge q c : lo q <= redge q c.
Proof.
  unfold redge. destruct (prec c <? q) eqn:E; [apply (ascending_lookup _ _ _ _ lo_ascending)|].
  apply Nat.ltb_ge in E. etransitivity; [apply (lookup_mono _ _ _ _ _ lo_ascending E) | apply redge0_prec].
Qed.

(* With this, "c is not an X" turns `prec c <? q = false` into `prec c <? S q = false`, and
   top_ge / redge_ge apply one row further up. *)
Lemma prec_inv c :
  PR_IF <= prec c
  /\ (prec c = PR_IF -> is_if c = true)
  /\ (prec c = PR_LOGICAL_OR -> is_nary NOr c = true)
  /\ (prec c = PR_LOGICAL_AND -> is_nary NAnd c = true)
  /\ (prec c = PR_COMPARISON -> is_cmp c = true)
  /\ (prec c = PR_SUM -> is_nary NSum c = true \/ top_lvl c = BIG)
  /\ (prec c = PR_PRODUCT -> is_mult c = true)
  /\ (prec c = PR_POWER -> is_pow c = true).
Proof.
  lvl_cases c; cbn [prec nary_prec bin_prec]; rewrite ?Hz;
    (split; [apply Nat.leb_le; reflexivity|]); repeat split; intros E; try discriminate E; auto.
Qed.

Lemma prec_min c : PR_IF <= prec c.
Proof. exact (proj1 (prec_inv c)). Qed.
Lemma prec_if c : prec c = PR_IF -> is_if c = true.
Proof. destruct (prec_inv c) as (_ & H & _). exact H. Qed.
Lemma prec_or c : prec c = PR_LOGICAL_OR -> is_nary NOr c = true.
Proof. destruct (prec_inv c) as (_ & _ & H & _). exact H. Qed.
Lemma prec_and c : prec c = PR_LOGICAL_AND -> is_nary NAnd c = true.
Proof. destruct (prec_inv c) as (_ & _ & _ & H & _). exact H. Qed.
Lemma prec_cmp c : prec c = PR_COMPARISON -> is_cmp c = true.
Proof. destruct (prec_inv c) as (_ & _ & _ & _ & H & _). exact H. Qed.
Lemma prec_sum c : prec c = PR_SUM -> is_nary NSum c = true \/ top_lvl c = BIG.
Proof. destruct (prec_inv c) as (_ & _ & _ & _ & _ & H & _). exact H. Qed.
Lemma prec_pow c : prec c = PR_POWER -> is_pow c = true.
Proof. destruct (prec_inv c) as (_ & _ & _ & _ & _ & _ & _ & H). exact H. Qed.

Lemma top_gt q c : prec c <? q = false -> (prec c = q -> top_lvl c = BIG) -> pa (S q) <= top_lvl c.
Proof.
  intros H Hq. destruct (Nat.eq_dec (prec c) q) as [E|E].
  - rewrite (Hq E). transitivity PA_CALL; [apply (ascending_lookup _ _ _ (S q) pa_ascending) | apply Nat.leb_le; reflexivity].
  - apply top_ge. apply Nat.ltb_ge in H. apply Nat.ltb_ge. lia.
Qed.

Lemma redge_gt q c : prec c <> q -> lo (S q) <= redge q c.
Proof.
  intros Hq. unfold redge. destruct (prec c <? q) eqn:H; [apply (ascending_lookup _ _ _ _ lo_ascending)|].
  apply Nat.ltb_ge in H.
  etransitivity; [apply (lookup_mono _ _ _ (S q) (prec c) lo_ascending); lia | apply redge0_prec].
Qed.

(* The same with the comparison of levels left to evaluation.  The premise `prec c <? q = false`
   stands last because infix_PE asks these facts under it. *)
Lemma top_ge_at q c m : m <=? pa q = true -> prec c <? q = false -> m <= top_lvl c.
Proof. intros Hm%Nat.leb_le E. pose proof (top_ge q c E). lia. Qed.
Lemma top_at q c m : m <? pa q = true -> prec c <? q = false -> m < top_lvl c.
Proof. intros Hm%Nat.ltb_lt E. pose proof (top_ge q c E). lia. Qed.
Lemma top_above q c m :
  m <? pa (S q) = true -> (prec c = q -> top_lvl c = BIG) -> prec c <? q = false -> m < top_lvl c.
Proof. intros Hm%Nat.ltb_lt Hq E. pose proof (top_gt q c E Hq). lia. Qed.
Lemma redge_at q c m : m <=? lo q = true -> m <= redge q c.
Proof. intros Hm%Nat.leb_le. pose proof (redge_ge q c). lia. Qed.
Lemma redge_above q c m : m <=? lo (S q) = true -> prec c <> q -> m <= redge q c.
Proof. intros Hm%Nat.leb_le Hq. pose proof (redge_gt q c Hq). lia. Qed.

Lemma follow_tok m t r : is_id t = false -> accepts m t = false -> follow m (t :: r) = true.
Proof. intros H1 H2. cbn. rewrite H1, H2. reflexivity. Qed.

Lemma follow_infix m t thr rhs ar mk r :
  infix_rule t = Some (thr, rhs, ar, mk) -> thr <= m -> follow m (t :: r) = true.
Proof.
  intros Ht Hm. apply follow_tok; destruct t; try discriminate Ht; try reflexivity;
    injection Ht as <- _ _ _; apply Nat.ltb_ge; exact Hm.
Qed.

(* The main induction for one e: where the loop may take up the top operator of e and `rest` does
   not continue e's right-most operand, parsing B e ++ rest is continuing the loop on `rest` with e
   in hand as left operand. *)
Definition Body (e : expr) : Prop :=
  forall p rest r, p < top_lvl e -> follow (redge0 e) rest = true ->
                   LP p e false rest r -> PE p (B e ++ rest) r.

Definition Operand (c : expr) : Prop := Body c /\ is_tuple c = false.

Lemma operand c : (nf c = true -> Body c) -> nf c = true -> Operand c.
Proof. intros IH Hn. exact (conj (IH Hn) (nf_not_tuple c Hn)). Qed.

Lemma operands {A} (g : A -> expr) l :
  Forall (fun x => nf (g x) = true -> Body (g x)) l -> Forall (fun x => nf (g x) = true) l ->
  Forall (fun x => Operand (g x)) l.
Proof. intros H Hl. eapply Forall_impl; [|exact (Forall_and H Hl)]. intros x [HB Hn]. exact (operand _ HB Hn). Qed.

Lemma forced_paren_PE c :
  Operand c -> forall p rest r, LP p c false rest r -> PE p (paren (B c) ++ rest) r.
Proof.
  intros (HB & Ht) p rest r HL. rewrite paren_app.
  eapply PE_intro; [apply prefix_paren with (e := c) (r' := rest) | rewrite Ht; exact HL].
  apply HB; [apply top_lvl_pos | apply follow_rpar | apply LP_stop; apply follow_rpar].
Qed.

Lemma child_PE c :
  Operand c ->
  forall q p rest r, q <= PR_CALL ->
    (prec c <? q = false -> p < top_lvl c) ->
    follow (redge q c) rest = true ->
    LP p c false rest r -> PE p (print [] q c ++ rest) r.
Proof.
  intros HG q p rest r Hq Hacc Hfo HL.
  rewrite print_paren by assumption. unfold redge in Hfo.
  destruct (prec c <? q) eqn:E; cbn [paren_if].
  - apply forced_paren_PE; auto.
  - apply HG; auto.
Qed.

Lemma child_at c q p rest r :
  Operand c -> q <= PR_CALL -> p < pa q -> follow (lo q) rest = true ->
  LP p c false rest r -> PE p (print [] q c ++ rest) r.
Proof.
  intros HG Hq Hp Hfo HL. apply child_PE; auto.
  - intros E. pose proof (top_ge q c E). lia.
  - eapply follow_mono; [apply redge_ge | exact Hfo].
Qed.

Lemma infix_PE tok thr rhs ar mk a b qa qb :
  infix_rule tok = Some (thr, rhs, ar, mk) ->
  Operand a -> Operand b -> (ar = true -> is_arith b = true /\ is_arith a = true) ->
  qa <= PR_CALL -> qb <= PR_CALL ->
  (prec a <? qa = false -> thr <= top_lvl a) -> thr <= redge qa a ->
  (prec b <? qb = false -> rhs < top_lvl b) -> rhs <= redge qb b ->
  forall p rest r, p < thr -> follow rhs rest = true -> LP p (mk a b) false rest r ->
    PE p (print [] qa a ++ tok :: print [] qb b ++ rest) r.
Proof.
  intros Hrule Ga Gb Har Hqa Hqb Hta Hra Htb Hrb p rest r Hp Hfo HL.
  apply (child_PE a Ga); [exact Hqa | intros E; specialize (Hta E); lia | exact (follow_infix _ _ _ _ _ _ _ Hrule Hra) |].
  eapply LP_step; [apply (postfix_infix p a false _ tok thr rhs ar mk b rest Hrule) | exact HL].
  - apply Nat.ltb_lt. exact Hp.
  - apply (child_PE b Gb); [exact Hqb | exact Htb | exact (follow_mono _ _ _ Hrb Hfo) | apply LP_stop; exact Hfo].
  - exact Har.
Qed.

(* What may stand behind an item of an argument list or a subscript index: the closing bracket, or
   a comma unless the item is a conditional, whose else-branch is parsed at level 0 and would go
   on through the comma. *)
Definition item_next (c : expr) (next : list token) : Prop :=
  match next with
  | TComma :: _ => is_if c = false
  | TRPar :: _ | TRBrk :: _ => True
  | _ => False
  end.

Lemma follow_comma c r : is_if c = false -> follow (redge PR_NONE c) (TComma :: r) = true.
Proof.
  intros Hc. apply follow_tok; [reflexivity|]. apply Nat.ltb_ge.
  assert (E : redge PR_NONE c = redge PR_IF c).
  { unfold redge, PR_NONE. rewrite ltb_0, (proj2 (Nat.ltb_ge _ _) (prec_min c)). reflexivity. }
  rewrite E. apply (redge_above PR_IF); [reflexivity|]. intros Ep%prec_if. congruence.
Qed.

Lemma item_PE c next :
  Operand c -> item_next c next -> PE PA_COMMA (print [] PR_NONE c ++ next) (c, next).
Proof.
  intros HG Hn.
  apply child_PE; auto; [apply Nat.le_0_l | intros _ | |].
  - apply (Nat.lt_le_trans _ PA_IF); [apply Nat.ltb_lt; reflexivity | apply top_lvl_min].
  - destruct next as [|[] ?]; try contradiction; try reflexivity. apply follow_comma. exact Hn.
  - apply LP_stop. destruct next as [|[] ?]; try contradiction; reflexivity.
Qed.

(* nf and no_defect spell this out as a lambda *)
Definition notif (c : expr) : bool := negb (is_if c).

Lemma tail_toks_cons x L : tail_toks (x :: L) = TComma :: x ++ tail_toks L.
Proof. reflexivity. Qed.

Lemma tail_toks_app l1 l2 : tail_toks (l1 ++ l2) = tail_toks l1 ++ tail_toks l2.
Proof.
  induction l1 as [|x l1 IH]; [reflexivity|]. cbn [app]. rewrite !tail_toks_cons, IH.
  cbn [app]. now rewrite app_assoc.
Qed.

Lemma all_but_last_cons {A} (f : A -> bool) x r :
  all_but_last f (x :: r) = true -> (r = [] \/ f x = true) /\ all_but_last f r = true.
Proof.
  destruct r as [|y r]; cbn [all_but_last]; [auto|].
  intros H. apply andb_true_iff in H as [H1 H2]. auto.
Qed.

Lemma abl_cons x r :
  all_but_last notif (x :: r) = true -> (r = [] \/ is_if x = false) /\ all_but_last notif r = true.
Proof. intros [[->|H%negb_true_iff] H2]%all_but_last_cons; auto. Qed.

Lemma item_next_tail v L next0 :
  (L = [] \/ is_if v = false) -> (match next0 with TRPar :: _ | TRBrk :: _ => True | _ => False end) ->
  item_next v (tail_toks L ++ next0).
Proof.
  intros H Hn. destruct L as [|x L].
  - cbn. destruct next0 as [|[] ?]; try contradiction; exact I.
  - cbn. destruct H; [discriminate|assumption].
Qed.

Lemma no_assign_tail L rest : no_assign (tail_toks L ++ TRPar :: rest).
Proof. destruct L; exact I. Qed.

(* the commas of a subscript index, whatever expression the loop has in hand at the first one *)
Lemma comma_tail_LP rest : forall l c,
  Forall Operand l -> all_but_last notif l = true ->
  LP 0 c false (tail_toks (map (print [] PR_NONE) l) ++ TRBrk :: rest)
     (match l with [] => c | _ => ETuple (items c ++ l) end, TRBrk :: rest).
Proof.
  induction l as [|i l IH]; intros c HG Habl; [apply LP_stop; reflexivity|].
  inversion HG as [|? ? Gi HG']; subst. apply abl_cons in Habl as [Hi Habl].
  cbn [map]. rewrite tail_toks_cons. cbn [app]. rewrite <- app_assoc.
  eapply LP_step; [apply (postfix_comma 0 c false _ i); [reflexivity|] | ].
  - apply item_PE; [exact Gi|]. apply item_next_tail; [|exact I].
    destruct Hi as [->|Hi]; [left; reflexivity | right; exact Hi].
  - specialize (IH (ETuple (items c ++ [i])) HG' Habl). cbn [items] in IH.
    destruct l; [exact IH|]. rewrite <- app_assoc in IH. exact IH.
Qed.

Lemma index_PE i1 l rest :
  Operand i1 -> Forall Operand l -> all_but_last notif (i1 :: l) = true ->
  PE 0 (join [TComma] (map (print [] PR_NONE) (i1 :: l)) ++ TRBrk :: rest)
     (match l with [] => i1 | _ => ETuple (i1 :: l) end, TRBrk :: rest).
Proof.
  intros G1 Gl Habl. apply abl_cons in Habl as [Hi Habl].
  cbn [map]. rewrite join_cons, <- app_assoc.
  apply (child_PE i1 G1); [apply Nat.le_0_l | intros _; apply top_lvl_pos | |].
  - destruct l as [|i2 l]; [apply follow_rbrk|]. apply follow_comma.
    destruct Hi as [Hi|Hi]; [discriminate Hi | exact Hi].
  - pose proof (comma_tail_LP rest l i1 Gl Habl) as H.
    replace (items i1) with [i1] in H by (destruct G1 as (_ & Ht1); destruct i1; try reflexivity; discriminate).
    exact H.
Qed.

Lemma kw_set_fresh kw k v :
  existsb (String.eqb k) (map fst kw) = false -> kw_set kw k v = kw ++ [(k, v)].
Proof.
  induction kw as [|[k' v'] kw IH]; intros H; [reflexivity|].
  cbn in H. apply orb_false_iff in H as [H1 H2].
  cbn [kw_set]. rewrite String.eqb_sym, H1. cbn [app]. f_equal. auto.
Qed.

Lemma no_dup_mid l1 x l2 : no_dup (l1 ++ x :: l2) = true -> existsb (String.eqb x) l1 = false.
Proof.
  induction l1 as [|y l1 IH]; intros H; [reflexivity|].
  cbn in H. apply andb_true_iff in H as [H1 H2]. apply negb_true_iff in H1.
  rewrite existsb_app in H1. apply orb_false_iff in H1 as [_ H1]. cbn in H1.
  apply orb_false_iff in H1 as [H1 _].
  cbn. rewrite String.eqb_sym, H1. cbn. auto.
Qed.

Definition OperandKw (kv : string * expr) : Prop := Operand (snd kv).

Lemma AL_pos_item ca a args next R :
  Operand a -> item_next a next -> no_assign next ->
  AL (args ++ [a]) [] true next R ->
  AL args [] ca (item_toks ca (print [] PR_NONE a ++ next)) R.
Proof.
  intros Ga Hn Hna HA. apply (AL_pos ca) with (a := a) (ts' := next); auto using item_PE.
Qed.

Lemma AL_kw_item ca k v args kw next R :
  Operand v -> item_next v next ->
  AL args (kw_set kw k v) true next R ->
  AL args kw ca (item_toks ca (TId k :: TAssign :: print [] PR_NONE v ++ next)) R.
Proof.
  intros Gv Hn HA. apply (AL_kw ca) with (v := v) (ts' := next); auto using item_PE.
Qed.

Lemma AL_kw_tail rest : forall kws args kw0,
  Forall OperandKw kws -> all_but_last notif (map snd kws) = true ->
  no_dup (map fst (kw0 ++ kws)) = true ->
  AL args kw0 true (tail_toks (map kw_item kws) ++ TRPar :: rest) (args, kw0 ++ kws, rest).
Proof.
  induction kws as [|[k v] kws IH]; intros args kw0 HG Habl Hnd.
  - rewrite app_nil_r. apply AL_close.
  - inversion HG as [|? ? Gv HG']; subst. cbn [map snd] in Habl. apply abl_cons in Habl as [Hi Habl].
    cbn [map]. rewrite tail_toks_cons. unfold kw_item at 1. cbn [fst snd app]. rewrite <- app_assoc.
    apply (AL_kw_item true); [exact Gv | |].
    + apply item_next_tail; [|exact I].
      destruct Hi as [Hi|Hi]; [left; destruct kws; [reflexivity|discriminate] | right; exact Hi].
    + rewrite kw_set_fresh.
      * replace (kw0 ++ (k, v) :: kws) with ((kw0 ++ [(k, v)]) ++ kws) by (rewrite <- app_assoc; reflexivity).
        apply IH; auto. rewrite <- app_assoc. exact Hnd.
      * rewrite map_app in Hnd. cbn [map fst] in Hnd. eapply no_dup_mid. exact Hnd.
Qed.

Lemma AL_arg_tail rest kws : forall l args0,
  Forall Operand l -> Forall OperandKw kws ->
  all_but_last notif (l ++ map snd kws) = true -> no_dup (map fst kws) = true ->
  AL args0 [] true (tail_toks (map (print [] PR_NONE) l ++ map kw_item kws) ++ TRPar :: rest) (args0 ++ l, kws, rest).
Proof.
  induction l as [|a l IH]; intros args0 HG HK Habl Hnd.
  - rewrite app_nil_r. apply (AL_kw_tail rest kws args0 []); auto.
  - inversion HG as [|? ? Ga HG']; subst.
    cbn [app] in Habl. apply abl_cons in Habl as [Hi Habl].
    cbn [map app]. rewrite tail_toks_cons. cbn [app]. rewrite <- app_assoc.
    apply (AL_pos_item true); [exact Ga | | apply no_assign_tail |].
    + apply item_next_tail; [|exact I]. destruct Hi as [Hi|Hi]; [left | right; exact Hi].
      apply app_eq_nil in Hi as [-> Hk]. apply map_eq_nil in Hk as ->. reflexivity.
    + replace (args0 ++ a :: l) with ((args0 ++ [a]) ++ l) by (rewrite <- app_assoc; reflexivity).
      apply IH; auto.
Qed.

Lemma AL_items rest args kws :
  Forall Operand args -> Forall OperandKw kws ->
  all_but_last notif (args ++ map snd kws) = true -> no_dup (map fst kws) = true ->
  AL [] [] false (join [TComma] (map (print [] PR_NONE) args ++ map kw_item kws) ++ TRPar :: rest) (args, kws, rest).
Proof.
  intros HG HK Habl Hnd.
  destruct args as [|a l]; [destruct kws as [|[k v] kws]|]; cbn [map app]; rewrite ?join_cons.
  - apply AL_close.
  - inversion HK as [|? ? Gv HK']; subst. cbn [map snd app] in Habl. apply abl_cons in Habl as [Hi Habl].
    unfold kw_item at 1. cbn [fst snd app]. rewrite <- app_assoc.
    apply (AL_kw_item false); [exact Gv | |].
    + apply item_next_tail; [|exact I].
      destruct Hi as [Hi|Hi]; [left; destruct kws; [reflexivity|discriminate] | right; exact Hi].
    + apply (AL_kw_tail rest kws [] [(k, v)]); auto.
  - inversion HG as [|? ? Ga HG']; subst. cbn [app] in Habl. apply abl_cons in Habl as [Hi Habl].
    rewrite <- app_assoc.
    apply (AL_pos_item false); [exact Ga | | apply no_assign_tail |].
    + apply item_next_tail; [|exact I]. destruct Hi as [Hi|Hi]; [left | right; exact Hi].
      apply app_eq_nil in Hi as [-> Hk]. apply map_eq_nil in Hk as ->. reflexivity.
    + apply (AL_arg_tail rest kws l [a]); auto.
Qed.

Lemma follow_ge m t r k :
  follow k (t :: r) = true -> k <= m -> follow m (t :: r) = true.
Proof. intros H Hk. eapply follow_mono; eauto. Qed.

Lemma Body_int z : Body (EInt z).
Proof.
  intros p rest r _ Hfo HL. unfold B. cbn [print]. cbn [redge0] in Hfo. destruct (z <? 0)%Z eqn:Hz.
  - rewrite ltb_0. cbn [paren_if app].
    (* EInt z as EInt (- Z.of_N (Z.to_N (- z))), what prefix_minus_int returns *)
    rewrite <- (Z.opp_involutive z), <- (Z2N.id (- z)) in HL by lia. exact (PE_intro _ _ _ _ _ _ (prefix_minus_int _ _ Hfo) HL).
  - rewrite <- (Z2N.id z) in HL by lia. exact (PE_intro _ _ _ _ _ _ (prefix_int _ _) HL).
Qed.

Lemma Body_bool b : Body (EBool b).
Proof.
  intros p rest r _ _ HL. unfold B. cbn [print app].
  destruct b; [exact (PE_intro _ _ _ _ _ _ (prefix_true _) HL) | exact (PE_intro _ _ _ _ _ _ (prefix_false _) HL)].
Qed.

(* A tag-only name <t> must not be followed by an identifier: that is the second half of follow. *)
Lemma Body_var x : Body (EVar x).
Proof.
  intros p rest r _ Hfo HL. unfold B. cbn [print]. destruct (var_toks_cases x) as [->|(t & u & Hx & ->)].
  - exact (PE_intro _ _ _ _ _ _ (prefix_id _ _) HL).
  - subst x. destruct u as [|c u]; cbn [app].
    + eapply PE_intro; [apply prefix_tag1 | exact HL].
      cbn [redge0] in Hfo. destruct rest as [|[] ?]; try exact I. discriminate.
    + exact (PE_intro _ _ _ _ _ _ (prefix_tag2 _ _ _) HL).
Qed.

(* Each infix node is an instance of infix_PE: what remains is to read the levels of its two
   operands off level_table, by evaluation.  The side conditions of the normal form (the right
   operand of a left-associative operator is not that operator again, the base of a power is not
   a power) move the operand one row up. *)
Lemma Body_nary o a b :
  Operand a -> Operand b ->
  match o with
  | NSum => negb (is_nary NSum b) && is_arith a && is_arith b
  | NProd => negb (is_nary NProd a) && is_arith a && is_arith b
  | NAnd => negb (is_nary NAnd b)
  | NOr => negb (is_nary NOr b)
  end = true ->
  Body (ENary o [a; b]).
Proof.
  intros Ga Gb Hop p rest r Hp Hfo HL.
  rewrite B_nary2. cbn [top_lvl] in Hp. cbn [redge0] in Hfo.
  destruct o; cbn [nary_operand nary_prec]; split_and Hop; apply negb_true_iff in Hop.
  - apply (infix_PE TPlus _ _ _ _ a b _ _ eq_refl Ga Gb); auto; try (apply Nat.leb_le; reflexivity).
    + apply (top_ge_at PR_SUM). reflexivity.
    + apply (redge_at PR_SUM). reflexivity.
    + apply (top_above PR_SUM); [reflexivity|]. intros [E|E]%prec_sum; [congruence | exact E].
    + apply (redge_at PR_SUM). reflexivity.
  - rewrite Hop.
    apply (infix_PE TTimes _ _ _ _ a b _ _ eq_refl Ga Gb); auto;
      try (destruct (is_nary NProd b); apply Nat.leb_le; reflexivity).
    + apply (top_ge_at PR_UNARY). reflexivity.
    + apply (redge_at PR_UNARY). reflexivity.
    + destruct (is_nary NProd b); [apply (top_at PR_PRODUCT) | apply (top_at PR_UNARY)]; reflexivity.
    + destruct (is_nary NProd b); [apply (redge_at PR_PRODUCT) | apply (redge_at PR_UNARY)]; reflexivity.
  - apply (infix_PE TAnd _ _ _ _ a b _ _ eq_refl Ga Gb); try discriminate; try (apply Nat.leb_le; reflexivity); auto.
    + apply (top_ge_at PR_LOGICAL_AND). reflexivity.
    + apply (redge_at PR_LOGICAL_AND). reflexivity.
    + apply (top_above PR_LOGICAL_AND); [reflexivity|]. intros E%prec_and. congruence.
    + apply (redge_at PR_LOGICAL_AND). reflexivity.
  - apply (infix_PE TOr _ _ _ _ a b _ _ eq_refl Ga Gb); try discriminate; try (apply Nat.leb_le; reflexivity); auto.
    + apply (top_ge_at PR_LOGICAL_OR). reflexivity.
    + apply (redge_at PR_LOGICAL_OR). reflexivity.
    + apply (top_above PR_LOGICAL_OR); [reflexivity|]. intros E%prec_or. congruence.
    + apply (redge_at PR_LOGICAL_OR). reflexivity.
Qed.

Lemma Body_qfr o a b :
  is_qfr (EBin o a b) = true -> Operand a -> Operand b -> is_arith a = true -> is_arith b = true ->
  Body (EBin o a b).
Proof.
  intros Ho Ga Gb Haa Hab p rest r Hp Hfo HL.
  rewrite B_bin. destruct o; try discriminate Ho; cbn [top_lvl] in Hp; cbn [redge0] in Hfo; cbn [bin_operand bin_tok].
  all: match goal with |- PE _ (_ ++ ?t :: _) _ => eapply (infix_PE t _ _ _ _ a b _ _ eq_refl Ga Gb) end; eauto;
    try (apply Nat.leb_le; reflexivity);
    [apply (top_ge_at PR_UNARY) | apply (redge_at PR_UNARY) | apply (top_at PR_UNARY) | apply (redge_at PR_UNARY)];
    reflexivity.
Qed.

Lemma Body_pow a b :
  Operand a -> Operand b -> is_pow a = false -> is_arith a = true -> is_arith b = true ->
  Body (EBin BPow a b).
Proof.
  intros Ga Gb Hpa Haa Hab p rest r Hp Hfo HL. rewrite B_bin.
  apply (infix_PE TPow _ _ _ _ a b _ _ eq_refl Ga Gb); auto; try (apply Nat.leb_le; reflexivity).
  - apply (top_ge_at PR_POWER). reflexivity.
  - apply (redge_above PR_POWER); [reflexivity|]. intros E%prec_pow. congruence.
  - apply (top_at PR_POWER). reflexivity.
  - apply (redge_at PR_POWER). reflexivity.
Qed.

Lemma Body_cmp c a b : Operand a -> Operand b -> is_cmp b = false -> Body (EBin (BCmp c) a b).
Proof.
  intros Ga Gb Hcb p rest r Hp Hfo HL. rewrite B_bin.
  apply (infix_PE (TCmp c) _ _ _ _ a b _ _ eq_refl Ga Gb); try discriminate; try (apply Nat.leb_le; reflexivity); auto.
  - apply (top_ge_at PR_COMPARISON). reflexivity.
  - apply (redge_at PR_COMPARISON). reflexivity.
  - apply (top_above PR_COMPARISON); [reflexivity|]. intros E%prec_cmp. congruence.
  - apply (redge_at PR_COMPARISON). reflexivity.
Qed.

Lemma Body_not a : Operand a -> Body (ENot a).
Proof.
  intros Ga p rest r _ Hfo HL. rewrite B_not. cbn [redge0] in Hfo.
  eapply PE_intro; [apply prefix_not with (a := a) (r' := rest) | exact HL].
  apply (child_at a PR_UNARY _ _ _ Ga); [apply Nat.leb_le | apply Nat.ltb_lt | exact Hfo | apply LP_stop]; try reflexivity.
  eapply follow_mono; [|exact Hfo]. apply Nat.leb_le. reflexivity.
Qed.

(* `t if c else e`: t is the left operand in hand when the loop meets `if`; the rule parses c at
   PA_IF up to `else`, then e at level 0. *)
Lemma Body_if c t e : Operand c -> Operand t -> Operand e -> Body (EIf c t e).
Proof.
  intros Gc Gt Ge p rest r Hp Hfo HL.
  rewrite B_if. cbn [top_lvl] in Hp. cbn [redge0] in Hfo.
  assert (Hor : PR_LOGICAL_OR <= PR_CALL) by (apply Nat.leb_le; reflexivity).
  apply (child_at t PR_LOGICAL_OR _ _ _ Gt Hor); [eapply Nat.lt_le_trans; [exact Hp | apply Nat.leb_le; reflexivity] | reflexivity |].
  eapply LP_step; [apply postfix_if with (c := c) (e := e) (r3 := rest) (r2 := print [] PR_LOGICAL_OR e ++ rest)
                  | exact HL].
  - apply Nat.ltb_lt. exact Hp.
  - apply (child_at c PR_LOGICAL_OR _ _ _ Gc Hor); [apply Nat.ltb_lt; reflexivity | reflexivity | apply LP_stop; apply follow_else].
  - apply (child_at e PR_LOGICAL_OR _ _ _ Ge Hor); [apply Nat.ltb_lt; reflexivity | | apply LP_stop; exact Hfo].
    eapply follow_mono; [|exact Hfo]. apply Nat.le_0_l.
Qed.

Lemma Body_call f args kw :
  Operand f -> Forall Operand args -> Forall OperandKw kw ->
  no_dup (map fst kw) = true -> all_but_last notif (args ++ map snd kw) = true ->
  Body (ECall f args kw).
Proof.
  intros Gf Gargs Gkw Hnd Habl p rest r Hp _ HL. rewrite B_call. cbn [top_lvl] in Hp.
  apply (child_at f PR_CALL _ _ _ Gf (Nat.le_refl _)); [exact Hp | reflexivity |].
  eapply LP_step; [apply postfix_call with (args := args) (kw := kw) (r' := rest) | exact HL].
  - apply Nat.ltb_lt. exact Hp.
  - apply AL_items; assumption.
Qed.

Lemma Body_sub a i :
  Operand a -> Forall Operand (items i) ->
  negb (is_tuple i) || (2 <=? length (items i)) = true -> all_but_last notif (items i) = true ->
  Body (ESub a i).
Proof.
  intros Ga Gi Hlen Habl p rest r Hp _ HL. rewrite B_sub. cbn [top_lvl] in Hp.
  apply (child_at a PR_CALL _ _ _ Ga (Nat.le_refl _)); [exact Hp | reflexivity |].
  eapply LP_step; [apply postfix_sub with (i := i) (r2 := rest) | exact HL].
  - apply Nat.ltb_lt. exact Hp.
  - destruct (items_shape i Hlen) as (i1 & l & E & Hi). rewrite E in *. rewrite Hi.
    inversion Gi; subst. apply index_PE; assumption.
Qed.

Theorem body_all : forall e, nf e = true -> Body e.
Proof.
  induction e using expr_ind'; intros Hnf.
  - apply Body_int.
  - apply Body_bool.
  - apply Body_var.
  - destruct (nf_nary_inv _ _ Hnf) as (a & b & -> & Ha & Hb & Hop).
    apply (operand _ (Forall_inv H)) in Ha. apply (operand _ (Forall_inv (Forall_inv_tail H))) in Hb.
    apply Body_nary; assumption.
  - destruct (nf_bin_inv _ _ _ Hnf) as (Ha%(operand _ IHe1) & Hb%(operand _ IHe2) & Hop).
    destruct o; split_and Hop.
    1-3: apply Body_qfr; auto.
    + apply negb_true_iff in Hop. apply Body_pow; assumption.
    + apply negb_true_iff in Hop. apply Body_cmp; assumption.
  - cbn [nf] in Hnf. rewrite okc_nf in Hnf. apply Body_not, operand; assumption.
  - destruct (nf_if_inv _ _ _ Hnf) as (Hc%(operand _ IHe1) & Ht%(operand _ IHe2) & He%(operand _ IHe3)).
    apply Body_if; assumption.
  - destruct (nf_call_inv _ _ _ Hnf) as (Hf%(operand _ IHe) & Hargs & Hkw & Hnd & Habl).
    apply Body_call; auto; [exact (operands (fun c => c) args H Hargs) | exact (operands snd kw H0 Hkw)].
  - destruct (nf_sub_inv _ _ Hnf) as (Ha%(operand _ IHe1) & Hi & Hlen & Habl).
    apply Body_sub; auto. exact (operands (fun c => c) (items e2) H Hi).
  - discriminate.
Qed.
