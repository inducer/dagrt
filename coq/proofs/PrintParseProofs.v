(* C19 -- the round trip on tokens: the blanks go (strip_print), the tokens of e are those of norm e
   (print_norm), which is a normal form (nf_norm), so it parses back (body_all) and has no
   back-tick to lose (unbt_nf).  Then: quoting every name in back-ticks is undone by unbt. *)
From Coq Require Import List ZArith NArith String Ascii Bool Arith Lia ZifyBool.
Import ListNotations.
From Dagrt Require Import GenC19 Print Parse StringFacts ExprInd ParseRules RoundTrip RoundTrip4
     NormProofs2.
Open Scope list_scope.
Open Scope nat_scope.

Lemma wf_not_tuple e : wf_expr e = true -> is_tuple e = false.
Proof. destruct e; try reflexivity. discriminate. Qed.

Theorem parse_toks_nf e : nf e = true -> parse_toks (print [] PR_NONE e) = Ok e.
Proof.
  intros Hnf. apply parse_toks_intro.
  pose proof (body_all e Hnf 0 [] (e, [])) as HB. unfold B in HB. rewrite app_nil_r in HB.
  apply HB.
  - apply top_lvl_pos.
  - reflexivity.
  - apply LP_stop. reflexivity.
Qed.

Theorem roundtrip_tokens e :
  printable e = true -> parse_tokens (print [TSp] PR_NONE e) = Ok (norm e).
Proof.
  unfold printable. intros H. apply andb_true_iff in H as [Hw Hd].
  unfold parse_tokens. rewrite strip_print, <- (print_norm [] PR_NONE e).
  rewrite parse_toks_nf by (apply nf_norm; assumption).
  cbn [bind]. rewrite unbt_nf; [reflexivity | apply nf_norm; assumption].
Qed.

(* closes props C19_roundtrip_tokens; props C19_roundtrip_partial is RoundTripString.roundtrip_string_partial *)
Theorem roundtrip_partial :
  forall e, printable e = true ->
  exists e', parse_tokens (print [TSp] PR_NONE e) = Ok e'
             /\ (forall sp q, print sp q e' = print sp q e)
             /\ vars e' = vars e
             /\ forall rho Ffun Fsub Fquot Fnegpow,
                  eval rho Ffun Fsub Fquot Fnegpow e' = eval rho Ffun Fsub Fquot Fnegpow e.
Proof.
  intros e H. exists (norm e). split; [apply roundtrip_tokens; exact H|].
  split; [intros; apply print_norm|]. split; [apply vars_norm|]. intros. apply eval_norm.
Qed.

(* What is stated is nf_norm with `printable` unfolded: norm e is a parser-normal form.  The name
   says more; `printable (norm e)` is proved nowhere. *)
Theorem norm_printable_again e :
  printable e = true -> nf (norm e) = true.
Proof.
  unfold printable. intros H. apply andb_true_iff in H as [Hw Hd]. apply nf_norm; assumption.
Qed.

(* non-vacuity: a printable expression that exercises re-nesting, tags, negative constants,
   keyword arguments, tuple indices, forced parentheses *)
Definition ex1 : expr :=
  ENary NSum
    [EVar "a";
     ENary NSum [ENary NProd [EInt (-1); ENary NProd [EVar "<state>y"; EBin BQuot (EVar "b") (EInt 2)]];
                 EBin BPow (EVar "<dt>") (EBin BPow (EInt 2) (ENot (EVar "c")))];
     EIf (ENary NOr [EBin (BCmp CLt) (EBin (BCmp CLe) (EVar "a") (EVar "b")) (EInt 3);
                     ENary NOr [EVar "p"; ENary NAnd [EVar "q"; EBool true]]])
         (ECall (EVar "<func>f") [EVar "x"; ESub (EVar "arr") (ETuple [EVar "i"; EInt (-1)])]
                [("k", EIf (EVar "c") (EInt 1) (EInt 2))])
         (EInt (-4))].

Example ex1_printable : printable ex1 = true.
Proof. vm_compute. reflexivity. Qed.

Example ex1_text :
  print_string ex1
  = "a + (-1)*<state>y*(b / 2) + <dt>**2**(not c) + (<func>f(x, arr[i, -1], k=1 if c else 2) if a <= b < 3 or p or q and True else -4)"%string.
Proof. vm_compute. reflexivity. Qed.

Example ex1_renested : expr_eqb (norm ex1) ex1 = false.
Proof. vm_compute. reflexivity. Qed.

Example ex1_roundtrip : parse_string (print_string ex1) = Ok (norm ex1).
Proof. vm_compute. reflexivity. Qed.

Fixpoint quote (e : expr) : expr :=
  match e with
  | EVar x => EVar (String "`" (x ++ "`"))
  | ENary o l => ENary o (map quote l)
  | EBin o a b => EBin o (quote a) (quote b)
  | ENot a => ENot (quote a)
  | EIf c t e => EIf (quote c) (quote t) (quote e)
  | ECall f args kw => ECall (quote f) (map quote args) (map (fun kv => (fst kv, quote (snd kv))) kw)
  | ESub a i => ESub (quote a) (quote i)
  | ETuple l => ETuple (map quote l)
  | _ => e
  end.

Lemma ends_bt_app x : ends_bt (x ++ "`") = true.
Proof.
  induction x as [|c x IH]; [reflexivity|].
  cbn [append ends_bt]. destruct (x ++ "`")%string eqn:E; [destruct x; discriminate|]. exact IH.
Qed.

Lemma substring_all x : substring 0 (String.length x) (x ++ "`") = x.
Proof.
  induction x as [|c x IH]; [reflexivity|]. cbn [String.length append substring]. rewrite IH. reflexivity.
Qed.

Lemma strip_bt_quote x : strip_bt (String "`" (x ++ "`")) = x.
Proof.
  unfold strip_bt. change (String "`" (x ++ "`")%string) with (String "`" x ++ "`")%string. rewrite ends_bt_app.
  cbn [append String.length starts_bt substring]. change (Ascii.eqb "`" "`") with true. cbn [andb].
  rewrite length_append. cbn [String.length].
  replace (S (String.length x + 1) - 2) with (String.length x) by lia.
  apply substring_all.
Qed.

(* descend = true (remove_backticks lets the mapper go into subscripts): un-quoting undoes quoting
   everywhere.  With false a name inside a subscript keeps its back-ticks: unbt_quote_nodescend. *)
Theorem unbt_quote_descend : forall e, unbt true (quote e) = e.
Proof.
  induction e using expr_ind'; cbn [quote unbt]; try reflexivity.
  - rewrite strip_bt_quote. reflexivity.
  - rewrite map_map. f_equal. apply map_id_F. exact H.
  - congruence.
  - congruence.
  - congruence.
  - rewrite !map_map, IHe. f_equal.
    + apply map_id_F. exact H.
    + rewrite <- (map_id kw) at 2. apply map_ext_Forall. eapply Forall_impl; [|exact H0].
      intros kv Hkv. cbn [fst snd]. rewrite Hkv. destruct kv; reflexivity.
  - congruence.
  - rewrite map_map. f_equal. apply map_id_F. exact H.
Qed.

Definition wit_bt : expr := ESub (EVar "a") (EVar "i").

Lemma unbt_quote_nodescend : unbt false (quote wit_bt) <> wit_bt.
Proof. vm_compute. discriminate. Qed.

Theorem backticks_in_context :
  unbt_descends_subscript = true -> forall e, unbt unbt_descends_subscript (quote e) = e.
Proof. intros ->. apply unbt_quote_descend. Qed.

Theorem backticks_in_context_refuted :
  unbt_descends_subscript = false -> exists e, unbt unbt_descends_subscript (quote e) <> e.
Proof. intros ->. exists wit_bt. apply unbt_quote_nodescend. Qed.
