(* C09: every assigned variable gets a kind; the final table is a fixed point of re-inference; under the
   side conditions that makes it pass the re-check `strict`, hence sound for the class semantics.  Then the
   programs on which the unrestricted statements fail, and examples that meet the hypotheses. *)
From Coq Require Import List String Bool Arith Lia.
Import ListNotations.
Open Scope string_scope.
Open Scope list_scope.
From Dagrt Require Import Kinds KindsClassProofs KindsProofs KindsTableProofs KindsFinderProofs.

Lemma sum_kinds_some : forall rs acc last ko, sum_kinds rs acc last = Ok ko -> ko <> None.
Proof.
  induction rs as [|r rs IH]; intros acc last ko H; simpl in H.
  - destruct acc; [inversion H; discriminate | destruct last; discriminate].
  - destruct r as [k|e].
    + destruct (unify acc k); [eapply IH; eauto | discriminate].
    + destruct e; try discriminate. eapply IH; eauto.
Qed.

Lemma prod_kinds_some : forall rs acc ko,
  (forall ko', In (Ok ko') rs -> ko' <> None) -> (acc <> None \/ rs <> []) ->
  prod_kinds rs acc = Ok ko -> ko <> None.
Proof.
  induction rs as [|r rs IH]; intros acc ko Hrs Hne H; simpl in H.
  - inversion H; subst. destruct Hne; congruence.
  - destruct r as [k|e]; [|discriminate].
    destruct (unify acc k) as [k'|] eqn:Hu; [|discriminate].
    eapply IH; [| |exact H].
    + intros ko' Hin. apply Hrs. right. exact Hin.
    + left. assert (Hk : k <> None) by (apply Hrs; left; reflexivity).
      destruct acc as [a|]; [|simpl in Hu; inversion Hu; subst; exact Hk].
      eapply unify_some; [| |exact Hu]; [discriminate | exact Hk].
Qed.

Lemma kmap_some : forall C reg G L,
  pow_fix C = true -> tbl_all_some G -> tbl_all_some L ->
  forall e ko, wf_expr e = true -> kmap C reg G L e = Ok ko -> ko <> None.
Proof.
  intros C reg G L Hpf HG HL.
  assert (Hchildren : forall l, Forall (fun e => forall ko, wf_expr e = true -> kmap C reg G L e = Ok ko -> ko <> None) l ->
                                forallb wf_expr l = true ->
                                forall ko', In (Ok ko') (map (kmap C reg G L) l) -> ko' <> None).
  { intros l HF Hw ko' Hin. apply in_map_iff in Hin. destruct Hin as [e [He Hin]].
    rewrite Forall_forall in HF. rewrite forallb_forall in Hw. eapply HF; eauto. }
  assert (Hpair : forall e1 e2 ko,
            (forall ko, wf_expr e1 = true -> kmap C reg G L e1 = Ok ko -> ko <> None) ->
            (forall ko, wf_expr e2 = true -> kmap C reg G L e2 = Ok ko -> ko <> None) ->
            wf_expr e1 && wf_expr e2 = true ->
            prod_kinds [kmap C reg G L e1; kmap C reg G L e2] None = Ok ko -> ko <> None).
  { intros e1 e2 ko H1 H2 Hw Hk. apply andb_prop in Hw. destruct Hw as [Hw1 Hw2].
    eapply prod_kinds_some; [| |exact Hk]; [|right; discriminate].
    intros ko' [E|[E|[]]]; [eapply H1 | eapply H2]; eauto. }
  induction e as [c | x | summands IH | factors IH | num den IHnum IHden | base expo IHbase IHexpo
                   | o lhs rhs IHlhs IHrhs | conjuncts IH | disjuncts IH | negated IH | mins IH | maxs IH
                   | arr idx IHarr IHidx | f args kwn IH] using expr_ind';
    intros ko Hw Hk; simpl in Hw, Hk.
  - inversion Hk. discriminate.
  - destruct (alookup G x) as [k|] eqn:E1; [inversion Hk; subst; eapply HG; eauto|].
    destruct (alookup L x) as [k|] eqn:E2; [inversion Hk; subst; eapply HL; eauto | discriminate].
  - eapply sum_kinds_some; eauto.
  - apply andb_prop in Hw. destruct Hw as [Hn Hw].
    eapply prod_kinds_some; [| |exact Hk]; [apply Hchildren; assumption|].
    right. destruct factors; [discriminate | discriminate].
  - exact (Hpair num den ko IHnum IHden Hw Hk).
  - rewrite Hpf in Hk. exact (Hpair base expo ko IHbase IHexpo Hw Hk).
  - inversion Hk. discriminate.
  - apply logic_kinds_ok in Hk. subst. discriminate.
  - apply logic_kinds_ok in Hk. subst. discriminate.
  - destruct (kmap C reg G L negated); [inversion Hk; discriminate | discriminate].
  - inversion Hk. discriminate.
  - inversion Hk. discriminate.
  - destruct (kmap C reg G L arr) as [k|]; [|discriminate].
    destruct (realness k); inversion Hk. discriminate.
  - destruct (kcall C reg f (map (kmap C reg G L) args) kwn) as [[|k [|k2 ks]]|]; inversion Hk. discriminate.
Qed.

Lemma infer_all_some : forall C reg fo fi D forced T,
  pow_fix C = true -> wf_program D = true ->
  infer C reg fo fi D forced = Ok T -> all_some T.
Proof.
  intros C reg fo fi D forced T Hpf Hw H.
  assert (Hinit : all_some init_table).
  { split; [|intros p; apply nil_all_some].
    intros y ko Hy. destruct (init_table_lookup y ko Hy) as [-> _]. discriminate. }
  assert (Hset : forall T0 ph x k, all_some T0 -> all_some (tset C T0 ph x (Some k))).
  { intros T0 ph x k H0. apply tset_all_some; [exact H0 | discriminate]. }
  assert (Hassign : forall T0 ph x rhs loops L k,
             wf_stmt (SAssign x false rhs loops) = true -> L = local_of T0 ph \/ L = [] ->
             kmap C reg (sg T0) L rhs = Ok k -> all_some T0 -> all_some (tset C T0 ph x k)).
  { intros T0 ph x rhs loops L k Hwf HL Hk H0. apply tset_all_some; [exact H0|].
    apply (kmap_some C reg (sg T0) L Hpf) with (e := rhs); [apply H0 | | exact Hwf | exact Hk].
    destruct HL as [->| ->]; [apply H0 | apply nil_all_some]. }
  assert (Hwf : forall it, In it (items_of D) -> wf_stmt (snd it) = true).
  { intros [ph s] Hin. simpl. apply in_items_of in Hin. destruct Hin as [stmts [HD Hs]].
    unfold wf_program in Hw. rewrite forallb_forall in Hw. specialize (Hw (ph, stmts) HD). simpl in Hw.
    rewrite forallb_forall in Hw. apply Hw. exact Hs. }
  apply (infer_rel C reg (fun T T' => all_some T -> all_some T') (fun it => wf_stmt (snd it) = true)) in H; auto.
Qed.

Theorem every_assigned : forall C reg fo fi D forced T,
  pow_fix C = true -> wf_program D = true ->
  infer C reg fo fi D forced = Ok T ->
  forall ph stmts s x, In (ph, stmts) D -> In s stmts -> assigns s x ->
  exists k, lookup T ph x = Some (Some k).
Proof.
  intros C reg fo fi D forced T Hpf Hw H ph stmts s x HD Hs Ha.
  pose proof (infer_all_some _ _ _ _ _ _ _ Hpf Hw H) as Hall.
  destruct (infer_keys _ _ _ _ _ _ _ H) as [HkA HkC].
  apply lookup_all_some; [exact Hall|].
  destruct s as [y [] rhs loops | xs f args kwn |]; simpl in Ha; try contradiction.
  - subst y. eapply HkA; eauto.
  - eapply HkC; eauto.
Qed.

Definition stable_entry (C : cfg) (T : skt) (ph x : string) (k : okind) : Prop :=
  exists old, alookup (tbl_of C T ph x) x = Some old /\ (old = k \/ unify k old = Ok old).

Fixpoint zip_stable (C : cfg) (T : skt) (ph : string) (xs : list string) (ks : list kind) : Prop :=
  match xs, ks with
  | x :: xs', k :: ks' => stable_entry C T ph x (Some k) /\ zip_stable C T ph xs' ks'
  | _, _ => True
  end.

Definition stable_item (C : cfg) (reg : registry) (T : skt) (it : item) : Prop :=
  match snd it with
  | SAssign x false rhs loops =>
      Forall (fun i => stable_entry C T (fst it) i (Some KInt)) loops /\
      exists k, kmap C reg (sg T) (local_of T (fst it)) rhs = Ok k /\ stable_entry C T (fst it) x k
  | SCall xs f args kwn =>
      exists ks, kcall C reg f (map (kmap C reg (sg T) (local_of T (fst it))) args) kwn = Ok ks /\
                 zip_stable C T (fst it) xs ks
  | _ => True
  end.

(* if the table at the end is quiet, nothing happened on the way *)
Definition still (T T' : skt) : Prop := quiet T' -> T' = T.

Lemma still_refl : forall T, still T T.
Proof. intros T _. reflexivity. Qed.

Lemma still_trans : forall a b c, still a b -> still b c -> still a c.
Proof. intros a b c H1 H2 Hq. pose proof (H2 Hq). subst c. exact (H1 Hq). Qed.

Lemma still_tset : forall C T ph x k, new_marks C = true -> still T (tset C T ph x k).
Proof. intros C T ph x k Hnm Hq. exact (proj1 (tset_quiet C T ph x k Hnm Hq)). Qed.

Lemma set_many_stable : forall C T ph xs ks,
  new_marks C = true -> quiet (set_many C T ph xs ks) ->
  set_many C T ph xs ks = T /\ zip_stable C T ph xs ks.
Proof.
  intros C T ph xs. revert T. induction xs as [|x xs IH]; intros T [|k ks] Hnm Hq; simpl in *; auto.
  destruct (IH _ _ Hnm Hq) as [E Hz]. rewrite E in *.
  destruct (tset_quiet C T ph x (Some k) Hnm Hq) as [E' Hx]. rewrite E' in *. auto.
Qed.

Lemma zip_stable_loops : forall C T ph loops,
  zip_stable C T ph loops (map (fun _ => KInt) loops) -> Forall (fun i => stable_entry C T ph i (Some KInt)) loops.
Proof. induction loops as [|i loops IH]; simpl; intros H; constructor; [apply H | apply IH, H]. Qed.

Lemma loops_stable : forall C T ph loops,
  new_marks C = true -> quiet (set_loops C T ph loops) ->
  set_loops C T ph loops = T /\ Forall (fun i => stable_entry C T ph i (Some KInt)) loops.
Proof.
  intros C T ph loops Hnm. rewrite set_loops_many. intros Hq.
  destruct (set_many_stable C T ph loops _ Hnm Hq) as [E Hz]. auto using zip_stable_loops.
Qed.

(* a quiet table that processing a statement gives back as it was: re-inferring the statement under it gives
   kinds that merge into their entries without changing them *)
Lemma fixpoint_stable : forall C reg T ph s p,
  new_marks C = true -> quiet T -> proc_stmt C reg T ph s = SDone T p -> stable_item C reg T (ph, s).
Proof.
  intros C reg T ph s p Hnm Hq E. pose proof (proc_stmt_done C reg T ph s T p E) as HD.
  unfold stable_item. cbn [fst snd]. destruct s as [x [] rhs loops | xs f args kwn |]; try exact I.
  - destruct HD as [L [k [HL [Hk E1]]]]. rewrite E1 in Hq.
    destruct (tset_quiet C _ ph x k Hnm Hq) as [E2 Hx]. rewrite E2 in E1, Hq.
    destruct (loops_stable C T ph loops Hnm Hq) as [_ HF]. rewrite <- E1 in Hx, Hk, HL.
    split; [exact HF|]. exists k. split; [|exact Hx].
    (* the phase had no dict and still has none: its local table is the disconnected {} *)
    destruct HL as [->|[-> El]]; [exact Hk|]. unfold local_of. rewrite El. exact Hk.
  - destruct HD as [ks [Hk E1]]. rewrite E1 in Hq. destruct (set_many_stable C T ph xs ks Hnm Hq) as [_ Hz]. eauto.
Qed.

Lemma outer_last : forall C reg fo fi D T T',
  outer C reg fo fi D T = Ok T' ->
  exists T0, inner C reg fi (rev (items_of D)) [] false (reset T0) = Ok T' /\ schanged T' = false.
Proof.
  induction fo as [|f IH]; intros fi D T T' H; simpl in H; [discriminate|].
  destruct (inner C reg fi (rev (items_of D)) [] false (reset T)) as [T1|e] eqn:E; [|discriminate].
  destruct (schanged T1) eqn:Ec; [eapply IH; eauto|]. inversion H; subst. eauto.
Qed.

Definition reprocessed (C : cfg) (reg : registry) (it : item) (T : skt) : Prop :=
  quiet T -> exists p, proc_stmt C reg T (fst it) (snd it) = SDone T p.

(* The last pass ends with the change flag down; if `set` flags new entries and no "trying to derive 'kind'"
   message was printed, each of its steps therefore returned the table it was given. *)
Theorem infer_fixpoint : forall C reg fo fi D forced T,
  new_marks C = true -> infer C reg fo fi D forced = Ok T -> sconf T = 0 ->
  quiet T /\ forall ph s, In (ph, s) (items_of D) -> exists p, proc_stmt C reg T ph s = SDone T p.
Proof.
  intros C reg fo fi D forced T Hnm H Hn. pose proof (infer_outer _ _ _ _ _ _ _ H) as E. clear H.
  destruct (outer_last _ _ _ _ _ _ _ E) as [T0 [Ei Hc]]. split; [split; assumption|]. intros ph s Hin.
  apply (inner_gen C reg still (fun _ => True) (reprocessed C reg) still_refl still_trans) in Ei.
  - destruct Ei as [_ HP]. apply (HP Hc (ph, s)); [|split; assumption].
    rewrite app_nil_r. apply in_rev in Hin. exact Hin.
  - intros T2 ph2 s2 _.
    pose proof (proc_stmt_rel_any C reg still still_refl still_trans
                  (fun T ph x k => still_tset C T ph x k Hnm) T2 ph2 s2) as HR.
    destruct (proc_stmt C reg T2 ph2 s2) as [T' p| |] eqn:Ep; auto.
    split; [exact HR|]. intros Hq. pose proof (HR Hq). subst T'. eauto.
  - intros it T1 T' HR HP Hq. pose proof (HR Hq). subst T'. exact (HP Hq).
  - auto.
Qed.

Theorem infer_stable : forall C reg fo fi D forced T,
  new_marks C = true -> infer C reg fo fi D forced = Ok T -> sconf T = 0 ->
  forall it, In it (items_of D) -> stable_item C reg T it.
Proof.
  intros C reg fo fi D forced T Hnm H Hn [ph s] Hin.
  destruct (infer_fixpoint C reg fo fi D forced T Hnm H Hn) as [Hq Hfix].
  destruct (Hfix ph s Hin) as [p E]. exact (fixpoint_stable C reg T ph s p Hnm Hq E).
Qed.

Lemma unify_stable_le : forall k kx,
  unify (Some k) (Some kx) = Ok (Some kx) ->
  (match kx with KArray _ | KUser _ => negb (scalar_kind (Some k)) | _ => true end) = true ->
  kind_le k kx = true.
Proof.
  intros k kx H Ha.
  destruct k as [| |r|r|i], kx as [| |s|s|j]; simpl in *; try discriminate; try reflexivity;
    try (destruct (String.eqb i j) eqn:E; try discriminate; reflexivity);
    inversion H; destruct r, s; simpl in *; try discriminate; reflexivity.
Qed.

Lemma stable_entry_le : forall C T ph x k,
  twf C T -> stable_entry C T ph x (Some k) -> agg_ok T ph x k = true -> entry_le T ph x k = true.
Proof.
  intros C T ph x k Hwf [old [Ho Hm]] Ha. unfold entry_le, agg_ok in *.
  rewrite (lookup_tbl_of C T ph x Hwf) in *. rewrite Ho in *.
  destruct Hm as [->|Hu]; [apply kind_le_refl|].
  destruct old as [kx|]; [|simpl in Hu; discriminate].
  apply unify_stable_le; [exact Hu|]. destruct kx; auto.
Qed.

Lemma zip_entries_le : forall C T ph xs ks,
  twf C T -> List.length xs = List.length ks ->
  zip_stable C T ph xs ks -> aggs_ok T ph xs ks = true -> entries_le T ph xs ks = true.
Proof.
  intros C T ph. induction xs as [|x xs IH]; intros ks Hwf Hlen Hz Ha; destruct ks as [|k ks];
    simpl in *; try discriminate; [reflexivity|].
  destruct Hz as [H1 H2]. apply andb_prop in Ha. destruct Ha as [Ha1 Ha2].
  rewrite (stable_entry_le C T ph x k Hwf H1 Ha1). simpl. apply IH; auto.
Qed.

Theorem stable_strict : forall C reg D T,
  twf C T -> (forall it, In it (items_of D) -> stable_item C reg T it) -> final_check C reg T D = None ->
  sides C reg D T = true -> strict C reg D T = true.
Proof.
  intros C reg D T Hwf Hst Hfc Hsides.
  unfold strict, sides in *. rewrite forallb_forall in *. intros [ph stmts] HD. simpl.
  specialize (Hsides (ph, stmts) HD). simpl in Hsides. rewrite forallb_forall in *. intros s Hs.
  specialize (Hsides s Hs).
  assert (Hin : In (ph, s) (items_of D)) by (apply in_items_of; eauto).
  specialize (Hst (ph, s) Hin). unfold stable_item in Hst. simpl in Hst.
  destruct s as [x has_sub rhs loops | xs f args kwn |]; simpl in *; [| |reflexivity].
  - destruct has_sub; [reflexivity|]. simpl in *.
    apply andb_prop in Hsides as [[Hlo Hk]%andb_prop Hside].
    destruct Hst as [HF [k [Hkm He]]]. rewrite Hside, andb_true_r.
    apply andb_true_intro. split.
    + rewrite forallb_forall in *. intros i Hi. rewrite Forall_forall in HF.
      apply (stable_entry_le C); auto.
    + rewrite Hkm in *. destruct k as [k|]; simpl in *; [|discriminate].
      apply (stable_entry_le C); auto.
  - apply andb_prop in Hsides as [[Hag Hside]%andb_prop Hco].
    rewrite Hside, Hco, !andb_true_r. destruct Hst as [ks [Hk Hz]]. rewrite Hk in *.
    destruct (kcall_inv _ _ _ _ _ _ Hk) as [s0 [Hf Hlen]].
    destruct (final_check_calls C reg T D Hfc ph stmts xs f args kwn HD Hs) as [s1 [Hf1 Hn1]].
    rewrite Hf in Hf1. inversion Hf1; subst s1.
    apply (zip_entries_le C); auto. congruence.
Qed.

Theorem infer_strict : forall C reg fo fi D forced T,
  new_marks C = true -> init_twf C ->
  infer C reg fo fi D forced = Ok T -> sconf T = 0 -> sides C reg D T = true ->
  strict C reg D T = true.
Proof.
  intros C reg fo fi D forced T Hnm Hinit H Hn.
  apply stable_strict; [exact (infer_twf C reg fo fi D forced T Hinit H) | exact (infer_stable C reg fo fi D forced T Hnm H Hn)|].
  exact (infer_final_check _ _ _ _ _ _ _ H).
Qed.

Lemma twf_phase_indep : forall C T keep,
  twf C T -> (forall x, keep x = true -> is_state C x = true) -> phase_indep T keep.
Proof.
  intros C T keep Hwf Hk x Kx p q. rewrite !(lookup_tbl_of C T _ x Hwf). unfold tbl_of. rewrite (Hk x Kx). reflexivity.
Qed.

Theorem soundness_of_strict : forall C reg fo fi D forced T keep,
  init_twf C -> (forall x, keep x = true -> is_state C x = true) ->
  infer C reg fo fi D forced = Ok T -> strict C reg D T = true ->
  forall ph0 st0 ph st,
    store_ok T ph0 st0 -> creach C reg D keep ph0 st0 ph st -> store_ok T ph st.
Proof.
  intros C reg fo fi D forced T keep Hinit Hk H Hs ph0 st0 ph st.
  pose proof (infer_twf C reg fo fi D forced T Hinit H) as Hwf.
  exact (reach_sound C reg D keep T ph0 st0 ph st Hs (twf_phase_indep C T keep Hwf Hk)).
Qed.

Theorem soundness : forall C reg fo fi D forced T keep,
  new_marks C = true -> init_twf C -> (forall x, keep x = true -> is_state C x = true) ->
  infer C reg fo fi D forced = Ok T -> sconf T = 0 -> sides C reg D T = true ->
  forall ph0 st0 ph st,
    store_ok T ph0 st0 -> creach C reg D keep ph0 st0 ph st -> store_ok T ph st.
Proof.
  intros C reg fo fi D forced T keep Hnm Hinit Hk H Hn Hs.
  exact (soundness_of_strict C reg fo fi D forced T keep Hinit Hk H
           (infer_strict C reg fo fi D forced T Hnm Hinit H Hn Hs)).
Qed.

Theorem infer_no_conflict : forall C reg fo fi D forced T,
  conflict_raises C = true -> infer C reg fo fi D forced = Ok T -> sconf T = 0.
Proof.
  intros C reg fo fi D forced T Hcr H.
  assert (HI : sexn T = None <-> sconf T = 0).
  { revert H. apply (infer_invariant C reg (fun T => sexn T = None <-> sconf T = 0));
      [intros T0 ph x k; apply tset_exn_conf | trivial | split; reflexivity]. }
  apply HI. pose proof (infer_start_raised _ _ _ _ _ _ _ H) as H0. pose proof (infer_outer _ _ _ _ _ _ _ H) as E.
  apply (outer_gen C reg (fun T T' => raised C T = None -> raised C T' = None) (fun _ => True) (fun _ _ => True))
    in E; auto.
  - destruct E as [HR _]. specialize (HR H0). unfold raised in HR. rewrite Hcr in HR. exact HR.
  - (* a statement that does not fail returns the table it was given or one on which `raised` was tested *)
    intros T0 ph s _. destruct (proc_stmt_spec C reg T0 ph s); auto.
Qed.

Theorem soundness_raises : forall C reg fo fi D forced T keep,
  new_marks C = true -> conflict_raises C = true -> init_twf C ->
  (forall x, keep x = true -> is_state C x = true) ->
  infer C reg fo fi D forced = Ok T -> sides C reg D T = true ->
  forall ph0 st0 ph st,
    store_ok T ph0 st0 -> creach C reg D keep ph0 st0 ph st -> store_ok T ph st.
Proof.
  intros C reg fo fi D forced T keep Hnm Hcr Hinit Hk H Hs.
  exact (soundness C reg fo fi D forced T keep Hnm Hinit Hk H (infer_no_conflict C reg fo fi D forced T Hcr H) Hs).
Qed.

Theorem builtins_sound : forall C f s a cs ks r,
  isnan_any C = true -> rlookup builtin_reg f = Some s ->
  Forall2 arg_rel cs a -> result_kinds true s a = Some ks ->
  In r (cresult C s cs) -> hks r ks.
Proof.
  intros C f s a cs ks r Hia _ HF Hk Hin. apply (cresult_sound C s a cs ks r); try assumption.
  unfold sig_ok. destruct s; try reflexivity. rewrite Hia. reflexivity.
Qed.

Lemma existsb_incl : forall (f : string -> bool) (l1 l2 : list string),
  forallb (fun a => existsb (String.eqb a) l2) l1 = true ->
  existsb f l1 = true -> existsb f l2 = true.
Proof.
  intros f l1 l2 Hinc H. apply existsb_exists in H. destruct H as [a [Ha Hf]].
  rewrite forallb_forall in Hinc. specialize (Hinc a Ha). apply existsb_exists in Hinc.
  destruct Hinc as [b [Hb E]]. apply String.eqb_eq in E. subst b.
  apply existsb_exists. eauto.
Qed.

Lemma keep_of_state : forall C exact prefixes,
  forallb (fun a => existsb (String.eqb a) (st_exact C)) exact = true ->
  forallb (fun a => existsb (String.eqb a) (st_prefixes C)) prefixes = true ->
  forall x, keep_of exact prefixes x = true -> is_state C x = true.
Proof.
  intros C exact prefixes H1 H2 x H. unfold keep_of in H. unfold is_state.
  apply orb_prop in H. apply orb_true_intro. destruct H as [H|H].
  - left. eapply existsb_incl; eauto.
  - right. eapply existsb_incl; eauto.
Qed.

(* The name tables of [cfg_of] and [keep_std] are those of gen/GenC09.v written out (the refutations below evaluate
   under them): props/C09.v uses full_soundness_false at cfg0 / keep0, which type-checks only while the generated
   tables are convertible to these. *)
Definition cfg_of (pw nm ia cr fr na : bool) : cfg :=
  mkCfg pw nm ia cr fr na ["<t>"; "<dt>"] ["<state>"; "<p>"; "<ret_time_id>"; "<ret_time>"; "<ret_state>"].

Definition keep_std : string -> bool := keep_of ["<t>"; "<dt>"] ["<state>"; "<p>"].

(* the second part of C09 without side conditions, as a statement about one configuration *)
Definition full_soundness (C : cfg) (keep : string -> bool) : Prop :=
  forall reg fo fi D forced T,
    infer C reg fo fi D forced = Ok T ->
    forall ph0 st0 ph st,
      store_ok T ph0 st0 -> creach C reg D keep ph0 st0 ph st -> store_ok T ph st.

(* every_assigned fails for the power rule without a return statement (pow_fix = false): x <- <t> ** 2 *)
Definition wit_pow : program := [("ph", [SAssign "x" false (EPow (EVar "<t>") (EConst CInt)) []])].

Lemma every_assigned_refuted : forall nm ia cr fr na,
  exists T, infer (cfg_of false nm ia cr fr na) builtin_reg (outer_fuel wit_pow) (inner_fuel wit_pow) wit_pow [] = Ok T /\
            wf_program wit_pow = true /\
            assigns (SAssign "x" false (EPow (EVar "<t>") (EConst CInt)) []) "x" /\
            lookup T "ph" "x" = Some None.
Proof.
  (* the run consults only new_marks and conflict_raises; the other switches stay variables *)
  intros nm ia cr fr na. eexists. split; [destruct nm, cr; vm_compute; reflexivity|].
  repeat split; reflexivity.
Qed.

(* builtins_sound fails for the elementwise isnan: declared Boolean, returns an array *)
Lemma builtins_refuted_isnan : forall C,
  isnan_any C = false ->
  rlookup builtin_reg "<builtin>isnan" = Some FIsNan /\
  Forall2 arg_rel [CArr true] [Some (KArray true)] /\
  result_kinds true FIsNan [Some (KArray true)] = Some [KBool] /\
  In [CArr true] (cresult C FIsNan [CArr true]) /\
  ~ hks [CArr true] [KBool].
Proof.
  intros C Hia. split; [reflexivity|]. split.
  - constructor; [|constructor]. exists (KArray true). split; reflexivity.
  - split; [reflexivity|]. split.
    + simpl. rewrite Hia. left. reflexivity.
    + intros H. inversion H; subst. simpl in *. discriminate.
Qed.

(* a <- array(n); x <- a; x <- <t> in one phase: unify lets the Array absorb the Scalar, x: Array; running
   x <- <t> stores a real number. *)
Definition wit_mixed : program :=
  [("ph", [SCall ["a"] "<builtin>array" [EConst CInt] [];
           SAssign "x" false (EVar "a") [];
           SAssign "x" false (EVar "<t>") []])].

Lemma store_ok_t : forall T ph,
  lookup T ph "<t>" = Some (Some (KScalar true)) -> store_ok T ph [("<t>", CReal)].
Proof.
  intros T ph Hl x c Hx.
  change (alookup [("<t>", CReal)] x) with (if String.eqb "<t>" x then Some CReal else None) in Hx.
  destruct (String.eqb "<t>" x) eqn:E; [|discriminate].
  apply String.eqb_eq in E. subst x. inversion Hx; subst. exists (KScalar true). split; [exact Hl | reflexivity].
Qed.

Lemma wit_mixed_table :
  exists T, (forall pw nm ia cr fr na,
               infer (cfg_of pw nm ia cr fr na) builtin_reg (outer_fuel wit_mixed) (inner_fuel wit_mixed)
                     wit_mixed [] = Ok T) /\
            sconf T = 0 /\ lookup T "ph" "<t>" = Some (Some (KScalar true)) /\
            lookup T "ph" "x" = Some (Some (KArray true)).
Proof.
  eexists. split.
  - (* the run consults only new_marks, conflict_raises and need_arrays *)
    intros pw nm ia cr fr na. destruct nm, cr, na; vm_compute; reflexivity.
  - repeat split.
Qed.

Lemma wit_mixed_reach : forall C,
  creach C builtin_reg wit_mixed keep_std "ph" [("<t>", CReal)] "ph" (cset [("<t>", CReal)] "x" CReal).
Proof.
  intros C. eapply cr_stmt with (s := SAssign "x" false (EVar "<t>") []);
    [apply cr_refl | left; reflexivity | right; right; left; reflexivity | reflexivity | right; left; reflexivity].
Qed.

Lemma not_store_ok : forall T ph st x c k,
  alookup st x = Some c -> lookup T ph x = Some (Some k) -> has_kind c k = false -> ~ store_ok T ph st.
Proof. intros T ph st x c k Hx Hl Hh H. destruct (H x c Hx) as [k' [Hl' Hh']]. congruence. Qed.

Lemma soundness_full_refuted : forall pw nm ia cr fr na,
  let C := cfg_of pw nm ia cr fr na in
  exists T st,
    infer C builtin_reg (outer_fuel wit_mixed) (inner_fuel wit_mixed) wit_mixed [] = Ok T /\
    sconf T = 0 /\
    store_ok T "ph" [("<t>", CReal)] /\
    creach C builtin_reg wit_mixed keep_std "ph" [("<t>", CReal)] "ph" st /\
    ~ store_ok T "ph" st.
Proof.
  intros pw nm ia cr fr na C. destruct wit_mixed_table as [T [Hi [Hn [Ht Hx]]]].
  exists T, (cset [("<t>", CReal)] "x" CReal).
  split; [apply Hi|]. split; [exact Hn|]. split; [apply store_ok_t; exact Ht|].
  split; [apply wit_mixed_reach|].
  apply not_store_ok with (x := "x") (c := CReal) (k := KArray true); [reflexivity | exact Hx | reflexivity].
Qed.

Lemma full_soundness_false : forall pw nm ia cr fr na, ~ full_soundness (cfg_of pw nm ia cr fr na) keep_std.
Proof.
  intros pw nm ia cr fr na H. destruct (soundness_full_refuted pw nm ia cr fr na) as [T [st [Hi [_ [H0 [Hr Hbad]]]]]].
  apply Hbad. eapply H; eauto.
Qed.

(* with a `set` that does not flag new entries (new_marks = false) even a program that passes every side
   condition is unsound: the sum is inferred while `a` is still unknown and never revisited *)
Definition wit_stale : program :=
  [("ph", [SCall ["a"] "<builtin>array" [EConst CInt] [];
           SAssign "x" false (ESum [EConst CInt; EVar "a"]) []])].

Lemma wit_stale_table :
  exists T, (forall pw ia cr fr na,
               infer (cfg_of pw false ia cr fr na) builtin_reg (outer_fuel wit_stale) (inner_fuel wit_stale)
                     wit_stale [] = Ok T /\
               sides (cfg_of pw false ia cr fr na) builtin_reg wit_stale T = true) /\
            sconf T = 0 /\ lookup T "ph" "<t>" = Some (Some (KScalar true)) /\
            lookup T "ph" "x" = Some (Some (KScalar true)).
Proof.
  eexists. split.
  - intros pw ia cr fr na. split; [destruct cr, na | destruct na]; vm_compute; reflexivity.
  - repeat split.
Qed.

Lemma wit_stale_reach : forall C,
  creach C builtin_reg wit_stale keep_std "ph" [("<t>", CReal)] "ph"
         (cset (cset [("<t>", CReal)] "a" (CArr true)) "x" (CArr true)).
Proof.
  intros C. eapply cr_stmt with (s := SAssign "x" false (ESum [EConst CInt; EVar "a"]) []);
    [eapply cr_stmt with (s := SCall ["a"] "<builtin>array" [EConst CInt] []);
     [apply cr_refl | left; reflexivity | left; reflexivity | reflexivity | right; left; reflexivity]
    | left; reflexivity | right; left; reflexivity | reflexivity | right; left; reflexivity].
Qed.

Lemma soundness_refuted_stale : forall pw ia cr fr na,
  let C := cfg_of pw false ia cr fr na in
  exists T st,
    infer C builtin_reg (outer_fuel wit_stale) (inner_fuel wit_stale) wit_stale [] = Ok T /\
    sconf T = 0 /\ sides C builtin_reg wit_stale T = true /\
    store_ok T "ph" [("<t>", CReal)] /\
    creach C builtin_reg wit_stale keep_std "ph" [("<t>", CReal)] "ph" st /\
    ~ store_ok T "ph" st.
Proof.
  intros pw ia cr fr na C. destruct wit_stale_table as [T [Hi [Hn [Ht Hx]]]].
  destruct (Hi pw ia cr fr na) as [Hinf Hsides].
  exists T, (cset (cset [("<t>", CReal)] "a" (CArr true)) "x" (CArr true)).
  split; [exact Hinf|]. split; [exact Hn|]. split; [exact Hsides|]. split; [apply store_ok_t; exact Ht|].
  split; [apply wit_stale_reach|].
  apply not_store_ok with (x := "x") (c := CArr true) (k := KScalar true); [reflexivity | exact Hx | reflexivity].
Qed.

Definition ex_prog : program :=
  [("ph", [SCall ["a"] "<builtin>array" [EConst CInt] [];
           SAssign "x" false (ESum [EConst CInt; EVar "a"]) [];
           SAssign "y" false (EPow (EVar "<t>") (EConst CInt)) [];
           SAssign "n" false (ECall "<builtin>norm_2" [EVar "a"] []) ["i"];
           SAssign "b" false (ECmp true (EVar "n") (EConst CReal)) [];
           SAssign "a" true (EVar "n") ["i"];
           SCall ["<state>y"] "<func>f" [EVar "<t>"; EVar "<state>y"] []]);
   ("q", [SAssign "<p>s" false (EProd [EVar "<dt>"; EConst CComplex]) []])].

Definition ex_reg : registry := builtin_reg ++ [("<func>f", FRhs "y" ["y"] ["y"])].
Definition ex_cfg : cfg := cfg_of true true true true true true.

(* the hypotheses of every_assigned and of soundness can be met: calls, loops, a power, an element store, two
   phases and persistent variables; the sum is an Array although it is visited first *)
Example ex_hypotheses :
  exists T, infer ex_cfg ex_reg (outer_fuel ex_prog) (inner_fuel ex_prog) ex_prog [("ph", "i", KInt)] = Ok T /\
            wf_program ex_prog = true /\ sconf T = 0 /\ sides ex_cfg ex_reg ex_prog T = true /\
            strict ex_cfg ex_reg ex_prog T = true /\
            lookup T "ph" "x" = Some (Some (KArray true)) /\
            lookup T "q" "<p>s" = Some (Some (KScalar false)) /\
            lookup T "q" "<state>y" = Some (Some (KUser "y")).
Proof. eexists. split; [vm_compute; reflexivity|]. repeat split; vm_compute; reflexivity. Qed.

Example ex_reach :
  exists st, creach ex_cfg ex_reg ex_prog keep_std "ph"
                    [("<t>", CReal); ("<dt>", CInt); ("<state>y", CUser "y")] "q" st /\
             alookup st "<p>s" = Some CComplex /\ alookup st "<state>y" = Some (CUser "y") /\
             alookup st "a" = None.
Proof.
  eexists. split.
  - eapply cr_stmt with (ph := "q") (s := SAssign "<p>s" false (EProd [EVar "<dt>"; EConst CComplex]) []);
      [ eapply cr_phase with (ph := "ph");
        eapply cr_stmt with (s := SCall ["a"] "<builtin>array" [EConst CInt] []);
        [ eapply cr_stmt with (s := SCall ["<state>y"] "<func>f" [EVar "<t>"; EVar "<state>y"] []);
          [ apply cr_refl | left; reflexivity | do 6 right; left; reflexivity | reflexivity
            | right; vm_compute; left; reflexivity ]
        | left; reflexivity | left; reflexivity | reflexivity | right; vm_compute; left; reflexivity ]
      | right; left; reflexivity | left; reflexivity | reflexivity | right; vm_compute; left; reflexivity ].
  - vm_compute. repeat split; reflexivity.
Qed.

Example ex_builtins :
  Forall2 arg_rel [CArr false; CArr true; CInt; CReal] [Some (KArray false); Some (KArray true); Some (KScalar true); Some (KScalar true)] /\
  result_kinds true FMatMul [Some (KArray false); Some (KArray true); Some (KScalar true); Some (KScalar true)]
    = Some [KArray false] /\
  In [CArr false] (cresult ex_cfg FMatMul [CArr false; CArr true; CInt; CReal]).
Proof.
  split; [|split; [reflexivity | left; reflexivity]].
  repeat constructor; eexists; split; reflexivity.
Qed.

(* the two shapes of the finder's give-up rule (c2c8c5a).  Statements are popped from the end: abs(x) is
   deferred, x <- i + w is entered as Integer while w is unknown, w arrives, the retry of abs(Integer) fails
   again.  finder_restarts = false: RuntimeError.  true: the table changed, the next pass raises x to Scalar
   and y is inferred.  (corpus/C09/restart_after_change.json runs the same program on the real code.) *)
Definition ex_restart_prog : program :=
  [("ph", [SAssign "w" false (EConst CReal) [];
           SAssign "x" false (ESum [EVar "i"; EVar "w"]) ["i"];
           SAssign "y" false (ECall "<builtin>elementwise_abs" [EVar "x"] []) []])].

Example ex_restart : forall na,
  infer (cfg_of true true true true false na) builtin_reg (outer_fuel ex_restart_prog) (inner_fuel ex_restart_prog)
        ex_restart_prog [] = Err RuntimeError /\
  exists T, infer (cfg_of true true true true true na) builtin_reg (outer_fuel ex_restart_prog)
                  (inner_fuel ex_restart_prog) ex_restart_prog [] = Ok T /\
            lookup T "ph" "x" = Some (Some (KScalar true)) /\ lookup T "ph" "y" = Some (Some (KScalar true)) /\
            strict (cfg_of true true true true true na) builtin_reg ex_restart_prog T = true.
Proof.
  intros na. destruct na; (split; [vm_compute; reflexivity|]); eexists; (split; [vm_compute; reflexivity|]);
    repeat split; vm_compute; reflexivity.
Qed.

(* the two shapes of the matrix built-ins (47d5901): x <- matmul(<t>, <t>, 2, 2).  need_arrays = false: a
   Scalar has `.is_real_valued`, x is an Array.  true: never inferable, the run gives up.
   (corpus/C09/matmul_of_scalars.json) *)
Definition ex_matscalar_prog : program :=
  [("ph", [SAssign "x" false (ECall "<builtin>matmul" [EVar "<t>"; EVar "<t>"; EConst CInt; EConst CInt] []) []])].

Example ex_matscalar : forall fr,
  (exists T, infer (cfg_of true true true true fr false) builtin_reg (outer_fuel ex_matscalar_prog)
                   (inner_fuel ex_matscalar_prog) ex_matscalar_prog [] = Ok T /\
             lookup T "ph" "x" = Some (Some (KArray true))) /\
  infer (cfg_of true true true true fr true) builtin_reg (outer_fuel ex_matscalar_prog)
        (inner_fuel ex_matscalar_prog) ex_matscalar_prog [] = Err RuntimeError.
Proof.
  (* only the run that gives up reaches the test of finder_restarts *)
  intros fr. split; [eexists; split; vm_compute; reflexivity | destruct fr; vm_compute; reflexivity].
Qed.
