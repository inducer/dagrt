(* What the statement-level functions of the three hoisting passes put in the place of a leaf is TransformStmt.derived
   (ms_fai_r, ms_fci_r, ms_ite_r), hence they meet sspec under the decidable side conditions of model/TransformSide.v
   (ms_*_ok).  A statement-level function that meets sspec on every leaf gives a tree that simulates the input tree
   (rewrite_sim, by the one induction over rewrite_tree, rewrite_tree_cases). *)
From Coq Require Import List ZArith NArith String Ascii Bool Arith Lia Permutation.
Import ListNotations.
From Dagrt Require Import Lang LangProofs Sched Transform TransformSem TransformSide TransformBasics TransformHoist
     TransformSpec TransformMappers TransformLeaf TransformStmt TransformSd ListFacts.

Theorem ms_fai_r s st l st' :
  loopfree (tkd s) = true -> ms_fai s st = TOk (l, st') -> exists N I, ext st st' N I /\ derived Pfai s l N I.
Proof.
  intros Hl. apply (ms_generic_r Pfai fai s Hl). intros c d e. apply fai_rspec.
Qed.

Theorem ms_ite_r s st l st' :
  loopfree (tkd s) = true -> ms_ite true s st = TOk (l, st') -> exists N I, ext st st' N I /\ derived Pite s l N I.
Proof.
  intros Hl. apply (ms_generic_r Pite (fun c d e => ite true e c d) s Hl). intros c d e. apply ite_rspec.
Qed.

Lemma derived_self p s : derived p s [s] [] [].
Proof. exists [], (tkd s), (tdeps s). split; [now destruct s|constructor]. Qed.

Theorem ms_fci_r fixed s st l st' :
  loopfree (tkd s) = true -> ms_fci fixed s st = TOk (l, st') -> exists N I, ext st st' N I /\ derived Pfci s l N I.
Proof.
  intros Hl. unfold ms_fci. destruct (tkd s) eqn:Ek;
    try (unfold ret; intros E; inversion E; subst; exists [], []; split; [apply ext_refl|apply derived_self]).
  apply (ms_generic_r Pfci (fci fixed) s); [now rewrite Ek|intros c d e; apply fci_rspec].
Qed.

Section Passes.
  Variable F : string -> list val -> list (string * val) -> option (list val).
  Variable dg : bool.
  Notation sspec := (sspec F dg).

  Lemma base_leaf_inv s : base_leaf s = true -> has_call (tcond s) = false /\ loopfree (tkd s) = true.
  Proof.
    unfold base_leaf. intros H. apply andb_true_iff in H. destruct H as [H1 H2].
    apply negb_true_iff in H1. auto.
  Qed.

  Theorem ms_sd_ok lsr lbr sds ords s st l st' :
    sd_leaf s = true -> ms_sd lsr lbr sds ords s st = TOk (l, st') -> sspec s st l st'.
  Proof.
    unfold sd_leaf. intros H. apply andb_true_iff in H. destruct H as [Hb Hf].
    apply base_leaf_inv in Hb. destruct Hb as [Hc Hl].
    apply ms_sd_spec; auto. intros f Hin Hw. rewrite forallb_forall in Hf. specialize (Hf f Hin).
    apply negb_true_iff in Hf. apply smem_In in Hw. congruence.
  Qed.

  Theorem ms_fai_ok s st l st' : fai_leaf s = true -> ms_fai s st = TOk (l, st') -> sspec s st l st'.
  Proof.
    unfold fai_leaf. intros H E. apply andb_true_iff in H. destruct H as [H Hk].
    apply andb_true_iff in H. destruct H as [Hb He]. apply base_leaf_inv in Hb. destruct Hb as [Hc Hl].
    destruct (ms_fai_r s st l st' Hl E) as (N & I & X & D). apply (derived_sspec F dg Pfai s st l st' N I D X Hc Hl).
    split; [exact He|]. intros _ xs fn args kw Ek. now rewrite Ek in Hk.
  Qed.

  Theorem ms_fci_ok fixed s st l st' :
    fci_leaf s = true -> ms_fci fixed s st = TOk (l, st') -> sspec s st l st'.
  Proof.
    unfold fci_leaf. intros H E. apply andb_true_iff in H. destruct H as [Hb He].
    apply base_leaf_inv in Hb. destruct Hb as [Hc Hl]. revert E. unfold ms_fci.
    destruct (tkd s) eqn:Ek; try (unfold ret; intros E; inversion E; subst; apply sspec_id; now rewrite Ek).
    intros E. destruct (ms_generic_r Pfci (fci fixed) s) with (st := st) (l := l) (st' := st') as (N & I & X & D);
      [now rewrite Ek|intros c d e; apply fci_rspec|exact E|].
    apply (derived_sspec F dg Pfci s st l st' N I D X Hc); rewrite Ek; [exact Hl|]. split; [exact He|discriminate].
  Qed.

  Theorem ms_ite_ok s st l st' : ite_leaf s = true -> ms_ite true s st = TOk (l, st') -> sspec s st l st'.
  Proof.
    unfold ite_leaf. intros H E. apply andb_true_iff in H. destruct H as [Hb He].
    apply base_leaf_inv in Hb. destruct Hb as [Hc Hl].
    destruct (ms_ite_r s st l st' Hl E) as (N & I & X & D). apply (derived_sspec F dg Pite s st l st' N I D X Hc Hl).
    split; [exact He|discriminate].
  Qed.
End Passes.

Section tree_ind'.
  Variable P : tree -> Prop.
  Hypothesis HLeaf : forall s, P (TLeaf s).
  Hypothesis HNull : P TNull.
  Hypothesis HBlock : forall l, Forall P l -> P (TBlock l).
  Hypothesis HIf : forall c t, P t -> P (TIf c t).
  Hypothesis HIfElse : forall c t e, P t -> P e -> P (TIfElse c t e).
  Hypothesis HFor : forall x lo hi b, P b -> P (TFor x lo hi b).
  Fixpoint tree_ind' (t : tree) : P t :=
    match t with
    | TLeaf s => HLeaf s
    | TNull => HNull
    | TBlock l => HBlock l ((fix go (l : list tree) : Forall P l :=
                               match l with
                               | [] => Forall_nil P
                               | x :: r => Forall_cons x (tree_ind' x) (go r)
                               end) l)
    | TIf c t => HIf c t (tree_ind' t)
    | TIfElse c t e => HIfElse c t e (tree_ind' t) (tree_ind' e)
    | TFor x lo hi b => HFor x lo hi b (tree_ind' b)
    end.
End tree_ind'.

(* what rewrite_tree puts in the place of a leaf whose statement became the list l *)
Definition leaf_tree (l : list tstmt) : tree := match l with [x] => TLeaf x | _ => TBlock (map TLeaf l) end.

Lemma tstmts_leaf_tree l : tstmts (leaf_tree l) = l.
Proof.
  assert (H : forall r, flat_map tstmts (map TLeaf r) = r)
    by (induction r as [|y r IH]; [reflexivity|cbn; now rewrite IH]).
  destruct l as [|x [|y r]]; [reflexivity|reflexivity|apply H].
Qed.

(* The one induction over rewrite_tree: a property P of (input tree, generator state before, output tree,
   state after) that holds of a rewritten leaf and is passed on by every node, the state handed from
   each subtree to the next, holds of every successful run. *)
Section Rewrite.
  Variable ms : tstmt -> M (list tstmt).
  Variable okl : tstmt -> bool.
  Variable P : tree -> gst -> tree -> gst -> Prop.

  Inductive threaded : list tree -> gst -> list tree -> gst -> Prop :=
  | threaded_nil st : threaded [] st [] st
  | threaded_cons t st t' st1 l l' st2 :
      P t st t' st1 -> threaded l st1 l' st2 -> threaded (t :: l) st (t' :: l') st2.

  Hypothesis PLeaf : forall s st l st', okl s = true -> ms s st = TOk (l, st') -> P (TLeaf s) st (leaf_tree l) st'.
  Hypothesis PNull : forall st, P TNull st TNull st.
  Hypothesis PBlock : forall l st l' st', threaded l st l' st' -> P (TBlock l) st (TBlock l') st'.
  Hypothesis PIf : forall c t st t' st', P t st t' st' -> P (TIf c t) st (TIf c t') st'.
  Hypothesis PIfElse : forall c t e st t' st1 e' st2,
      P t st t' st1 -> P e st1 e' st2 -> P (TIfElse c t e) st (TIfElse c t' e') st2.
  Hypothesis PFor : forall x lo hi b st b' st', P b st b' st' -> P (TFor x lo hi b) st (TFor x lo hi b') st'.

  Lemma rewrite_tree_cases t :
    forallb okl (tstmts t) = true -> forall st t' st', rewrite_tree ms t st = TOk (t', st') -> P t st t' st'.
  Proof.
    induction t as [s| |l IH|c t IHt|c t e IHt IHe|x lo hi b IHb] using tree_ind'; intros Hok st t' st' E.
    - cbn [rewrite_tree] in E. apply bind_inv in E. destruct E as (l & st1 & E1 & E2).
      cbn [tstmts forallb] in Hok. rewrite andb_true_r in Hok.
      destruct l as [|y [|z r]]; [discriminate| |]; unfold ret in E2; inversion E2; subst; exact (PLeaf _ _ _ _ Hok E1).
    - unfold rewrite_tree, ret in E. inversion E; subst. apply PNull.
    - cbn [rewrite_tree] in E. apply bind_inv in E. destruct E as (l' & st1 & E1 & E2).
      unfold ret in E2. inversion E2; subst t' st1. clear E2. cbn [tstmts] in Hok. apply PBlock.
      revert st l' st' E1 Hok. induction IH as [|t l Ht _ IHl]; intros st l' st' E1 Hok.
      + unfold ret in E1. inversion E1; subst. constructor.
      + apply bind_inv in E1. destruct E1 as (t1 & st1 & Et & E1). apply bind_inv in E1.
        destruct E1 as (r' & st2 & Er & E1). unfold ret in E1. inversion E1; subst l' st2. clear E1.
        cbn [flat_map] in Hok. rewrite forallb_app in Hok. apply andb_true_iff in Hok. destruct Hok as [Hok1 Hok2].
        econstructor; [eapply Ht; eauto|eapply IHl; eauto].
    - cbn [rewrite_tree] in E. apply bind_inv in E. destruct E as (t1 & st1 & E1 & E2).
      unfold ret in E2. inversion E2; subst. apply PIf. eapply IHt; eauto.
    - cbn [rewrite_tree] in E. apply bind_inv in E. destruct E as (t1 & st1 & E1 & E2).
      apply bind_inv in E2. destruct E2 as (e1 & st2 & E2 & E3).
      unfold ret in E3. inversion E3; subst. cbn [tstmts] in Hok. rewrite forallb_app in Hok.
      apply andb_true_iff in Hok. destruct Hok as [Hok1 Hok2]. eapply PIfElse; [eapply IHt; eauto|eapply IHe; eauto].
    - cbn [rewrite_tree] in E. apply bind_inv in E. destruct E as (b1 & st1 & E1 & E2).
      unfold ret in E2. inversion E2; subst. apply PFor. eapply IHb; eauto.
  Qed.
End Rewrite.

Section Tree.
  Variable F : string -> list val -> list (string * val) -> option (list val).
  Variable dg : bool.
  Notation run_tree := (run_tree F dg).
  Notation run_block := (fold_left (fun S x => run_tree x S)).

  Lemma run_tree_stopped t S : (forall a e l, S <> TRun a e l) -> run_tree t S = S.
  Proof.
    intros H. destruct S as [a e l|a e l w|u]; [exfalso; eapply H; reflexivity| |]; destruct t; reflexivity.
  Qed.

  Lemma run_block_stopped l S : (forall a e lg, S <> TRun a e lg) -> run_block l S = S.
  Proof.
    intros H. induction l as [|x l IH]; [reflexivity|]. cbn [fold_left]. now rewrite run_tree_stopped.
  Qed.

  Lemma run_tree_block l S : run_tree (TBlock l) S = run_block l S.
  Proof.
    destruct S as [a e lg|a e lg w|u]; [reflexivity| |];
      (rewrite run_block_stopped; [reflexivity|intros; discriminate]).
  Qed.

  Lemma run_leaf_tree l S : run_tree (leaf_tree l) S = run_block (map TLeaf l) S.
  Proof. destruct l as [|x [|y r]]; [apply run_tree_block|reflexivity|apply run_tree_block]. Qed.

  Lemma step_frame G s S S' :
    loopfree (tkd s) = true -> (forall x, In x (svars s) -> ~ In x G) ->
    srel G S S' -> srel G (step_t F dg s S) (step_t F dg s S').
  Proof.
    intros Hl Hv H. destruct S as [a e lg|a e lg w|u]; [| |exact Logic.I].
    - destruct S' as [b e' lg'|?|?]; cbn in H; try contradiction. destruct H as (Hab & -> & Hp).
      cbn [step_t]. destruct (exec_frame F dg G a b s Hab Hl Hv) as [E1 E2].
      destruct (exec_t F dg a s) as [la oa], (exec_t F dg b s) as [lb ob]. cbn [fst snd] in E1, E2. subst lb.
      destruct oa, ob; cbn in E2; try contradiction; cbn; auto.
      + destruct E2 as [A ->]. split; [exact A|split; [reflexivity|now apply Permutation_app_tail]].
      + split; [exact Hab|split; [reflexivity|split; [now apply Permutation_app_tail|reflexivity]]].
      + subst. split; [exact Hab|split; [reflexivity|split; [now apply Permutation_app_tail|reflexivity]]].
      + subst. split; [exact Hab|split; [reflexivity|split; [now apply Permutation_app_tail|reflexivity]]].
    - destruct S' as [?|b e' lg' w'|?]; cbn in H; try contradiction. exact H.
  Qed.

  (* t' simulates t from related states; G is the set of variables on which the two runs may differ *)
  Definition tsim (G : list var) (t t' : tree) : Prop :=
    forall S S', srel G S S' -> srel G (run_tree t S) (run_tree t' S').

  (* the ids of t' are those of t and I, as multisets *)
  Definition idsplus (t t' : tree) (I : list string) : Prop :=
    forall x, count_occ string_dec (map tid (tstmts t')) x =
              (count_occ string_dec (map tid (tstmts t)) x + count_occ string_dec I x)%nat.

  (* a stopped or crashed run passes through every tree unchanged: only running states matter *)
  Lemma tsim_running G t t' :
    (forall a b e lg lg', same_off G a b -> Permutation lg lg' ->
                          srel G (run_tree t (TRun a e lg)) (run_tree t' (TRun b e lg'))) ->
    tsim G t t'.
  Proof.
    intros H S S' HS. destruct S as [a e lg|a e lg w|u].
    3: { rewrite run_tree_stopped by (intros; discriminate). exact Logic.I. }
    - destruct S' as [b e' lg'|?|?]; cbn in HS; try contradiction. destruct HS as (A & -> & P). now apply H.
    - destruct S' as [?|? ? ? ?|?]; cbn in HS; try contradiction.
      rewrite !run_tree_stopped by (intros; discriminate). exact HS.
  Qed.

  Lemma srel_log G a b e lg lg' r :
    same_off G a b -> Permutation lg lg' -> srel G (TRun a e (lg ++ r)) (TRun b e (lg' ++ r)).
  Proof. intros A P. split; [exact A|split; [reflexivity|now apply Permutation_app_tail]]. Qed.

  Lemma tsim_leaf G N s l t' :
    loopfree (tkd s) = true -> (forall x, In x (svars s) -> ~ In x G) -> incl N G ->
    (forall a evs log, srel N (step_t F dg s (TRun a evs log)) (run_block (map TLeaf l) (TRun a evs log))) ->
    (forall S, run_tree t' S = run_block (map TLeaf l) S) ->
    tsim G (TLeaf s) t'.
  Proof.
    intros Hl Hd HN Hsim Hrun. apply tsim_running. intros a b e lg lg' A P. rewrite Hrun.
    cbn [TransformSem.run_tree]. eapply srel_trans.
    - apply (step_frame G s (TRun a e lg) (TRun b e lg')); [exact Hl|exact Hd|]. cbn. auto.
    - eapply srel_incl; [exact HN|]. apply Hsim.
  Qed.

  Lemma tsim_block_nil G : tsim G (TBlock []) (TBlock []).
  Proof. intros S S' HS. rewrite !run_tree_block. exact HS. Qed.

  Lemma tsim_block_cons G t t' l l' :
    tsim G t t' -> tsim G (TBlock l) (TBlock l') -> tsim G (TBlock (t :: l)) (TBlock (t' :: l')).
  Proof.
    intros Ht Hl S S' HS. rewrite !run_tree_block. cbn [fold_left]. rewrite <- !run_tree_block. apply Hl, Ht, HS.
  Qed.

  Lemma tsim_if G c t t' :
    (forall x, In x (vars c) -> ~ In x G) -> tsim G t t' -> tsim G (TIf c t) (TIf c t').
  Proof.
    intros Hc Ht. apply tsim_running. intros a b e lg lg' A P. cbn [TransformSem.run_tree].
    rewrite (cond_same_off F G a b c A (fun x Hn Hx => Hc x Hx Hn)).
    destruct (cond_t F a c) as [r [[|]|u]]; [apply Ht| |exact Logic.I]; now apply srel_log.
  Qed.

  Lemma tsim_ifelse G c t t' e e' :
    (forall x, In x (vars c) -> ~ In x G) -> tsim G t t' -> tsim G e e' ->
    tsim G (TIfElse c t e) (TIfElse c t' e').
  Proof.
    intros Hc Ht He. apply tsim_running. intros a b ev lg lg' A P. cbn [TransformSem.run_tree].
    rewrite (cond_same_off F G a b c A (fun x Hn Hx => Hc x Hx Hn)).
    destruct (cond_t F a c) as [r [[|]|u]]; [apply Ht|apply He|exact Logic.I]; now apply srel_log.
  Qed.

  Lemma iter_sim G x b b' n : forall i S S',
    tsim G b b' -> srel G S S' -> srel G (iter_t n i x (run_tree b) S) (iter_t n i x (run_tree b') S').
  Proof.
    induction n as [|n IH]; intros i S S' Hb HS; [exact HS|]. cbn [iter_t].
    destruct S as [a e lg|a e lg w|u]; [| |exact Logic.I].
    - destruct S' as [c e' lg'|?|?]; cbn in HS; try contradiction. destruct HS as (A & -> & P).
      apply IH; [exact Hb|]. apply Hb. cbn. split; [now apply same_off_upd|auto].
    - destruct S' as [?|c e' lg' w'|?]; cbn in HS; try contradiction. exact HS.
  Qed.

  Lemma tsim_for G x lo hi b b' :
    (forall y, In y (vars lo ++ vars hi) -> ~ In y G) -> tsim G b b' -> tsim G (TFor x lo hi b) (TFor x lo hi b').
  Proof.
    intros Hv Hb. apply tsim_running. intros a c e lg lg' A P. cbn [TransformSem.run_tree].
    rewrite (bounds_same_off F G a c lo hi A (fun y Hn Hy => Hv y Hy Hn)).
    destruct (bounds_t F a lo hi) as [l1 [[z1 z2]|u]]; [|exact Logic.I].
    apply iter_sim; [exact Hb|now apply srel_log].
  Qed.

  Variable ms : tstmt -> M (list tstmt).
  Variable okl : tstmt -> bool.
  Hypothesis Hms : forall s st l st', okl s = true -> ms s st = TOk (l, st') -> sspec F dg s st l st'.
  Hypothesis Hlf : forall s, okl s = true -> loopfree (tkd s) = true.

  (* G, the set on which the two runs may differ, is chosen after the generated names N are known;
     no variable of t may be in it *)
  Theorem rewrite_sim t :
    forallb okl (tstmts t) = true ->
    forall st t' st', rewrite_tree ms t st = TOk (t', st') ->
    exists N I,
      ext st st' N I /\ idsplus t t' I /\
      (incl (tvars t) (ex (gvars st)) ->
       forall G, incl N G -> (forall x, In x (tvars t) -> ~ In x G) -> tsim G t t').
  Proof.
    revert t. apply (rewrite_tree_cases ms okl (fun t st t' st' =>
      exists N I, ext st st' N I /\ idsplus t t' I /\
        (incl (tvars t) (ex (gvars st)) ->
         forall G, incl N G -> (forall x, In x (tvars t) -> ~ In x G) -> tsim G t t'))); unfold idsplus.
    - intros s st l st' Hok E.
      destruct (sspec_leaf F dg _ _ _ _ (Hms _ _ _ _ Hok E)) as (N & I & X & C & Hsim).
      exists N, I. split; [exact X|split].
      + intros y. rewrite tstmts_leaf_tree. exact (C y).
      + intros Hv G HN Hd.
        apply (tsim_leaf G N s l); [now apply Hlf|exact Hd|exact HN|now apply Hsim|apply run_leaf_tree].
    - intros st. exists [], []. split; [apply ext_refl|split; [intros y; cbn; lia|]].
      intros _ G _ _ S S' HS. destruct S, S'; exact HS.
    - intros l st l' st' H.
      induction H as [st|t st t' st1 l l' st2 (N1 & I1 & X1 & C1 & S1) _ (N2 & I2 & X2 & C2 & S2)].
      + exists [], []. split; [apply ext_refl|split; [intros y; cbn; lia|]]. intros _ G _ _. apply tsim_block_nil.
      + exists (N2 ++ N1), (I2 ++ I1). split; [eapply ext_trans; eauto|split].
        * intros y. cbn [tstmts flat_map] in *. rewrite !map_app, !count_occ_app, C1, C2. lia.
        * intros Hv G HN Hd. cbn [tvars flat_map] in *. apply incl_app_inv in Hv, HN. apply tsim_block_cons.
          -- apply S1; [tauto|tauto|]. intros z Hz. apply Hd, in_app_iff. now left.
          -- apply S2; [eapply ext_vars_incl; [exact X1|tauto]|tauto|].
             intros z Hz. apply Hd, in_app_iff. now right.
    - intros c t st t' st' (N & I & X & C & Hs). exists N, I. split; [exact X|split; [exact C|]].
      intros Hv G HN Hd. cbn [tvars] in Hv, Hd. apply incl_app_inv in Hv.
      apply tsim_if; [|apply Hs; [tauto|exact HN|]]; intros z Hz; apply Hd, in_app_iff; auto.
    - intros c t e st t' st1 e' st2 (N1 & I1 & X1 & C1 & S1) (N2 & I2 & X2 & C2 & S2).
      exists (N2 ++ N1), (I2 ++ I1). split; [eapply ext_trans; eauto|split].
      + intros y. cbn [tstmts]. rewrite !map_app, !count_occ_app, C1, C2. lia.
      + intros Hv G HN Hd. cbn [tvars] in Hv, Hd. apply incl_app_inv in Hv, HN. destruct Hv as [Hvc Hv].
        apply incl_app_inv in Hv. apply tsim_ifelse.
        * intros z Hz. apply Hd, in_app_iff. now left.
        * apply S1; [tauto|tauto|]. intros z Hz. apply Hd. rewrite !in_app_iff. tauto.
        * apply S2; [eapply ext_vars_incl; [exact X1|tauto]|tauto|].
          intros z Hz. apply Hd. rewrite !in_app_iff. tauto.
    - intros x lo hi b st b' st' (N & I & X & C & Hs). exists N, I. split; [exact X|split; [exact C|]].
      intros Hv G HN Hd. cbn [tvars] in Hv, Hd. apply tsim_for.
      + intros z Hz. apply Hd. right. rewrite !in_app_iff in *. tauto.
      + apply Hs; [|exact HN|]; intros z Hz; [apply Hv|apply Hd]; right; rewrite !in_app_iff; tauto.
  Qed.
End Tree.
