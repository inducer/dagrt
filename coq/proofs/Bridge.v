(* Bridges between the models: the order in which the execution controller (C04) visits
   the statements of a builder-made phase body, and the order in which the lowering (C05)
   emits them, are admissible orders in the sense of C01/C02.  This turns the chain
   C04/C05 -> C02 -> C01 into Coq terms. *)
From Coq Require Import List Arith Lia Relations Permutation.
Import ListNotations.
From Dagrt Require Lang Builder BuilderProofs Stepper StepperProofs.
From Dagrt Require Controller ControllerProofs DagAst DagAstProofs Simplify Dfs.

Module L := Lang.
Module C := Controller.
Module D := DagAst.

Definition wf_body (l : list L.stmt) : Prop :=
  forall i st, nth_error l i = Some st ->
    L.sid st = i /\ forall d, In d (L.sdeps st) -> d < i.

Lemma built_wf_body is_state tok l : StepperProofs.built is_state tok l -> wf_body l.
Proof.
  intros (p & b & Hb & <-) i st Hi. split.
  - exact (BuilderProofs.binv_sid tok b i st (BuilderProofs.build_inv is_state tok p b Hb) Hi).
  - intros d Hd. eapply BuilderProofs.edges_backward; eassumption.
Qed.

Lemma wf_body_ids l : wf_body l -> map L.sid l = seq 0 (length l).
Proof.
  intros H. apply nth_ext with (d := 0) (d' := 0); [now rewrite map_length, seq_length|].
  intros i Hi. rewrite map_length in Hi. rewrite seq_nth by exact Hi. cbn.
  destruct (nth_error l i) as [st|] eqn:E; [|apply nth_error_None in E; lia].
  destruct (H i st E) as [Hs _].
  rewrite <- Hs at 2. apply nth_error_nth. rewrite nth_error_map, E. reflexivity.
Qed.

Lemma wf_body_In l st : wf_body l -> In st l -> nth_error l (L.sid st) = Some st.
Proof.
  intros H Hin. apply In_nth_error in Hin. destruct Hin as [i Hi].
  destruct (H i st Hi) as [-> _]. exact Hi.
Qed.

Lemma wf_body_lt l st d : wf_body l -> In st l -> L.sid st < length l /\ (In d (L.sdeps st) -> d < L.sid st).
Proof.
  intros H Hin. pose proof (wf_body_In l st H Hin) as Hn. split.
  - apply nth_error_Some. congruence.
  - apply (H _ st Hn).
Qed.

Lemma wf_body_deps l st d : wf_body l -> In st l -> In d (L.sdeps st) -> In d (seq 0 (length l)).
Proof. intros H Hin Hd. destruct (wf_body_lt l st d H Hin) as [H1 H2]. apply in_seq. specialize (H2 Hd). lia. Qed.

Lemma admissible_of_order l order :
  Permutation order (seq 0 (length l)) ->
  BuilderProofs.respects l order ->
  StepperProofs.admissible l (StepperProofs.pick l order).
Proof. intros Hp Hr. exists order. split; [apply Permutation_sym, Hp|]. split; [exact Hr|reflexivity]. Qed.

Section Ctl.
  Variable l : list L.stmt.
  Hypothesis Hw : wf_body l.

  Definition cph : C.phase := map (fun st => C.mkStmt (L.sid st) (L.sdeps st)) l.

  Lemma cph_ids : C.ids cph = seq 0 (length l).
  Proof. unfold C.ids, cph. rewrite map_map. cbn. apply wf_body_ids, Hw. Qed.

  Lemma cph_lookup i st : nth_error l i = Some st ->
    C.lookup cph i = Some (C.mkStmt (L.sid st) (L.sdeps st)).
  Proof.
    intros Hi. destruct (Hw i st Hi) as [Hs _].
    assert (ND : NoDup (C.ids cph)) by (rewrite cph_ids; apply seq_NoDup).
    assert (Hin : In (C.mkStmt (L.sid st) (L.sdeps st)) cph).
    { unfold cph. apply in_map_iff. exists st. split; [reflexivity|]. eapply nth_error_In, Hi. }
    pose proof (ControllerProofs.lookup_NoDup cph _ ND Hin) as H. cbn in H. rewrite <- Hs. exact H.
  Qed.

  Lemma cph_deps_of i st : nth_error l i = Some st -> C.deps_of cph i = L.sdeps st.
  Proof. intros Hi. unfold C.deps_of. now rewrite (cph_lookup i st Hi). Qed.

  Lemma cph_edge_lt a b : C.edge cph a b -> b < a.
  Proof.
    unfold C.edge, C.deps_of. destruct (C.lookup cph a) as [s|] eqn:E; [|intros []].
    destruct (ControllerProofs.lookup_Some _ _ _ E) as [Hin Hs].
    unfold cph in Hin. apply in_map_iff in Hin. destruct Hin as (st & <- & Hst). cbn in *.
    subst a. apply (wf_body_lt l st b Hw Hst).
  Qed.

  Lemma cph_wf : C.phase_wf cph.
  Proof.
    split; [rewrite cph_ids; apply seq_NoDup|]. split.
    - intros s d Hs Hd. rewrite cph_ids. unfold cph in Hs. apply in_map_iff in Hs.
      destruct Hs as (st & <- & Hst). exact (wf_body_deps l st d Hw Hst Hd).
    - exact (Dfs.acyclic_of_rank _ (fun x => x) cph_edge_lt).
  Qed.

  Theorem controller_order_admissible ro target st0 :
    C.same_members ro (C.roots cph) ->
    let o := C.run_single_step st0 cph ro target in
    exists rest,
      StepperProofs.admissible l (StepperProofs.pick l (C.visited (C.o_log o) ++ rest)) /\
      (C.never_stops cph target -> rest = []).
  Proof.
    intros Hro o.
    pose proof (ControllerProofs.run_single_step_ok cph ro target st0 cph_wf Hro) as S. fold o in S.
    exists (C.plan (C.o_state o)). split.
    - apply admissible_of_order; [rewrite <- cph_ids; exact (ControllerProofs.step_enumerates S)|].
      intros l1 x l2 st E Hx d Hd.
      apply (ControllerProofs.step_respects S l1 x l2 E). rewrite (cph_deps_of x st Hx). exact Hd.
    - intros H. apply (ControllerProofs.step_finished S), (ControllerProofs.step_never_stops S), H.
  Qed.
End Ctl.

Section Low.
  Variable l : list L.stmt.
  Hypothesis Hw : wf_body l.
  (* what the lowering looks at besides ids and dependencies: guard, loop nest, Nop-ness *)
  Variable gd : L.stmt -> Simplify.cond.
  Variable lp : L.stmt -> list nat.
  Variable np : L.stmt -> bool.

  Definition dph : list D.stmt :=
    map (fun st => D.mkStmt (L.sid st) (L.sdeps st) (gd st) (lp st) (np st)) l.

  Lemma dph_ids : map D.sid dph = seq 0 (length l).
  Proof. unfold dph. rewrite map_map. cbn. apply wf_body_ids, Hw. Qed.

  Lemma dph_edge_lt a b : D.edge dph a b -> b < a.
  Proof.
    intros (s & E & Hb). destruct (DagAstProofs.lookup_some _ _ _ E) as [Hin Hs].
    unfold dph in Hin. apply in_map_iff in Hin. destruct Hin as (st & <- & Hst). cbn in *.
    subst a. exact (proj2 (wf_body_lt l st b Hw Hst) Hb).
  Qed.

  Lemma dph_wf : D.phase_wf dph.
  Proof.
    constructor.
    - rewrite dph_ids. apply seq_NoDup.
    - intros s d Hs Hd. rewrite dph_ids. unfold dph in Hs. apply in_map_iff in Hs.
      destruct Hs as (st & <- & Hst). exact (wf_body_deps l st d Hw Hst Hd).
    - exact (Dfs.acyclic_of_rank _ (fun x => x) dph_edge_lt).
  Qed.

  (* D.lower false true: the values of simplify_ast's two shape switches (rev_expand, guard_empty) at
     which DagAstProofs.lower_spec is stated; sf is the false-guard switch of C05 *)
  Theorem lowering_order_admissible sf :
    exists order,
      D.topo_order dph = D.LOk order /\
      (exists t, D.lower false true sf dph = D.LOk t) /\
      StepperProofs.admissible l (StepperProofs.pick l order).
  Proof.
    (* of lower_spec's conjuncts: sts, the statements as emitted, have the ids `order` (Hm), are a
       permutation of dph (Hp), each after its dependencies (Hr); the lowering succeeds (Hl) *)
    destruct (DagAstProofs.lower_spec sf dph dph_wf) as (order & sts & t & Ht & Hm & Hp & Hr & Hl & _).
    exists order. split; [exact Ht|]. split; [exists t; exact Hl|].
    apply admissible_of_order.
    - rewrite <- Hm, <- dph_ids. apply Permutation_map, Hp.
    - intros l1 x l2 st E Hx d Hd.
      (* split sts at the position of x *)
      rewrite <- Hm in E. apply map_eq_app in E. destruct E as (s1 & s2' & -> & <- & E2).
      destruct s2' as [|sx s2]; [discriminate|]. cbn in E2. injection E2 as Ex _.
      assert (Hsx : In sx dph).
      { eapply Permutation_in; [exact Hp|]. rewrite in_app_iff. right. now left. }
      unfold dph in Hsx. apply in_map_iff in Hsx. destruct Hsx as (st' & Est & Hst').
      assert (st' = st).
      { pose proof (wf_body_In l st' Hw Hst') as Hn. rewrite <- Est in Ex. cbn in Ex.
        rewrite Ex in Hn. congruence. }
      subst st'. specialize (Hr s1 sx s2 eq_refl). rewrite <- Est in Hr. cbn in Hr. apply Hr, Hd.
  Qed.
End Low.
