(* The theorems about kind inference instantiated at the configuration read off the working tree (gen_cfg_with
   extra: the base function registry of /repo extended by any user functions registered through
   register_ode_rhs / register_function; switches from coq/gen/GenC14.v).  The premises on the shape switches
   are discharged in props/C14.v by reflexivity, except finder_restarts_after_change and
   builtins_require_arrays, which stay premises there; the refutations carry the defective value of the switch
   as premise. *)
From Coq Require Import List String Bool Permutation.
Import ListNotations.
From Dagrt Require Import GenC14 Unify UnifyProofs KindOrder KindInfer KindInferCfg KindRegistryProofs
  KindInferProofs KindTableProofs KindFinderProofs KindFinderFull KindFinderExamples.
Open Scope string_scope.

(* every class named by the translator has a mirror in the model: no built-in is dropped *)
Lemma builtin_classes_known :
  forallb (fun f => match rk_of_class (snd f) with Some _ => true | None => false end) builtin_facts = true.
Proof. vm_compute. reflexivity. Qed.

Lemma base_registry_complete : List.length base_registry = List.length builtin_facts.
Proof. vm_compute. reflexivity. Qed.

(* every name preset in SymbolKindTable.__init__ is a state variable for is_state_variable *)
Lemma cfg_of_init_ok : forall ui ai ic sr pp rs ao extra x,
  In x (c_init_global (cfg_of ui ai ic sr pp rs ao extra)) ->
  c_is_state (cfg_of ui ai ic sr pp rs ao extra) x = true.
Proof.
  intros ui ai ic sr pp rs ao extra x. cbn [c_init_global c_is_state cfg_of]. unfold init_global_names.
  intros H. repeat (destruct H as [<-|H]; [reflexivity|]). destruct H.
Qed.

Theorem gen_order_independent_partial :
  unify_usertype_accepts_int = true -> unify_array_accepts_int = true ->
  set_insert_marks_changed = true -> builtins_require_arrays = true ->
  forall extra fuel fuel' forced all all' T T',
    Permutation all all' ->
    (forall it, In it all -> wf_item it) ->
    (forall p x k, In (p, x, k) forced -> k <> None) ->
    run_queue (gen_cfg_with extra) fuel forced all = OTable T false ->
    run_queue (gen_cfg_with extra) fuel' forced all' = OTable T' false ->
    table_equiv T T'.
Proof.
  intros H1 H2 H3 H4 extra. apply order_independent_partial; try assumption. apply cfg_of_init_ok.
Qed.

Theorem gen_order_independent :
  unify_usertype_accepts_int = true -> unify_array_accepts_int = true ->
  set_insert_marks_changed = true -> set_reraises = true -> loop_variables_prepass = true ->
  finder_restarts_after_change = true -> builtins_require_arrays = true ->
  forall extra, full_statement (gen_cfg_with extra).
Proof.
  intros H1 H2 H3 H4 H5 H6 H7 extra. unfold full_statement.
  apply order_independent; try assumption. apply cfg_of_init_ok.
Qed.

Theorem gen_infer_kinds_phase_order :
  unify_usertype_accepts_int = true -> unify_array_accepts_int = true ->
  set_insert_marks_changed = true -> set_reraises = true -> loop_variables_prepass = true ->
  finder_restarts_after_change = true -> builtins_require_arrays = true ->
  infer_kinds_zips_dict_order = true ->
  forall extra, glue_statement (gen_cfg_with extra).
Proof.
  intros H1 H2 H3 H4 H5 H6 H7 _ extra. unfold glue_statement.
  apply infer_kinds_phase_order; try assumption. apply cfg_of_init_ok.
Qed.

Theorem gen_registry_monotone :
  builtins_require_arrays = true ->
  forall sg vals vals' kwn, Forall2 wle vals vals' ->
    krel (call_kinds builtins_require_arrays sg vals kwn) (call_kinds builtins_require_arrays sg vals' kwn).
Proof. intros ->. exact call_kinds_mono. Qed.

Lemma cfg_loop_variable_refuted : forall ui ai ic sr ao, ~ full_statement (cfg_of ui ai ic sr false false ao []).
Proof.
  intros ui ai ic sr ao.
  destruct ic;
    (eapply full_statement_refute with (fuel := 10) (all := [wX; wY]) (all' := [wY; wX]);
     [apply perm_swap|repeat constructor|vm_compute; reflexivity|vm_compute; reflexivity
     |discriminate|discriminate|exact (fun F => F)]).
Qed.

Theorem gen_full_statement_refuted :
  loop_variables_prepass = false -> finder_restarts_after_change = false ->
  ~ (forall extra, full_statement (gen_cfg_with extra)).
Proof.
  intros Hp Hr H. specialize (H []). unfold gen_cfg_with in H. rewrite Hp, Hr in H.
  exact (cfg_loop_variable_refuted _ _ _ _ _ H).
Qed.

Lemma cfg_gives_up_early_refuted : forall ao, ~ full_statement (cfg_of true true true true true false ao []).
Proof.
  intros ao.
  eapply full_statement_refute with (fuel := 10) (all := [wW; wXi; wAbs]) (all' := [wXi; wW; wAbs]);
    [apply perm_swap|repeat constructor|vm_compute; reflexivity|vm_compute; reflexivity
    |discriminate|discriminate|exact (fun F => F)].
Qed.

Theorem gen_gives_up_early_refuted :
  unify_usertype_accepts_int = true -> unify_array_accepts_int = true ->
  set_insert_marks_changed = true -> set_reraises = true -> loop_variables_prepass = true ->
  finder_restarts_after_change = false ->
  ~ (forall extra, full_statement (gen_cfg_with extra)).
Proof.
  intros H1 H2 H3 H4 H5 H6 H. specialize (H []). unfold gen_cfg_with in H.
  rewrite H1, H2, H3, H4, H5, H6 in H. exact (cfg_gives_up_early_refuted _ H).
Qed.

(* matmul accepts the Scalar below a UserType it refuses *)
Definition rhs_f : registry := [("<func>f", rhs_sig "u" ["u"])].

Lemma cfg_scalar_matrix_refuted : forall pp rs,
  ~ full_statement (cfg_of true true true true pp rs false rhs_f).
Proof.
  intros pp rs.
  destruct pp;
    (eapply full_statement_refute with (fuel := 10) (all := [wA1; wA2; wMM]) (all' := [wA2; wMM; wA1]);
     [apply (Permutation_cons_append [wA2; wMM] wA1)|repeat constructor
     |vm_compute; reflexivity|vm_compute; reflexivity|discriminate|discriminate
     |apply table_equiv_differ with (Some "p", "s"); discriminate]).
Qed.

Theorem gen_scalar_matrix_refuted :
  unify_usertype_accepts_int = true -> unify_array_accepts_int = true ->
  set_insert_marks_changed = true -> set_reraises = true ->
  builtins_require_arrays = false ->
  ~ (forall extra, full_statement (gen_cfg_with extra)).
Proof.
  intros H1 H2 H3 H4 H7 H. specialize (H rhs_f). unfold gen_cfg_with in H.
  rewrite H1, H2, H3, H4, H7 in H. exact (cfg_scalar_matrix_refuted _ _ H).
Qed.

Theorem gen_registry_monotone_refuted :
  builtins_require_arrays = false ->
  ~ (forall sg vals vals' kwn, Forall2 wle vals vals' ->
       krel (call_kinds builtins_require_arrays sg vals kwn) (call_kinds builtins_require_arrays sg vals' kwn)).
Proof.
  intros -> H. destruct matmul_not_mono_refuted as [Hle Hn]. apply Hn. apply H. exact Hle.
Qed.

Theorem gen_unify_comm :
  unify_usertype_accepts_int = true -> unify_array_accepts_int = true ->
  forall a b, res_sim (gen_unify a b) (gen_unify b a).
Proof. unfold gen_unify. intros -> ->. exact unify_comm. Qed.

Theorem gen_unify_assoc :
  unify_usertype_accepts_int = true -> unify_array_accepts_int = true ->
  forall a b c, res_sim (bind (gen_unify a b) (fun x => gen_unify x c))
                        (bind (gen_unify b c) (fun y => gen_unify a y)).
Proof. unfold gen_unify. intros -> ->. exact unify_assoc. Qed.

Theorem gen_unify_comm_refuted :
  unify_usertype_accepts_int = false \/ unify_array_accepts_int = false ->
  ~ (forall a b, res_sim (gen_unify a b) (gen_unify b a)).
Proof.
  unfold gen_unify. intros [->| ->].
  - apply unify_comm_refuted_user.
  - apply unify_comm_refuted_array.
Qed.
