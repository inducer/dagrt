(* C09: soundness of the inferred kinds w.r.t. the class semantics (coq/model/Kinds.v). *)
From Coq Require Import List String Bool Arith Lia.
Import ListNotations.
Open Scope string_scope.
Open Scope list_scope.
From Dagrt Require Import Kinds ListFacts ResolveRel KindsClassProofs.

Lemma in_lift2 : forall f xs ys c,
  In c (lift2 f xs ys) <-> exists a b, In a xs /\ In b ys /\ In c (f a b).
Proof.
  intros f xs ys c. unfold lift2. rewrite in_flat_map. split.
  - intros [a [Ha H]]. apply in_flat_map in H. destruct H as [b [Hb H]]. exists a, b. auto.
  - intros [a [b [Ha [Hb H]]]]. exists a. split; [assumption|]. apply in_flat_map. exists b. auto.
Qed.

Lemma lift2_all : forall f xs ys (P Q R : vclass -> Prop),
  (forall a, In a xs -> P a) -> (forall b, In b ys -> Q b) ->
  (forall a b c, P a -> Q b -> In c (f a b) -> R c) ->
  forall c, In c (lift2 f xs ys) -> R c.
Proof.
  intros f xs ys P Q R Hx Hy Hf c Hc. apply in_lift2 in Hc. destruct Hc as [a [b [Ha [Hb Hc]]]]. eauto.
Qed.

Lemma cartesian_in : forall {A} (css : list (list A)) vals,
  In vals (cartesian css) -> Forall2 (fun v cs => In v cs) vals css.
Proof.
  induction css as [|cs css IH]; intros vals H; simpl in H.
  - destruct H as [H|[]]. subst. constructor.
  - apply in_flat_map in H. destruct H as [x [Hx H]]. apply in_map_iff in H.
    destruct H as [r [Hr H]]. subst. constructor; auto.
Qed.

(* check=True admits only Arrays for a matrix built-in, so the extra test of 47d5901 ([need_arrays]) is not
   observable there *)
Lemma result_kinds_check : forall s a ks,
  result_kinds true s a = Some ks -> result_kinds false s a = Some ks /\ matrix_arrays s a = true.
Proof.
  intros s a ks H.
  destruct s; simpl in H;
    repeat match type of H with
           | context [match ?l with [] => _ | _ :: _ => _ end] => is_var l; destruct l; simpl in H; try discriminate
           end;
    simpl;
    repeat match type of H with
           | (if ?b then _ else _) = _ => destruct b eqn:?; simpl in *; try discriminate
           end;
    repeat match goal with
           | E : negb _ = false |- _ => apply negb_false_iff in E
           | E : _ && _ = true |- _ => apply andb_prop in E; destruct E
           end;
    split; try assumption; try reflexivity; repeat (apply andb_true_intro; split); assumption.
Qed.

Lemma result_kinds_check_arrays : forall s a ks,
  result_kinds true s a = Some ks -> matrix_arrays s a = true.
Proof. intros s a ks H. exact (proj2 (result_kinds_check s a ks H)). Qed.

Lemma result_kinds_check_infer : forall na s a ks,
  result_kinds true s a = Some ks -> result_kinds_infer na s a = Some ks.
Proof.
  intros na s a ks H. destruct (result_kinds_check s a ks H) as [Hf Hm].
  unfold result_kinds_infer. rewrite Hm, andb_false_r. exact Hf.
Qed.

Lemma call_kinds_gen_impl : forall (rk rk' : fsig -> list okind -> option (list kind)) s aks kwn ks,
  (forall a, rk s a = Some ks -> rk' s a = Some ks) ->
  call_kinds_gen rk s aks kwn = Some ks -> call_kinds_gen rk' s aks kwn = Some ks.
Proof.
  intros rk rk' s aks kwn ks Himp. unfold call_kinds_gen.
  destruct s; trivial; destruct (split_args aks kwn) as [pos kw];
    match goal with |- context [resolve ?n pos kw] => destruct (resolve n pos kw) end; auto.
Qed.

Lemma call_kinds_check : forall C na s aks kwn ks,
  call_kinds_gen (result_kinds_strict C) s aks kwn = Some ks -> call_kinds_infer na s aks kwn = Some ks.
Proof.
  intros C na s aks kwn ks. apply call_kinds_gen_impl. intros a H. unfold result_kinds_strict in H.
  destruct (sig_ok C s a); [|discriminate]. apply result_kinds_check_infer. exact H.
Qed.

Lemma result_kinds_len : forall c s a ks, result_kinds c s a = Some ks -> List.length ks = sig_nres s.
Proof.
  intros c s a ks H.
  destruct s; simpl in H;
    repeat match type of H with
           | context [match ?l with [] => _ | _ :: _ => _ end] => is_var l; destruct l; simpl in H; try discriminate
           end;
    repeat match type of H with
           | (if ?b then _ else _) = _ => destruct b eqn:?; simpl in *; try discriminate
           | match ?x with _ => _ end = _ => destruct x eqn:?; simpl in *; try discriminate
           end;
    inversion H; subst; reflexivity.
Qed.

Lemma call_kinds_len : forall c s aks kwn ks, call_kinds c s aks kwn = Some ks -> List.length ks = sig_nres s.
Proof.
  intros c s aks kwn ks H. unfold call_kinds, call_kinds_gen in H.
  destruct s; try (destruct (split_args aks kwn) as [pos kw];
                   match type of H with context [resolve ?n ?p ?k] => destruct (resolve n p k); [|discriminate] end;
                   eapply result_kinds_len; eassumption).
  inversion H; subst. reflexivity.
Qed.

Lemma result_kinds_infer_some : forall na s a ks,
  result_kinds_infer na s a = Some ks -> result_kinds false s a = Some ks.
Proof.
  intros na s a ks H. unfold result_kinds_infer in H.
  destruct (na && negb (matrix_arrays s a)); [discriminate | exact H].
Qed.

Lemma call_kinds_infer_some : forall na s aks kwn ks,
  call_kinds_infer na s aks kwn = Some ks -> call_kinds false s aks kwn = Some ks.
Proof. intros na s aks kwn ks. apply call_kinds_gen_impl. intros a. apply result_kinds_infer_some. Qed.

Lemma kcall_inv : forall C reg f rs kwn ks,
  kcall C reg f rs kwn = Ok ks -> exists s0, rlookup reg f = Some s0 /\ List.length ks = sig_nres s0.
Proof.
  intros C reg f rs kwn ks H. unfold kcall in H. destruct (rlookup reg f) as [s0|]; [|discriminate].
  destruct (arg_kinds rs) as [aks|]; [|discriminate].
  destruct (call_kinds_infer (need_arrays C) s0 aks kwn) as [ks'|] eqn:E; [|discriminate].
  inversion H; subst. exists s0. split; [reflexivity|].
  eapply call_kinds_len. eapply call_kinds_infer_some. eauto.
Qed.

Definition hks (r : list vclass) (ks : list kind) : Prop := Forall2 (fun c k => has_kind c k = true) r ks.

Lemma resolved_sound : forall C s vals aks kwn ks r,
  Forall2 arg_rel vals aks ->
  match resolve (sig_args s) (fst (split_args aks kwn)) (snd (split_args aks kwn)) with
  | None => None
  | Some a => result_kinds_strict C s a
  end = Some ks ->
  In r match resolve (sig_args s) (fst (split_args vals kwn)) (snd (split_args vals kwn)) with
       | None => []
       | Some a => cresult C s a
       end -> hks r ks.
Proof.
  intros C s vals aks kwn ks r HF H1 H2.
  pose proof (resolve_split_rel arg_rel (sig_args s) vals aks kwn HF) as Hres.
  destruct (resolve (sig_args s) (fst (split_args aks kwn)) (snd (split_args aks kwn))) as [a|]; [|discriminate].
  destruct (resolve (sig_args s) (fst (split_args vals kwn)) (snd (split_args vals kwn))) as [cs|]; [|contradiction].
  unfold result_kinds_strict in H1. destruct (sig_ok C s a) eqn:Hs; [|discriminate].
  exact (cresult_sound C s a cs ks r Hs Hres H1 H2).
Qed.

Lemma call_sound : forall C s vals aks kwn ks r,
  Forall2 arg_rel vals aks ->
  call_kinds_gen (result_kinds_strict C) s aks kwn = Some ks ->
  In r (ccall C s vals kwn) -> hks r ks.
Proof.
  intros C s vals aks kwn ks r HF Hk Hin.
  (* for the built-ins both sides unfold to the shapes of [resolved_sound]: [split_args] is a pair *)
  destruct s; try exact (resolved_sound C _ vals aks kwn ks r HF Hk Hin).
  - (* an ODE right-hand side returns its user type whatever it is given *)
    unfold call_kinds_gen in Hk. destruct (split_args aks kwn) as [pos kw].
    destruct (resolve (sig_args (FRhs out ins names)) pos kw) as [a|]; [|discriminate].
    apply (rhs_kinds out ins names a) in Hk. subst ks.
    destruct Hin as [<-|[]]. repeat constructor. apply String.eqb_refl.
  - injection Hk as <-. apply cartesian_classes_sound. exact Hin.
Qed.

Definition child_rel (k : kind) (cs : list vclass) : Prop :=
  k <> KBool /\ forall c, In c cs -> has_kind c k = true.

(* The accumulator of map_sum / map_product_like.  None: no child has been unified in yet, the partial sum is
   still the start value of sum() / pytools.product, the int 0 or 1. *)
Definition acc_inv (acs : list vclass) (acc : okind) : Prop :=
  match acc with
  | None => forall c, In c acs -> c = CInt
  | Some k => child_rel k acs
  end.

Lemma acc_step : forall acs acc k cs ko,
  acc_inv acs acc -> child_rel k cs -> unify acc (Some k) = Ok ko ->
  acc_inv (lift2 (cjoin 1) acs cs) ko.
Proof.
  intros acs acc k cs ko Hinv [Hk Hcs] Hu.
  destruct acc as [k1|]; simpl in Hinv.
  - destruct Hinv as [Hk1 Hacs].
    destruct (unify_nonbool _ _ _ Hu) as [k' [-> Hk']]. split; [assumption|].
    apply (lift2_all _ _ _ _ _ _ Hacs Hcs). intros a b c. apply (unify_join_sound 1 k1 k); auto.
  - injection Hu as <-. split; [assumption|].
    apply (lift2_all _ _ _ _ _ _ Hinv Hcs). intros a b c ->. apply join_int_sound. assumption.
Qed.

Lemma sum_kinds_sound : forall ks css acc last ko acs,
  Forall2 child_rel ks css -> acc_inv acs acc ->
  sum_kinds (map (fun k => Ok (Some k)) ks) acc last = Ok ko ->
  exists k, ko = Some k /\ forall c, In c (fold_left (lift2 (cjoin 1)) css acs) -> has_kind c k = true.
Proof.
  intros ks css acc last ko acs HF. revert acc last ko acs.
  induction HF as [|k cs ks css Hc HF IH]; intros acc last ko acs Hinv H; simpl in *.
  - destruct acc as [k|]; [|destruct last; discriminate].
    inversion H; subst. exists k. split; [reflexivity|]. apply Hinv.
  - destruct (unify acc (Some k)) as [k'|e] eqn:Hu; [|discriminate].
    eapply IH; [|exact H]. eapply acc_step; eauto.
Qed.

Lemma prod_kinds_sound : forall ks css acc ko acs,
  Forall2 child_rel ks css -> acc_inv acs acc -> (acc <> None \/ ks <> []) ->
  prod_kinds (map (fun k => Ok (Some k)) ks) acc = Ok ko ->
  exists k, ko = Some k /\ forall c, In c (fold_left (lift2 (cjoin 1)) css acs) -> has_kind c k = true.
Proof.
  intros ks css acc ko acs HF. revert acc ko acs.
  induction HF as [|k cs ks css Hc HF IH]; intros acc ko acs Hinv Hne H; simpl in *.
  - inversion H; subst. destruct ko as [k|]; [|destruct Hne; congruence].
    exists k. split; [reflexivity|]. apply Hinv.
  - destruct (unify acc (Some k)) as [k'|e] eqn:Hu; [|discriminate].
    eapply IH; [| |exact H].
    + eapply acc_step; eauto.
    + left. destruct acc as [k1|]; simpl in Hu.
      * destruct (unify_nonbool _ _ _ Hu) as [k'' [-> _]]. discriminate.
      * inversion Hu. discriminate.
Qed.

Lemma logic_kinds_ok : forall rs ko, logic_kinds rs = Ok ko -> ko = Some KBool.
Proof.
  induction rs as [|r rs IH]; intros ko H; simpl in H.
  - inversion H. reflexivity.
  - destruct r; [auto|discriminate].
Qed.

(* [store_ok T ph], read with the two dicts the mapper is given instead of the table (store_ok_sound) *)
Definition store_sound (G L : tbl) (st : cstore) : Prop :=
  forall x c, alookup st x = Some c ->
    exists k, (match alookup G x with Some k => Some k | None => alookup L x end) = Some (Some k)
              /\ has_kind c k = true.

Lemma forallb_flat_map : forall {A B} (p : B -> bool) (f : A -> list B) l,
  forallb p (flat_map f l) = forallb (fun x => forallb p (f x)) l.
Proof. intros A B. exact (@ListFacts.forallb_flat_map A B). Qed.

Lemma kind_of_some : forall r k, kind_of r = Some k -> r = Ok (Some k).
Proof. intros [[k'|]|e] k H; simpl in H; try discriminate. inversion H. reflexivity. Qed.

Lemma nonbool_kind_inv : forall r, nonbool_kind (kind_of r) = true -> exists k, r = Ok (Some k) /\ k <> KBool.
Proof.
  intros r H. destruct (kind_of r) as [k|] eqn:E; simpl in H; [|discriminate].
  apply kind_of_some in E. exists k. split; [assumption|]. destruct k; try discriminate.
Qed.

Lemma scalar_kind_inv : forall r, scalar_kind (kind_of r) = true -> exists k, r = Ok (Some k) /\ scalar_kind (Some k) = true.
Proof.
  intros r H. destruct (kind_of r) as [k|] eqn:E; simpl in H; [|discriminate].
  apply kind_of_some in E. exists k. auto.
Qed.

Lemma prod2 : forall a b, prod_kinds [Ok (Some a); Ok (Some b)] None = unify (Some a) (Some b).
Proof.
  intros a b.
  change (prod_kinds [Ok (Some a); Ok (Some b)] None)
    with (match unify (Some a) (Some b) with Err e => Err e | Ok k' => Ok k' end).
  destruct (unify (Some a) (Some b)); reflexivity.
Qed.

Section ExprInd.
  Variable P : expr -> Prop.
  Hypothesis HConst : forall c, P (EConst c).
  Hypothesis HVar : forall x, P (EVar x).
  Hypothesis HSum : forall l, Forall P l -> P (ESum l).
  Hypothesis HProd : forall l, Forall P l -> P (EProd l).
  Hypothesis HQuot : forall a b, P a -> P b -> P (EQuot a b).
  Hypothesis HPow : forall a b, P a -> P b -> P (EPow a b).
  Hypothesis HCmp : forall o a b, P a -> P b -> P (ECmp o a b).
  Hypothesis HAnd : forall l, Forall P l -> P (EAnd l).
  Hypothesis HOr : forall l, Forall P l -> P (EOr l).
  Hypothesis HNot : forall a, P a -> P (ENot a).
  Hypothesis HMin : forall l, Forall P l -> P (EMin l).
  Hypothesis HMax : forall l, Forall P l -> P (EMax l).
  Hypothesis HSub : forall a i, P a -> P i -> P (ESub a i).
  Hypothesis HCall : forall f args kwn, Forall P args -> P (ECall f args kwn).

  Fixpoint expr_ind' (e : expr) : P e :=
    let fix go (l : list expr) : Forall P l :=
      match l with
      | [] => Forall_nil P
      | x :: r => Forall_cons x (expr_ind' x) (go r)
      end in
    match e with
    | EConst c => HConst c
    | EVar x => HVar x
    | ESum l => HSum l (go l)
    | EProd l => HProd l (go l)
    | EQuot a b => HQuot a b (expr_ind' a) (expr_ind' b)
    | EPow a b => HPow a b (expr_ind' a) (expr_ind' b)
    | ECmp o a b => HCmp o a b (expr_ind' a) (expr_ind' b)
    | EAnd l => HAnd l (go l)
    | EOr l => HOr l (go l)
    | ENot a => HNot a (expr_ind' a)
    | EMin l => HMin l (go l)
    | EMax l => HMax l (go l)
    | ESub a i => HSub a i (expr_ind' a) (expr_ind' i)
    | ECall f args kwn => HCall f args kwn (go args)
    end.
End ExprInd.

Section MapperSound.
  Variable C : cfg.
  Variable reg : registry.
  Variable G L : tbl.
  Variable st : cstore.
  Hypothesis Hst : store_sound G L st.

  Definition esound (e : expr) : Prop :=
    forall ko, side_ok C reg G L e = true -> forallb (in_store st) (evars e) = true ->
               kmap C reg G L e = Ok ko ->
               exists k, ko = Some k /\ forall c, In c (ceval C reg st e) -> has_kind c k = true.

  Lemma children_rel : forall l,
    Forall esound l -> forallb (side_ok C reg G L) l = true ->
    forallb (fun ch => nonbool_kind (kind_of (kmap C reg G L ch))) l = true ->
    forallb (in_store st) (flat_map evars l) = true ->
    exists ks, map (kmap C reg G L) l = map (fun k => Ok (Some k)) ks /\
               Forall2 child_rel ks (map (ceval C reg st) l).
  Proof.
    induction l as [|ch l IH]; intros HF Hs Hn Hd; simpl in *.
    - exists []. split; constructor.
    - inversion HF as [|? ? Hch HF']; subst.
      apply andb_prop in Hs. destruct Hs as [Hs1 Hs2].
      apply andb_prop in Hn. destruct Hn as [Hn1 Hn2].
      rewrite forallb_app in Hd. apply andb_prop in Hd. destruct Hd as [Hd1 Hd2].
      destruct (IH HF' Hs2 Hn2 Hd2) as [ks [Hm HR]].
      destruct (nonbool_kind_inv _ Hn1) as [k [Hk Hnb]].
      destruct (Hch (Some k) Hs1 Hd1 Hk) as [k' [E Hc]]. inversion E; subst k'.
      exists (k :: ks). simpl. split; [rewrite Hk, Hm; reflexivity|].
      constructor; [split; assumption | assumption].
  Qed.

  Lemma args_rel : forall args aks,
    Forall esound args -> forallb (side_ok C reg G L) args = true ->
    forallb (in_store st) (flat_map evars args) = true ->
    arg_kinds (map (kmap C reg G L) args) = Ok aks ->
    forallb (fun k => negb (is_none_k k)) aks = true ->
    forall vals, In vals (cartesian (map (ceval C reg st) args)) -> Forall2 arg_rel vals aks.
  Proof.
    induction args as [|a args IH]; intros aks HF Hs Hd Ha Hn vals Hin; simpl in *.
    - inversion Ha; subst. destruct Hin as [Hin|[]]. subst. constructor.
    - inversion HF as [|? ? Hch HF']; subst.
      apply andb_prop in Hs. destruct Hs as [Hs1 Hs2].
      rewrite forallb_app in Hd. apply andb_prop in Hd. destruct Hd as [Hd1 Hd2].
      apply in_flat_map in Hin. destruct Hin as [v [Hv Hin]]. apply in_map_iff in Hin.
      destruct Hin as [vals' [E Hin]]. subst vals.
      destruct (kmap C reg G L a) as [ka|e] eqn:Hk.
      + destruct (arg_kinds (map (kmap C reg G L) args)) as [aks'|e] eqn:Ha'; [|discriminate].
        inversion Ha; subst aks. simpl in Hn. apply andb_prop in Hn. destruct Hn as [Hn1 Hn2].
        destruct (Hch ka Hs1 Hd1 Hk) as [k [E Hc]]. subst ka.
        constructor; [exists k; split; [reflexivity | apply Hc; assumption] | eapply IH; eauto].
      + destruct e; try discriminate.
        destruct (arg_kinds (map (kmap C reg G L) args)) as [aks'|e] eqn:Ha'; [|discriminate].
        inversion Ha; subst aks. simpl in Hn. discriminate.
  Qed.

  Lemma minmax_sound : forall l,
    Forall esound l -> forallb (side_ok C reg G L) l = true ->
    forallb (fun ch => real_scalar_kind (kind_of (kmap C reg G L ch))) l = true ->
    forallb (in_store st) (flat_map evars l) = true ->
    forall c, In c (List.concat (map (ceval C reg st) l)) -> has_kind c (KScalar true) = true.
  Proof.
    induction l as [|ch l IH]; intros HF Hs Hn Hd c Hin; simpl in *; [contradiction|].
    inversion HF as [|? ? Hch HF']; subst.
    apply andb_prop in Hs. destruct Hs as [Hs1 Hs2].
    apply andb_prop in Hn. destruct Hn as [Hn1 Hn2].
    rewrite forallb_app in Hd. apply andb_prop in Hd. destruct Hd as [Hd1 Hd2].
    apply in_app_or in Hin. destruct Hin as [Hin|Hin]; [|eapply IH; eauto].
    destruct (kind_of (kmap C reg G L ch)) as [k|] eqn:E; simpl in Hn1; [|discriminate].
    apply kind_of_some in E. destruct (Hch (Some k) Hs1 Hd1 E) as [k' [E' Hc]]. inversion E'; subst k'.
    specialize (Hc c Hin).
    destruct k as [| |[]|?|?]; simpl in Hn1; try discriminate;
      destruct c; simpl in Hc; try discriminate; reflexivity.
  Qed.

  (* what is left to the caller is the node's own rule on one class of each operand *)
  Lemma operands_sound : forall f e1 e2 ko1 ko2,
    esound e1 -> esound e2 -> side_ok C reg G L e1 && side_ok C reg G L e2 = true ->
    forallb (in_store st) (evars e1 ++ evars e2) = true ->
    kmap C reg G L e1 = Ok ko1 -> kmap C reg G L e2 = Ok ko2 ->
    exists k1 k2, ko1 = Some k1 /\ ko2 = Some k2 /\
      forall k, (forall a b c, has_kind a k1 = true -> has_kind b k2 = true -> In c (f a b) -> has_kind c k = true) ->
                forall c, In c (lift2 f (ceval C reg st e1) (ceval C reg st e2)) -> has_kind c k = true.
  Proof.
    intros f e1 e2 ko1 ko2 H1 H2 [S1 S2]%andb_prop Hd E1 E2.
    rewrite forallb_app in Hd. apply andb_prop in Hd. destruct Hd as [Hd1 Hd2].
    destruct (H1 ko1 S1 Hd1 E1) as [k1 [-> Hc1]]. destruct (H2 ko2 S2 Hd2 E2) as [k2 [-> Hc2]].
    exists k1, k2. split; [reflexivity|]. split; [reflexivity|].
    intros k Hf. exact (lift2_all f _ _ _ _ _ Hc1 Hc2 Hf).
  Qed.

  Lemma kcall_sound : forall f args kwn ks,
    Forall esound args -> forallb (side_ok C reg G L) args = true -> call_ok C reg G L f args kwn = true ->
    forallb (in_store st) (flat_map evars args) = true ->
    kcall C reg f (map (kmap C reg G L) args) kwn = Ok ks ->
    exists s, rlookup reg f = Some s /\
      forall vals r, In vals (cartesian (map (ceval C reg st) args)) -> In r (ccall C s vals kwn) -> hks r ks.
  Proof.
    intros f args kwn ks HF Hs Hco Hd Hk. unfold call_ok in Hco. unfold kcall in Hk.
    destruct (rlookup reg f) as [s|]; [|discriminate]. exists s. split; [reflexivity|].
    destruct (arg_kinds (map (kmap C reg G L) args)) as [aks|] eqn:Ha; [|discriminate].
    apply andb_prop in Hco. destruct Hco as [Hnn Hck].
    destruct (call_kinds_gen (result_kinds_strict C) s aks kwn) as [ks'|] eqn:Hcs; [|discriminate].
    rewrite (call_kinds_check _ (need_arrays C) _ _ _ _ Hcs) in Hk. injection Hk as <-.
    intros vals r Hv Hr.
    exact (call_sound C s vals aks kwn ks' r (args_rel args aks HF Hs Hd Ha Hnn vals Hv) Hcs Hr).
  Qed.

  Lemma EConst_sound : forall c, esound (EConst c).
  Proof.
    intros c ko Hs _ [= <-]. eexists; split; [reflexivity|]. intros c' [<-|[]].
    destruct c; try discriminate Hs; reflexivity.
  Qed.

  Lemma EVar_sound : forall x, esound (EVar x).
  Proof.
    intros x ko _ Hd Hk. simpl in Hd, Hk |- *. unfold in_store in Hd.
    destruct (alookup st x) as [c|] eqn:Hx; [|discriminate].
    destruct (Hst x c Hx) as [k [Hl Hh]]. exists k. split.
    - destruct (alookup G x); [|destruct (alookup L x)]; congruence.
    - intros c' [<-|[]]. assumption.
  Qed.

  Lemma acc_inv_start : acc_inv [CInt] None.
  Proof. intros c [<-|[]]. reflexivity. Qed.

  Lemma ESum_sound : forall l, Forall esound l -> esound (ESum l).
  Proof.
    intros l IH ko Hs Hd Hk. simpl in Hs, Hd, Hk |- *. apply andb_prop in Hs as [Hs1 Hs2].
    destruct (children_rel l IH Hs1 Hs2 Hd) as [ks [Hm HR]]. rewrite Hm in Hk.
    exact (sum_kinds_sound ks _ None false ko [CInt] HR acc_inv_start Hk).
  Qed.

  Lemma EProd_sound : forall l, Forall esound l -> esound (EProd l).
  Proof.
    intros l IH ko Hs Hd Hk. simpl in Hs, Hd, Hk |- *. apply andb_prop in Hs as [[Hne Hs1]%andb_prop Hs2].
    destruct (children_rel l IH Hs1 Hs2 Hd) as [ks [Hm HR]]. rewrite Hm in Hk.
    apply (prod_kinds_sound ks _ None ko [CInt] HR acc_inv_start); [|exact Hk].
    right. destruct l; [discriminate|]. destruct ks; discriminate.
  Qed.

  Lemma EQuot_sound : forall a b, esound a -> esound b -> esound (EQuot a b).
  Proof.
    intros a b Ha Hb ko Hs Hd Hk. simpl in Hs, Hd, Hk |- *. apply andb_prop in Hs as [Hs Hne].
    destruct (kmap C reg G L a) as [ko1|] eqn:E1; [|discriminate].
    destruct (kmap C reg G L b) as [ko2|] eqn:E2; [|discriminate].
    destruct (operands_sound (cjoin 2) a b ko1 ko2 Ha Hb Hs Hd E1 E2) as [k1 [k2 [-> [-> Hlift]]]].
    destruct (unify (Some k1) (Some k2)) as [ko'|] eqn:Hu; [|discriminate]. injection Hk as <-.
    destruct (unify_nonbool _ _ _ Hu) as [k [-> _]].
    exists k. split; [reflexivity|]. apply Hlift. intros x y c. apply (unify_join_sound 2 k1 k2); [|exact Hu].
    right. split; [reflexivity|]. intros [-> ->]. discriminate Hne.
  Qed.

  Lemma int_literal_inv : forall b, match b with EConst CInt => true | _ => false end = true -> b = EConst CInt.
  Proof. intros [[]| | | | | | | | | | | | |]; try discriminate. reflexivity. Qed.

  (* the side condition admits only the literal exponent the mapper's own rule is right for *)
  Lemma EPow_sound : forall a b, esound a -> esound (EPow a b).
  Proof.
    intros a b Ha ko Hs Hd Hk. simpl in Hs. apply andb_prop in Hs as [[Hpf Hs]%andb_prop ->%int_literal_inv].
    simpl in Hd, Hk |- *. rewrite Hpf in Hk.
    rewrite forallb_app in Hd. apply andb_prop in Hd. destruct Hd as [Hd _].
    destruct (kmap C reg G L a) as [ko1|] eqn:E1; [|discriminate].
    destruct (Ha ko1 Hs Hd E1) as [k1 [-> Hc1]].
    simpl (kmap C reg G L (EConst CInt)) in Hk. cbv beta iota in Hk.
    destruct (unify (Some k1) (Some (KScalar true))) as [ko'|] eqn:Hu; [|discriminate]. injection Hk as <-.
    destruct (unify_nonbool _ _ _ Hu) as [k [-> _]]. exists k. split; [reflexivity|].
    apply (lift2_all cpow _ _ _ (fun y => y = CInt) _ Hc1); [intros y [<-|[]]; reflexivity|].
    intros x y c Hx ->. exact (unify_pow_sound k1 k x c Hu Hx).
  Qed.

  Lemma ECmp_sound : forall o a b, esound a -> esound b -> esound (ECmp o a b).
  Proof.
    intros o a b Ha Hb ko Hs Hd [= <-]. simpl in Hs, Hd |- *. apply andb_prop in Hs as [[Hs Hk1]%andb_prop Hk2].
    exists KBool. split; [reflexivity|].
    destruct (scalar_kind_inv _ Hk1) as [k1 [E1 S1]]. destruct (scalar_kind_inv _ Hk2) as [k2 [E2 S2]].
    destruct (operands_sound (ccmp o) a b _ _ Ha Hb Hs Hd E1 E2) as [k1' [k2' [[= <-] [[= <-] Hlift]]]].
    apply Hlift. intros x y c Hx Hy Hc. rewrite (ccmp_scalar o k1 k2 x y c S1 S2 Hx Hy Hc). reflexivity.
  Qed.

  (* and, or, not: whatever the children are *)
  Lemma logic_sound : forall rs ko, logic_kinds rs = Ok ko ->
    exists k, ko = Some k /\ forall c, In c [CBool] -> has_kind c k = true.
  Proof.
    intros rs ko ->%logic_kinds_ok. exists KBool. split; [reflexivity|]. intros c [<-|[]]. reflexivity.
  Qed.

  Lemma EMin_sound : forall l, Forall esound l -> esound (EMin l).
  Proof.
    intros l IH ko Hs Hd [= <-]. simpl in Hs. apply andb_prop in Hs as [Hs1 Hs2].
    exists (KScalar true). split; [reflexivity | exact (minmax_sound l IH Hs1 Hs2 Hd)].
  Qed.

  (* the model's clauses for max are those for min *)
  Lemma EMax_sound : forall l, Forall esound l -> esound (EMax l).
  Proof. exact EMin_sound. Qed.

  Lemma ESub_sound : forall a i, esound a -> esound i -> esound (ESub a i).
  Proof.
    intros a i Ha Hi ko Hs Hd Hk. simpl in Hs, Hd, Hk |- *. apply andb_prop in Hs as [Hs Hki].
    destruct (kmap C reg G L a) as [ko1|] eqn:E1; [|discriminate].
    destruct (scalar_kind_inv _ Hki) as [ki [Ei Si]].
    destruct (operands_sound csub a i _ _ Ha Hi Hs Hd E1 Ei) as [k1 [ki' [-> [[= <-] Hlift]]]].
    destruct (realness (Some k1)) as [r|] eqn:Hr; [|discriminate]. injection Hk as <-.
    exists (KScalar r). split; [reflexivity|]. apply Hlift.
    intros x y c. apply (csub_sound k1 r ki); assumption.
  Qed.

  Lemma ECall_sound : forall f args kwn, Forall esound args -> esound (ECall f args kwn).
  Proof.
    intros f args kwn IH ko Hs Hd Hk. simpl in Hs, Hd, Hk |- *. apply andb_prop in Hs as [Hs Hco].
    destruct (kcall C reg f (map (kmap C reg G L) args) kwn) as [ks|] eqn:Ek; [|discriminate].
    destruct (kcall_sound f args kwn ks IH Hs Hco Hd Ek) as [s [-> Hcall]].
    destruct ks as [|k [|k2 ks]]; try discriminate. injection Hk as <-.
    exists k. split; [reflexivity|].
    intros c [vals [Hv [r [Hr Hc]]%in_flat_map]]%in_flat_map.
    pose proof (Hcall vals r Hv Hr) as Hh.
    inversion Hh as [|c0 k0 r0 ks0 Hck0 Hrest]; subst. inversion Hrest; subst.
    destruct Hc as [<-|[]]. assumption.
  Qed.

  Theorem kmap_sound : forall e, esound e.
  Proof.
    induction e using expr_ind'.
    - apply EConst_sound.
    - apply EVar_sound.
    - apply ESum_sound; assumption.
    - apply EProd_sound; assumption.
    - apply EQuot_sound; assumption.
    - apply EPow_sound; assumption.
    - apply ECmp_sound; assumption.
    (* and, or, not: [esound] unfolds to the shape of logic_sound, the classes being [CBool] *)
    - intros ko _ _. apply logic_sound.
    - intros ko _ _. apply logic_sound.
    - intros ko _ _. apply logic_sound.
    - apply EMin_sound; assumption.
    - apply EMax_sound; assumption.
    - apply ESub_sound; assumption.
    - apply ECall_sound; assumption.
  Qed.
End MapperSound.

Lemma alookup_aremove : forall {A} (st : list (string * A)) x y,
  alookup (aremove st x) y = if String.eqb x y then None else alookup st y.
Proof.
  induction st as [|[n v] st IH]; intros x y; simpl.
  - destruct (String.eqb x y); reflexivity.
  - destruct (String.eqb n x) eqn:E.
    + apply String.eqb_eq in E. subst n. rewrite IH. destruct (String.eqb x y); reflexivity.
    + simpl. rewrite IH. destruct (String.eqb n y) eqn:E2; [|reflexivity].
      apply String.eqb_eq in E2. subst n. rewrite String.eqb_sym in E. rewrite E. reflexivity.
Qed.

Lemma alookup_cset : forall st x c y,
  alookup (cset st x c) y = if String.eqb x y then Some c else alookup st y.
Proof.
  intros st x c y. unfold cset. simpl. rewrite alookup_aremove. destruct (String.eqb x y); reflexivity.
Qed.

Lemma alookup_cremove : forall xs st y c, alookup (cremove st xs) y = Some c -> alookup st y = Some c.
Proof.
  unfold cremove. induction xs as [|x xs IH]; intros st y c H; simpl in H; [assumption|].
  apply IH in H. rewrite alookup_aremove in H. destruct (String.eqb x y); [discriminate|assumption].
Qed.

Lemma store_ok_cset : forall T ph st x c k,
  store_ok T ph st -> lookup T ph x = Some (Some k) -> has_kind c k = true -> store_ok T ph (cset st x c).
Proof.
  intros T ph st x c k Hst Hl Hh y c' Hy. rewrite alookup_cset in Hy.
  destruct (String.eqb x y) eqn:E.
  - apply String.eqb_eq in E. subst y. inversion Hy; subst. eauto.
  - apply Hst. assumption.
Qed.

Lemma store_ok_cremove : forall T ph st xs, store_ok T ph st -> store_ok T ph (cremove st xs).
Proof. intros T ph st xs Hst y c Hy. apply Hst. eapply alookup_cremove. eassumption. Qed.

Lemma entry_le_inv : forall T ph x k, entry_le T ph x k = true ->
  exists kx, lookup T ph x = Some (Some kx) /\ kind_le k kx = true.
Proof.
  intros T ph x k H. unfold entry_le in H. destruct (lookup T ph x) as [[kx|]|]; try discriminate. eauto.
Qed.

Lemma store_ok_cset_le : forall T ph st x c k,
  store_ok T ph st -> entry_le T ph x k = true -> has_kind c k = true -> store_ok T ph (cset st x c).
Proof.
  intros T ph st x c k Hst Hx Hc. destruct (entry_le_inv _ _ _ _ Hx) as [kx [Hlx Hle]].
  apply store_ok_cset with (k := kx); [assumption | assumption | exact (kind_le_sound k kx c Hle Hc)].
Qed.

Lemma store_ok_loops : forall T ph loops st,
  forallb (fun i => entry_le T ph i KInt) loops = true -> store_ok T ph st ->
  store_ok T ph (fold_left (fun s i => cset s i CInt) loops st).
Proof.
  induction loops as [|i loops IH]; intros st Hl Hst; simpl in *; [assumption|].
  apply andb_prop in Hl. destruct Hl as [Hi Hl]. apply IH; [assumption|].
  apply store_ok_cset_le with (k := KInt); [assumption | assumption | reflexivity].
Qed.

Lemma cset_many_ok : forall T ph xs ks r st,
  entries_le T ph xs ks = true -> hks r ks -> store_ok T ph st -> store_ok T ph (cset_many st xs r).
Proof.
  induction xs as [|x xs IH]; intros ks r st He Hr Hst; simpl in *; [assumption|].
  destruct ks as [|k ks]; [discriminate|]. inversion Hr as [|c k' r' ks' Hck Hr']; subst.
  apply andb_prop in He. destruct He as [Hx He].
  apply (IH ks); [assumption | assumption | apply store_ok_cset_le with (k := k); assumption].
Qed.

Lemma store_ok_sound : forall T ph st, store_ok T ph st -> store_sound (sg T) (local_of T ph) st.
Proof. intros T ph st H. exact H. Qed.

Lemma cexec_sound : forall C reg T ph s st st',
  strict_stmt C reg T ph s = true -> store_ok T ph st -> defined st s = true ->
  In st' (cexec C reg st s) -> store_ok T ph st'.
Proof.
  intros C reg T ph s st st' Hs Hst Hd Hin. unfold cexec in Hin.
  destruct Hin as [Hin|Hin]; [subst; assumption|].
  destruct s as [x has_sub rhs loops | xs f args kwn |]; simpl in Hs, Hd.
  - destruct has_sub.
    + destruct Hin as [Hin|[]]. subst. apply store_ok_cremove. assumption.
    + simpl in Hs. apply andb_prop in Hs as [[Hloops Hk]%andb_prop Hside].
      apply in_map_iff in Hin. destruct Hin as [c [E Hc]]. subst st'.
      set (st1 := fold_left (fun s i => cset s i CInt) loops st) in *.
      assert (Hst1 : store_ok T ph st1) by (apply store_ok_loops; assumption).
      destruct (kind_of (kmap C reg (sg T) (local_of T ph) rhs)) as [k|] eqn:Ek; [|discriminate].
      apply kind_of_some in Ek.
      destruct (kmap_sound C reg (sg T) (local_of T ph) st1 (store_ok_sound _ _ _ Hst1) rhs (Some k) Hside Hd Ek)
        as [k' [E Hsound]].
      inversion E; subst k'.
      apply store_ok_cremove. apply store_ok_cset_le with (k := k); [assumption | exact Hk | apply Hsound; assumption].
  - apply andb_prop in Hs as [[Hk Hside]%andb_prop Hco].
    destruct (kcall C reg f (map (kmap C reg (sg T) (local_of T ph)) args) kwn) as [ks|] eqn:Ek; [|discriminate].
    assert (HF : Forall (esound C reg (sg T) (local_of T ph) st) args).
    { apply Forall_forall. intros e _. apply kmap_sound. apply store_ok_sound. assumption. }
    destruct (kcall_sound C reg (sg T) (local_of T ph) st f args kwn ks HF Hside Hco Hd Ek) as [s0 [Hf Hcall]].
    rewrite Hf in Hin.
    apply in_flat_map in Hin. destruct Hin as [vals [Hv Hin]].
    apply in_flat_map in Hin. destruct Hin as [r [Hr Hin]].
    destruct (Nat.eqb (List.length r) (List.length xs)); [|contradiction].
    destruct Hin as [Hin|[]]. subst st'. pose proof (Hcall vals r Hv Hr) as Hh.
    eapply cset_many_ok; eauto.
  - contradiction.
Qed.

Lemma alookup_filter : forall (keep : string -> bool) (st : cstore) x,
  alookup (keep_persistent keep st) x = if keep x then alookup st x else None.
Proof.
  intros keep st x. unfold keep_persistent. induction st as [|[n v] st IH]; simpl.
  - destruct (keep x); reflexivity.
  - destruct (keep n) eqn:Kn; simpl.
    + destruct (String.eqb n x) eqn:E.
      * apply String.eqb_eq in E. subst. rewrite Kn. reflexivity.
      * exact IH.
    + rewrite IH. destruct (String.eqb n x) eqn:E; [|reflexivity].
      apply String.eqb_eq in E. subst. rewrite Kn. reflexivity.
Qed.

Definition phase_indep (T : skt) (keep : string -> bool) : Prop :=
  forall x, keep x = true -> forall p q, lookup T p x = lookup T q x.

Theorem reach_sound : forall C reg D keep T ph0 st0 ph st,
  strict C reg D T = true -> phase_indep T keep -> store_ok T ph0 st0 ->
  creach C reg D keep ph0 st0 ph st -> store_ok T ph st.
Proof.
  intros C reg D keep T ph0 st0 ph st Hs Hpi H0 Hr.
  induction Hr as [ph st | ph0 st0 ph st stmts s st' Hr IH HD Hin Hdef Hex | ph0 st0 ph st ph' Hr IH].
  - assumption.
  - specialize (IH H0). unfold strict in Hs. rewrite forallb_forall in Hs.
    specialize (Hs (ph, stmts) HD). simpl in Hs. rewrite forallb_forall in Hs.
    eapply cexec_sound; eauto.
  - specialize (IH H0). intros x c Hx. rewrite alookup_filter in Hx.
    destruct (keep x) eqn:Kx; [|discriminate].
    destruct (IH x c Hx) as [k [Hl Hh]]. exists k. split; [|assumption].
    rewrite (Hpi x Kx ph' ph). assumption.
Qed.
