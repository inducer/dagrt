(* The table of the kind-inference model (coq/model/KindInfer.v: tfind, tupd, tset, lookup, lookup_kim): the order
   `tle` on tables, what one SymbolKindTable.set does (tset_spec) and guarantees of a well-formed state (`ext`), and
   that every loop of `set` calls inherits such a guarantee (Section Folds). *)
From Coq Require Import List String Bool.
Import ListNotations.
From Dagrt Require Import Unify UnifyProofs KindOrder KindInfer.
(* the imports leave string_scope open, in which ++ is string append *)
Close Scope string_scope.
Open Scope list_scope.

Lemma key_eqb_eq : forall a b : key, key_eqb a b = true <-> a = b.
Proof.
  intros [[p|] x] [[q|] y]; unfold key_eqb; cbn; rewrite ?andb_true_iff, ?String.eqb_eq; split;
    try (intros [H1 H2]; try discriminate; congruence);
    try (intros [= -> ->]; auto); try (intros [= ->]; auto); intros [= ]; auto.
Qed.

Lemma key_eqb_refl : forall a, key_eqb a a = true.
Proof. intro a; apply key_eqb_eq; reflexivity. Qed.

Lemma tfind_app : forall t ky v k,
  tfind (t ++ [(ky, v)]) k =
  match tfind t k with Some x => Some x | None => if key_eqb k ky then Some v else None end.
Proof.
  induction t as [|[k' v'] r IH]; intros ky v k; cbn.
  - reflexivity.
  - destruct (key_eqb k k'); [reflexivity|apply IH].
Qed.

Lemma tfind_tupd : forall t ky v old k, tfind t ky = Some old ->
  tfind (tupd t ky v) k = if key_eqb k ky then Some v else tfind t k.
Proof.
  induction t as [|[k' v'] r IH]; intros ky v old k; cbn; [discriminate|].
  destruct (key_eqb ky k') eqn:E; cbn.
  - apply key_eqb_eq in E. subst k'. destruct (key_eqb k ky); reflexivity.
  - intro H. destruct (key_eqb k k') eqn:E2; [|eapply IH; eassumption].
    apply key_eqb_eq in E2. subst k'.
    destruct (key_eqb k ky) eqn:E3; [|reflexivity].
    apply key_eqb_eq in E3. subst ky. rewrite key_eqb_refl in E. discriminate.
Qed.

Lemma tfind_tupd_same : forall t ky v old, tfind t ky = Some old -> tfind (tupd t ky v) ky = Some v.
Proof. intros t ky v old H. rewrite (tfind_tupd t ky v old ky H), key_eqb_refl. reflexivity. Qed.

(* without the premise that ky is bound: tupd leaves a table without ky as it is *)
Lemma tfind_tupd_other : forall t ky v k, k <> ky -> tfind (tupd t ky v) k = tfind t k.
Proof.
  induction t as [|[k' v'] r IH]; intros ky v k Hne; cbn; [reflexivity|].
  destruct (key_eqb ky k') eqn:E; cbn.
  - apply key_eqb_eq in E. subst k'.
    destruct (key_eqb k ky) eqn:E2; [apply key_eqb_eq in E2; contradiction|reflexivity].
  - destruct (key_eqb k k'); [reflexivity|apply IH; assumption].
Qed.

Definition tle (T L : table) : Prop :=
  forall ky k, tfind T ky = Some k -> exists k', tfind L ky = Some k' /\ kle k k'.

Lemma tle_refl : forall T, tle T T.
Proof. intros T ky k H; exists k; split; [assumption|apply kle_refl]. Qed.

Lemma tle_trans : forall A B C, tle A B -> tle B C -> tle A C.
Proof.
  intros A B C H1 H2 ky k H. destruct (H1 _ _ H) as [k1 [E1 L1]]. destruct (H2 _ _ E1) as [k2 [E2 L2]].
  exists k2; split; [assumption|eapply kle_trans; eassumption].
Qed.

Lemma tle_antisym : forall A B, tle A B -> tle B A -> table_equiv A B.
Proof.
  intros A B H1 H2 ky. destruct (tfind A ky) as [k|] eqn:EA.
  - destruct (H1 _ _ EA) as [k1 [E1 L1]]. destruct (H2 _ _ E1) as [k2 [E2 L2]].
    rewrite EA in E2. injection E2 as <-. rewrite E1. f_equal. apply kle_antisym; assumption.
  - destruct (tfind B ky) as [k|] eqn:EB; [|reflexivity].
    destruct (H2 _ _ EB) as [k2 [E2 _]]. congruence.
Qed.

(* kept by every run: forced kinds are kinds by hypothesis, loop variables are Integer, and the mapper returns
   kinds for a well-formed statement (KindInferProofs.eval_work_some) *)
Definition nonone (T : table) : Prop := forall ky k, tfind T ky = Some k -> k <> None.

Lemma has_phase_false : forall t p x, has_phase t p = false -> tfind t (Some p, x) = None.
Proof.
  induction t as [|[[[q|] y] v] r IH]; intros p x; cbn; [reflexivity| |].
  - intro H. apply orb_false_iff in H. destruct H as [H1 H2].
    unfold key_eqb; cbn. rewrite H1. cbn. apply IH; assumption.
  - intro H. unfold key_eqb; cbn. apply IH; assumption.
Qed.

Lemma lookup_kim_same : forall t p x, lookup_kim t t p x = lookup t p x.
Proof.
  intros t p x. unfold lookup_kim, lookup. destruct (tfind t (None, x)); [reflexivity|].
  destruct (has_phase t p) eqn:E; [reflexivity|]. symmetry; apply has_phase_false; assumption.
Qed.

Lemma lookup_kim_sub : forall t0 t p x k, lookup_kim t0 t p x = Some k -> lookup t p x = Some k.
Proof.
  intros t0 t p x k. unfold lookup_kim, lookup. destruct (tfind t (None, x)); [auto|].
  destruct (has_phase t0 p); [auto|discriminate].
Qed.

Lemma lookup_nonone : forall T p, nonone T -> lk_nonone (lookup T p).
Proof.
  intros T p Hn x k. unfold lookup. destruct (tfind T (None, x)) eqn:E.
  - intros [= <-]. eapply Hn; eassumption.
  - intro H. eapply Hn; eassumption.
Qed.

Lemma lookup_kim_nonone : forall t0 T p, nonone T -> lk_nonone (lookup_kim t0 T p).
Proof.
  intros t0 T p Hn x k H. apply lookup_kim_sub in H. eapply lookup_nonone; eassumption.
Qed.

Section Tables.
  Variable c : cfg.
  Hypothesis Hut : c_ut_int c = true.
  Hypothesis Harr : c_arr_int c = true.

  Definition canon (T : table) : Prop :=
    forall ky v, tfind T ky = Some v ->
      match fst ky with None => c_is_state c (snd ky) = true | Some _ => c_is_state c (snd ky) = false end.

  Definition good (st : tstate) : Prop := canon (tbl st) /\ nonone (tbl st).

  Lemma good_canon : forall st, good st -> canon (tbl st).
  Proof. intros st H; apply H. Qed.

  Lemma good_nonone : forall st, good st -> nonone (tbl st).
  Proof. intros st H; apply H. Qed.

  Lemma key_of_canon : forall p x,
    match fst (key_of c p x) with None => c_is_state c (snd (key_of c p x)) = true
                                | Some _ => c_is_state c (snd (key_of c p x)) = false end.
  Proof. intros p x. unfold key_of. destruct (c_is_state c x) eqn:E; cbn; assumption. Qed.

  Lemma lookup_canon : forall T p x, canon T -> lookup T p x = tfind T (key_of c p x).
  Proof.
    intros T p x Hc. unfold lookup, key_of.
    destruct (c_is_state c x) eqn:E.
    - destruct (tfind T (None, x)) eqn:E1; [reflexivity|].
      destruct (tfind T (Some p, x)) eqn:E2; [|reflexivity].
      apply Hc in E2. cbn in E2. congruence.
    - destruct (tfind T (None, x)) eqn:E1; [|reflexivity].
      apply Hc in E1. cbn in E1. congruence.
  Qed.

  Lemma lookup_le : forall T L p, canon T -> canon L -> tle T L -> lk_le (lookup T p) (lookup L p).
  Proof.
    intros T L p HT HL Hle x k. rewrite (lookup_canon T p x HT), (lookup_canon L p x HL). apply Hle.
  Qed.

  Lemma lookup_kim_le : forall t0 T L p, canon T -> canon L -> tle T L ->
    lk_le (lookup_kim t0 T p) (lookup L p).
  Proof.
    intros t0 T L p HT HL Hle x k H. apply lookup_kim_sub in H. exact (lookup_le T L p HT HL Hle x k H).
  Qed.

  (* What set does, case by case, with the table as a list. *)
  Lemma tset_inv : forall st p x k st', tset c st p x k = Ok st' ->
    let ky := key_of c p x in
    (tfind (tbl st) ky = None /\ tbl st' = tbl st ++ [(ky, k)]
       /\ changed st' = (if c_ins_changed c then true else changed st) /\ swallowed st' = swallowed st)
    \/ (exists old, tfind (tbl st) ky = Some old /\
         ((old = k /\ st' = st)
          \/ (old <> k /\ (exists e, UU k old = Err e) /\ c_set_raises c = false
                /\ tbl st' = tbl st /\ changed st' = changed st /\ swallowed st' = true)
          \/ (old <> k /\ UU k old = Ok old /\ st' = st)
          \/ (old <> k /\ exists k', UU k old = Ok k' /\ k' <> old /\ tbl st' = tupd (tbl st) ky k'
                /\ changed st' = true /\ swallowed st' = swallowed st))).
  Proof.
    intros st p x k st' H ky. unfold tset in H. fold ky in H.
    destruct (tfind (tbl st) ky) as [old|] eqn:E; [right; exists old; split; [reflexivity|]|left; injection H as <-; cbn; auto].
    destruct (okind_eqb old k) eqn:Eq; [apply okind_eqb_eq in Eq; injection H as <-; left; auto|].
    apply okind_eqb_neq in Eq. rewrite (U_UU c Hut Harr) in H. destruct (UU k old) as [k'|e] eqn:EU.
    - destruct (okind_eqb old k') eqn:Eq2.
      + apply okind_eqb_eq in Eq2. subst k'. injection H as <-. right; right; left; auto.
      + apply okind_eqb_neq in Eq2. injection H as <-. right; right; right. split; [assumption|].
        exists k'. cbn. repeat split; auto.
    - destruct (c_set_raises c) eqn:Er; [discriminate|]. injection H as <-. right; left. cbn. repeat split; eauto.
  Qed.

  (* The three cases of an existing entry: nothing to do; the failing unification was printed and ignored;
     the join. *)
  Lemma tset_spec : forall st p x k st', tset c st p x k = Ok st' ->
    let ky := key_of c p x in
    exists v, (forall k', tfind (tbl st') k' = if key_eqb k' ky then Some v else tfind (tbl st) k') /\
      match tfind (tbl st) ky with
      | None => v = k /\ changed st' = (if c_ins_changed c then true else changed st)
                /\ swallowed st' = swallowed st
      | Some old =>
          (st' = st /\ v = old /\ (old = k \/ UU k old = Ok old))
          \/ (v = old /\ c_set_raises c = false /\ changed st' = changed st /\ swallowed st' = true)
          \/ (UU k old = Ok v /\ changed st' = true /\ swallowed st' = swallowed st)
      end.
  Proof.
    intros st p x k st' H ky. unfold tset in H. fold ky in H.
    destruct (tfind (tbl st) ky) as [old|] eqn:E.
    - assert (Hsame : forall k', tfind (tbl st) k' = if key_eqb k' ky then Some old else tfind (tbl st) k').
      { intro k'. destruct (key_eqb k' ky) eqn:E3; [|reflexivity]. apply key_eqb_eq in E3. congruence. }
      destruct (okind_eqb old k) eqn:Eq.
      + apply okind_eqb_eq in Eq. injection H as <-. exists old. split; [exact Hsame|]. left. auto.
      + rewrite (U_UU c Hut Harr) in H. destruct (UU k old) as [k'|e] eqn:EU.
        * destruct (okind_eqb old k') eqn:Eq2.
          -- apply okind_eqb_eq in Eq2. subst k'. injection H as <-. exists old. split; [exact Hsame|]. left. auto.
          -- injection H as <-. exists k'. cbn. split; [intro; eapply tfind_tupd; eassumption|]. right; right. auto.
        * destruct (c_set_raises c) eqn:Er; [discriminate|]. injection H as <-. exists old. split; [exact Hsame|]. right; left. auto.
    - injection H as <-. exists k. cbn. split; [|auto]. intro k'. rewrite tfind_app.
      destruct (key_eqb k' ky) eqn:E3; [|destruct (tfind (tbl st) k'); reflexivity].
      apply key_eqb_eq in E3. subst k'. rewrite E. reflexivity.
  Qed.

  Lemma tset_good : forall st p x k st', good st -> k <> None -> tset c st p x k = Ok st' -> good st'.
  Proof.
    intros st p x k st' [Hc Hn] Hk H. destruct (tset_spec _ _ _ _ _ H) as [v [Hp Hv]].
    assert (Hv' : v <> None).
    { destruct (tfind (tbl st) (key_of c p x)) as [old|] eqn:E; [|destruct Hv; congruence].
      destruct Hv as [(_ & -> & _)|[(-> & _)|(HU & _)]]; [eapply Hn; eassumption..|eapply UU_some_l; eassumption]. }
    split; intros k' w; rewrite Hp; destruct (key_eqb k' (key_of c p x)) eqn:E3.
    - apply key_eqb_eq in E3. subst k'. intros _. apply key_of_canon.
    - apply Hc.
    - congruence.
    - apply Hn.
  Qed.

  Lemma tset_grows : forall st p x k st', good st -> tset c st p x k = Ok st' -> tle (tbl st) (tbl st').
  Proof.
    intros st p x k st' [Hc Hn] H k' w Hf. destruct (tset_spec _ _ _ _ _ H) as [v [Hp Hv]].
    rewrite Hp. destruct (key_eqb k' (key_of c p x)) eqn:E3; [|exists w; split; [assumption|apply kle_refl]].
    apply key_eqb_eq in E3. subst k'. rewrite Hf in Hv. exists v. split; [reflexivity|].
    destruct Hv as [(_ & -> & _)|[(-> & _)|(HU & _)]]; [apply kle_refl..|].
    eapply UU_upper_r; [exact HU|eapply Hn; eassumption].
  Qed.

  Lemma tset_closed_after : forall st p x k st', c_set_raises c = true -> k <> None ->
    tset c st p x k = Ok st' -> exists v, tfind (tbl st') (key_of c p x) = Some v /\ kle k v.
  Proof.
    intros st p x k st' Hr Hk H. destruct (tset_spec _ _ _ _ _ H) as [v [Hp Hv]].
    exists v. rewrite Hp, key_eqb_refl. split; [reflexivity|].
    destruct (tfind (tbl st) (key_of c p x)) as [old|]; [|destruct Hv as [-> _]; apply kle_refl].
    destruct Hv as [(_ & -> & Ho)|[(_ & Hr' & _)|(HU & _)]];
      [apply nochange_kle; assumption|congruence|eapply UU_upper_l; eassumption].
  Qed.

  Lemma tset_same : forall st p x k old,
    tfind (tbl st) (key_of c p x) = Some old -> kle k old -> tset c st p x k = Ok st.
  Proof.
    intros st p x k old E Hk. unfold tset. rewrite E.
    destruct (okind_eqb old k) eqn:Eq; [reflexivity|]. apply okind_eqb_neq in Eq.
    destruct Hk as [->|[_ Hk]]; [contradiction|].
    rewrite (U_UU c Hut Harr), Hk. rewrite okind_eqb_refl. reflexivity.
  Qed.

  Lemma tset_below : forall st p x k L kL, tle (tbl st) L ->
    tfind L (key_of c p x) = Some kL -> kle k kL ->
    exists st', tset c st p x k = Ok st' /\ tle (tbl st') L /\ swallowed st' = swallowed st.
  Proof.
    intros st p x k L kL Hle EL Hk. unfold tset.
    destruct (tfind (tbl st) (key_of c p x)) as [old|] eqn:E.
    - destruct (okind_eqb old k) eqn:Eq; [eexists; split; [reflexivity|split; [assumption|reflexivity]]|].
      apply okind_eqb_neq in Eq.
      destruct (Hle _ _ E) as [kL' [EL' Hold]]. rewrite EL in EL'. injection EL' as <-.
      destruct (UU_lub k old kL Hk Hold) as [j [EU Hj]]; [congruence|].
      rewrite (U_UU c Hut Harr), EU.
      destruct (okind_eqb old j) eqn:Eq2; [eexists; split; [reflexivity|split; [assumption|reflexivity]]|].
      eexists; split; [reflexivity|]. cbn. split; [|reflexivity].
      intros ky v. rewrite (tfind_tupd _ _ _ _ _ E). destruct (key_eqb ky (key_of c p x)) eqn:E3.
      + apply key_eqb_eq in E3. subst ky. intros [= <-]. exists kL; split; assumption.
      + apply Hle.
    - eexists; split; [reflexivity|]. cbn. split; [|reflexivity].
      intros ky v. rewrite tfind_app. destruct (tfind (tbl st) ky) eqn:E2.
      + intros [= <-]. apply Hle; assumption.
      + destruct (key_eqb ky (key_of c p x)) eqn:E3; [|discriminate].
        apply key_eqb_eq in E3. subst ky. intros [= <-]. exists kL; split; assumption.
  Qed.

  Lemma tset_flags_mono : forall st p x k st', tset c st p x k = Ok st' ->
    (changed st' = false -> changed st = false) /\ (swallowed st' = false -> swallowed st = false).
  Proof.
    intros st p x k st' H. destruct (tset_spec _ _ _ _ _ H) as [v [_ Hv]].
    destruct (tfind (tbl st) (key_of c p x)) as [old|].
    - destruct Hv as [(-> & _)|[(_ & _ & Ec & Es)|(_ & Ec & Es)]]; [auto|rewrite Ec, Es..]; split; auto; discriminate.
    - destruct Hv as [_ [Ec Es]]. rewrite Ec, Es. split; [|auto]. destruct (c_ins_changed c); [discriminate|auto].
  Qed.

  Lemma tset_swallowed : forall st p x k st', c_set_raises c = true -> tset c st p x k = Ok st' ->
    swallowed st' = swallowed st.
  Proof.
    intros st p x k st' Hr H. destruct (tset_spec _ _ _ _ _ H) as [v [_ Hv]].
    destruct (tfind (tbl st) (key_of c p x)) as [old|]; [|apply Hv].
    destruct Hv as [(-> & _)|[(_ & Hr' & _)|(_ & _ & Es)]]; congruence.
  Qed.

  Definition ext (st st' : tstate) : Prop :=
    good st -> good st' /\ tle (tbl st) (tbl st') /\
      (changed st' = false -> changed st = false) /\ (swallowed st' = false -> swallowed st = false).

  Lemma ext_refl : forall st, ext st st.
  Proof. intros st Hg. split; [assumption|]. split; [apply tle_refl|auto]. Qed.

  Lemma ext_trans : forall a b d, ext a b -> ext b d -> ext a d.
  Proof.
    intros a b d H1 H2 Hg. destruct (H1 Hg) as [Hg1 [L1 [C1 S1]]]. destruct (H2 Hg1) as [Hg2 [L2 [C2 S2]]].
    split; [assumption|]. split; [eapply tle_trans; eassumption|auto].
  Qed.

  Lemma tset_ext : forall st p x k st', k <> None -> tset c st p x k = Ok st' -> ext st st'.
  Proof.
    intros st p x k st' Hk H Hg.
    split; [eapply tset_good; eassumption|]. split; [eapply tset_grows; eassumption|].
    eapply tset_flags_mono; eassumption.
  Qed.

  Hypothesis Hins : c_ins_changed c = true.

  Lemma tset_nochange : forall st p x k st', tset c st p x k = Ok st' ->
    changed st' = false -> swallowed st' = false ->
    st' = st /\ exists old, tfind (tbl st) (key_of c p x) = Some old /\ (old = k \/ UU k old = Ok old).
  Proof.
    intros st p x k st' H Hc Hs. destruct (tset_spec _ _ _ _ _ H) as [v [_ Hv]].
    destruct (tfind (tbl st) (key_of c p x)) as [old|].
    - destruct Hv as [(-> & _ & Ho)|[(_ & _ & _ & Es)|(_ & Ec & _)]]; [|congruence..].
      split; [reflexivity|]. exists old. auto.
    - destruct Hv as [_ [Ec _]]. rewrite Hins in Ec. congruence.
  Qed.

End Tables.

Lemma set_loops_many : forall c l st p,
  set_loops c st p l = set_many c st p l (map (fun _ => Some KInt) l).
Proof.
  intros c. induction l as [|i r IH]; intros st p; cbn; [reflexivity|].
  destruct (tset c st p i (Some KInt)); [apply IH|reflexivity].
Qed.

(* Every loop of the finder that calls `set` for a list of names inherits what a single `set` guarantees;
   Q says which kinds are set. *)
Section Folds.
  Variable c : cfg.
  Variable Q : okind -> Prop.
  Variable R : tstate -> tstate -> Prop.
  Hypothesis R_refl : forall st, R st st.
  Hypothesis R_trans : forall a b d, R a b -> R b d -> R a d.
  Hypothesis R_tset : forall st p x k st', Q k -> tset c st p x k = Ok st' -> R st st'.

  Lemma set_many_rel : forall xs ks st p st', Forall Q ks -> set_many c st p xs ks = Ok st' -> R st st'.
  Proof.
    induction xs as [|x xs IH]; intros ks st p st' Hk; cbn; [intros [= <-]; apply R_refl|].
    destruct Hk as [|k ks Hk Hks]; [intros [= <-]; apply R_refl|].
    destruct (tset c st p x k) as [st1|e] eqn:E; [|discriminate].
    intro H. eapply R_trans; [eapply R_tset; eassumption|eapply IH; eassumption].
  Qed.

  Lemma set_forced_rel : forall l st st', (forall p x k, In (p, x, k) l -> Q k) ->
    set_forced c st l = Ok st' -> R st st'.
  Proof.
    induction l as [|[[p x] k] r IH]; intros st st' Hk; cbn; [intros [= <-]; apply R_refl|].
    destruct (tset c st p x k) as [st1|e] eqn:E; [|discriminate].
    intro H. eapply R_trans; [eapply R_tset; [eapply Hk; left; reflexivity|exact E]|].
    eapply IH; [|exact H]. intros p' x' k' Hin. eapply Hk. right; eassumption.
  Qed.

  Hypothesis Q_int : Q (Some KInt).

  Lemma set_loops_rel : forall l st p st', set_loops c st p l = Ok st' -> R st st'.
  Proof.
    intros l st p st'. rewrite set_loops_many. apply set_many_rel.
    induction l; cbn; constructor; assumption.
  Qed.

  Lemma prepass_rel : forall l st st', prepass c st l = Ok st' -> R st st'.
  Proof.
    induction l as [|it r IH]; intros st st'; cbn; [intros [= <-]; apply R_refl|].
    destruct (set_loops c st (fst it) (b_loops (snd it))) as [st1|e] eqn:E; [|discriminate].
    intro H. eapply R_trans; [eapply set_loops_rel; eassumption|eapply IH; eassumption].
  Qed.
End Folds.
