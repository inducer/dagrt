From Coq Require Import ZArith String List Bool Arith Permutation Lia.
Import ListNotations.
From Dagrt Require Import Match ListFacts.

Section expr_ind'.
  Variable P : expr -> Prop.
  Hypothesis HV : forall x, P (EVar x).
  Hypothesis HI : forall z, P (EInt z).
  Hypothesis HA : forall op cs, Forall P cs -> P (EAC op cs).
  Hypothesis HQ : forall a b, P a -> P b -> P (EQuot a b).
  Hypothesis HP : forall a b, P a -> P b -> P (EPow a b).
  Hypothesis HC : forall f args kw, P f -> Forall P args -> Forall (fun kv => P (snd kv)) kw ->
                                    P (ECall f args kw).
  Fixpoint expr_ind' (e : expr) : P e :=
    match e with
    | EVar x => HV x
    | EInt z => HI z
    | EAC op cs => HA op cs ((fix go (l : list expr) : Forall P l :=
                                match l with
                                | [] => Forall_nil P
                                | x :: l' => Forall_cons x (expr_ind' x) (go l')
                                end) cs)
    | EQuot a b => HQ a b (expr_ind' a) (expr_ind' b)
    | EPow a b => HP a b (expr_ind' a) (expr_ind' b)
    | ECall f args kw =>
        HC f args kw (expr_ind' f)
           ((fix go (l : list expr) : Forall P l :=
               match l with
               | [] => Forall_nil P
               | x :: l' => Forall_cons x (expr_ind' x) (go l')
               end) args)
           ((fix go (l : list (string * expr)) : Forall (fun kv => P (snd kv)) l :=
               match l with
               | [] => Forall_nil _
               | x :: l' => Forall_cons x (expr_ind' (snd x)) (go l')
               end) kw)
    end.
End expr_ind'.

(* induction over the terms whose calls have a symbol in function position (the side condition of C17): the
   induction hypotheses come without the premise *)
Lemma symb_ind (P : expr -> Prop) :
  (forall x, P (EVar x)) -> (forall z, P (EInt z)) ->
  (forall op cs, Forall P cs -> P (EAC op cs)) ->
  (forall a b, P a -> P b -> P (EQuot a b)) -> (forall a b, P a -> P b -> P (EPow a b)) ->
  (forall x args kw, Forall P args -> Forall (fun kv => P (snd kv)) kw -> P (ECall (EVar x) args kw)) ->
  forall e, call_fn_is_symbol e = true -> P e.
Proof.
  intros HV HI HA HQ HP HC.
  induction e as [x|z|op cs IH|a b IHa IHb|a b IHa IHb|f args kw _ IHa IHk] using expr_ind';
    cbn [call_fn_is_symbol]; rewrite ?andb_true_iff, ?forallb_Forall; intros H; auto.
  - apply HA. rewrite Forall_forall in *. auto.
  - destruct H. auto.
  - destruct H. auto.
  - destruct H as [[Hf Ha] Hk]. destruct f; try discriminate Hf. apply HC; rewrite Forall_forall in *; auto.
Qed.

(* the map over the values of a keyword list that canon, flatten, unify, subst and eval (Match.v) spell inline *)
Definition kwmap {A B} (g : A -> B) (l : list (string * A)) : list (string * B) :=
  map (fun kv : string * A => let (k, v) := kv in (k, g v)) l.

(* same key, values related by R *)
Definition kf_rel {A B} (R : A -> B -> Prop) (p : string * A) (q : string * B) : Prop :=
  fst p = fst q /\ R (snd p) (snd q).

Lemma Forall2_kwmap_self {A B} (R : A -> B -> Prop) (g : A -> B) l :
  Forall (fun kv => R (snd kv) (g (snd kv))) l -> Forall2 (kf_rel R) l (kwmap g l).
Proof. induction 1 as [|[k v] l Hv _ IH]; cbn; constructor; [now split | exact IH]. Qed.

Lemma kw_insert_map {A B} (g : A -> B) k v (l : list (string * A)) :
  kw_insert (k, g v) (kwmap g l) = kwmap g (kw_insert (k, v) l).
Proof.
  induction l as [|[k' v'] l IH]; cbn; [reflexivity|].
  destruct (String.leb k k'); cbn; [reflexivity|]. f_equal. exact IH.
Qed.

Lemma sort_kw_map {A B} (g : A -> B) (l : list (string * A)) :
  sort_kw (kwmap g l) = kwmap g (sort_kw l).
Proof.
  induction l as [|[k v] l IH]; cbn; [reflexivity|].
  unfold kwmap in IH. rewrite IH. apply kw_insert_map.
Qed.

Fixpoint ksorted {A} (l : list (string * A)) : Prop :=
  match l with
  | [] => True
  | kv :: l' => match l' with [] => True | kv' :: _ => String.leb (fst kv) (fst kv') = true end
                /\ ksorted l'
  end.

Lemma kw_insert_sorted {A} (kv : string * A) l : ksorted l -> ksorted (kw_insert kv l).
Proof.
  induction l as [|kv' l IH]; intros H; cbn [kw_insert].
  - cbn. auto.
  - destruct (String.leb (fst kv) (fst kv')) eqn:E.
    + cbn [ksorted]. split; [exact E|exact H].
    + destruct H as [H1 H2]. specialize (IH H2).
      assert (E' : String.leb (fst kv') (fst kv) = true).
      { destruct (String.leb_total (fst kv) (fst kv')) as [T|T]; congruence. }
      cbn [ksorted]. split; [|exact IH].
      destruct l as [|kv'' l]; cbn [kw_insert]; [exact E'|].
      destruct (String.leb (fst kv) (fst kv'')); [exact E'|exact H1].
Qed.

Lemma sort_kw_sorted {A} (l : list (string * A)) : ksorted (sort_kw l).
Proof. induction l; cbn [sort_kw]; [exact I|]. now apply kw_insert_sorted. Qed.

Lemma sorted_sort_kw {A} (l : list (string * A)) : ksorted l -> sort_kw l = l.
Proof.
  induction l as [|kv l IH]; intros H; [reflexivity|].
  destruct H as [H1 H2]. cbn [sort_kw]. rewrite (IH H2).
  destruct l as [|kv' l]; [reflexivity|]. cbn [kw_insert]. now rewrite H1.
Qed.

Lemma sort_kw_idem {A} (l : list (string * A)) : sort_kw (sort_kw l) = sort_kw l.
Proof. apply sorted_sort_kw, sort_kw_sorted. Qed.

Lemma kw_insert_perm {A} (kv : string * A) l : Permutation (kv :: l) (kw_insert kv l).
Proof.
  induction l as [|kv' l IH]; cbn [kw_insert]; [reflexivity|].
  destruct (String.leb (fst kv) (fst kv')); [reflexivity|].
  rewrite perm_swap. now constructor.
Qed.

Lemma sort_kw_perm {A} (l : list (string * A)) : Permutation l (sort_kw l).
Proof.
  induction l as [|kv l IH]; cbn [sort_kw]; [constructor|].
  rewrite <- kw_insert_perm. now constructor.
Qed.

Lemma kwmap_kwmap {A B C} (g : A -> B) (h : B -> C) l : kwmap h (kwmap g l) = kwmap (fun x => h (g x)) l.
Proof. unfold kwmap. rewrite map_map. apply map_ext. now intros [k v]. Qed.

Lemma kwmap_ext_in {A B} (g h : A -> B) l :
  Forall (fun kv => g (snd kv) = h (snd kv)) l -> kwmap g l = kwmap h l.
Proof.
  unfold kwmap. induction 1 as [|[k v] l Hx _ IH]; cbn [map]; [reflexivity|]. cbn in Hx. now rewrite Hx, IH.
Qed.

Lemma kwmap_fst {A B} (g : A -> B) l : map fst (kwmap g l) = map fst l.
Proof. unfold kwmap. rewrite map_map. apply map_ext. now intros [k v]. Qed.

Lemma kwmap_snd {A B} (g : A -> B) l : map snd (kwmap g l) = map g (map snd l).
Proof. unfold kwmap. rewrite !map_map. apply map_ext. now intros [k v]. Qed.

Lemma kwmap_length {A B} (g : A -> B) l : length (kwmap g l) = length l.
Proof. unfold kwmap. apply map_length. Qed.

Lemma acop_eqb_eq a b : acop_eqb a b = true -> a = b.
Proof. destruct a, b; cbn; congruence. Qed.

Lemma acop_eqb_refl a : acop_eqb a a = true.
Proof. now destruct a. Qed.

Lemma expr_seqb_eq a : forall b, expr_seqb a b = true -> a = b.
Proof.
  induction a as [x|z|op cs IH|a1 a2 IH1 IH2|a1 a2 IH1 IH2|f args kw IHf IHa IHk] using expr_ind';
    intros b H; destruct b as [y|z'|op' cs'|b1 b2|b1 b2|g args' kw']; cbn [expr_seqb] in H;
    try discriminate.
  - apply String.eqb_eq in H. now subst.
  - apply Z.eqb_eq in H. now subst.
  - apply andb_true_iff in H. destruct H as [Ho H]. apply acop_eqb_eq in Ho. subst op'. f_equal.
    revert cs' H. induction IH as [|x l Hx _ IHl]; intros [|y m] H; try discriminate; [reflexivity|].
    apply andb_true_iff in H. destruct H as [H1 H2]. f_equal; [now apply Hx|now apply IHl].
  - apply andb_true_iff in H. destruct H as [H1 H2]. f_equal; auto.
  - apply andb_true_iff in H. destruct H as [H1 H2]. f_equal; auto.
  - apply andb_true_iff in H. destruct H as [H Hk]. apply andb_true_iff in H. destruct H as [Hf Ha].
    f_equal.
    + now apply IHf.
    + clear Hk. revert args' Ha. induction IHa as [|x l Hx _ IHl]; intros [|y m] H; try discriminate;
        [reflexivity|].
      apply andb_true_iff in H. destruct H as [H1 H2]. f_equal; [now apply Hx|now apply IHl].
    + clear Ha. revert kw' Hk. induction IHk as [|[kx x] l Hx _ IHl]; intros [|[ky y] m] H;
        try discriminate; [reflexivity|].
      apply andb_true_iff in H. destruct H as [H H2]. apply andb_true_iff in H. destruct H as [H0 H1].
      apply String.eqb_eq in H0. subst ky. cbn in Hx. f_equal; [f_equal; now apply Hx|now apply IHl].
Qed.

(* Python's == on expressions, as a proposition: expr_eqb (Match.v) tests it (expr_eqb_keq) *)
Definition keq (a b : expr) : Prop := canon a = canon b.

Lemma keq_refl a : keq a a. Proof. reflexivity. Qed.
Lemma keq_sym a b : keq a b -> keq b a. Proof. unfold keq. congruence. Qed.
Lemma keq_trans a b c : keq a b -> keq b c -> keq a c. Proof. unfold keq. congruence. Qed.

Lemma expr_eqb_keq a b : expr_eqb a b = true -> keq a b.
Proof. unfold expr_eqb, keq. apply expr_seqb_eq. Qed.

Lemma canon_kw_eq kw :
  sort_kw (map (fun kv : string * expr => let (k, v) := kv in (k, canon v)) kw) = sort_kw (kwmap canon kw).
Proof. reflexivity. Qed.

Lemma canon_idem e : canon (canon e) = canon e.
Proof.
  induction e as [x|z|op cs IH|a b IHa IHb|a b IHa IHb|f args kw IHf IHa IHk] using expr_ind';
    cbn [canon]; try reflexivity.
  - f_equal. rewrite map_map. apply map_ext_in. intros c Hc. rewrite Forall_forall in IH. now apply IH.
  - now rewrite IHa, IHb.
  - now rewrite IHa, IHb.
  - f_equal.
    + exact IHf.
    + rewrite map_map. apply map_ext_in. intros c Hc. rewrite Forall_forall in IHa. now apply IHa.
    + change (sort_kw (kwmap canon (sort_kw (kwmap canon kw))) = sort_kw (kwmap canon kw)).
      rewrite <- sort_kw_map, sort_kw_idem. rewrite kwmap_kwmap. f_equal.
      apply kwmap_ext_in. exact IHk.
Qed.

Lemma canon_var_inv e x : canon e = EVar x -> e = EVar x.
Proof. destruct e; cbn; try discriminate. auto. Qed.

Notation "a ~~ b" := (AC1_equiv a b) (at level 70).

(* a congruence rule for one position of a list extends to the whole list; the induction is over the part still to
   be replaced, with the part already replaced (generalised from []) in front *)
Lemma AC_list_ctx {A} (R : A -> A -> Prop) (C : list A -> expr) :
  (forall l1 a b l2, R a b -> C (l1 ++ a :: l2) ~~ C (l1 ++ b :: l2)) ->
  forall l l', Forall2 R l l' -> C l ~~ C l'.
Proof.
  intros HC l l' H. change (C ([] ++ l) ~~ C ([] ++ l')). generalize (@nil A).
  induction H as [|a b l l' Hab _ IH]; intros pre; [apply AC_refl|].
  eapply AC_trans; [apply HC; exact Hab|].
  specialize (IH (pre ++ [b])). now rewrite <- !app_assoc in IH.
Qed.

Lemma AC_cong_all op l l' : Forall2 AC1_equiv l l' -> EAC op l ~~ EAC op l'.
Proof. apply AC_list_ctx. intros. now apply AC_cong. Qed.

Lemma AC_call_args_all f kw l l' : Forall2 AC1_equiv l l' -> ECall f l kw ~~ ECall f l' kw.
Proof. apply (AC_list_ctx _ (fun l => ECall f l kw)). intros. now apply AC_call_arg. Qed.

Lemma AC_call_kw_all f args l l' :
  Forall2 (kf_rel AC1_equiv) l l' -> ECall f args l ~~ ECall f args l'.
Proof.
  apply (AC_list_ctx _ (ECall f args)). intros l1 [k a] [k' b] l2 [Hk Hab]. cbn in Hk, Hab. subst k'.
  now apply AC_call_kw.
Qed.

Lemma kf_rel_build {A B} (R : A -> B -> Prop) : forall l l',
  map fst l = map fst l' -> Forall2 R (map snd l) (map snd l') -> Forall2 (kf_rel R) l l'.
Proof.
  induction l as [|[k v] l IH]; intros [|[k' v'] l'] Hk Hv; cbn in Hk, Hv; try discriminate; [constructor|].
  injection Hk as -> Hk. inversion Hv; subst. constructor; [split; auto|]. now apply IH.
Qed.

(* the shape in which map_call leaves a pair of calls: keyword arguments compared after sorting by key *)
Lemma AC_call_sorted f f' args args' kw kw' :
  keq f f' -> Forall2 AC1_equiv args args' ->
  map fst (sort_kw kw) = map fst (sort_kw kw') ->
  Forall2 AC1_equiv (map snd (sort_kw kw)) (map snd (sort_kw kw')) ->
  ECall f args kw ~~ ECall f' args' kw'.
Proof.
  intros Hf Ha Hk Hv.
  eapply AC_trans; [apply AC_call_fn; exact Hf|].
  eapply AC_trans; [exact (AC_call_args_all f' kw _ _ Ha)|].
  eapply AC_trans; [apply (AC_call_kwsort f' args' kw (sort_kw kw)); symmetry; apply sort_kw_idem|].
  eapply AC_trans; [apply AC_call_kw_all, kf_rel_build; eassumption|].
  apply AC_call_kwsort, sort_kw_idem.
Qed.

Lemma AC_nest_head op A B : EAC op (A ++ B) ~~ EAC op (EAC op A :: B).
Proof. apply AC_sym. exact (AC_assoc op [] A B). Qed.

Lemma AC_nest_tail op A B : EAC op (A ++ B) ~~ EAC op (A ++ [EAC op B]).
Proof. apply AC_sym. pose proof (AC_assoc op A B []) as H. now rewrite app_nil_r in H. Qed.

Lemma AC_app op A A' B B' :
  EAC op A ~~ EAC op A' -> EAC op B ~~ EAC op B' -> EAC op (A ++ B) ~~ EAC op (A' ++ B').
Proof.
  intros HA HB.
  eapply AC_trans; [apply AC_nest_head|].
  eapply AC_trans; [exact (AC_cong op [] _ _ B HA)|]. cbn [app].
  eapply AC_trans; [apply AC_sym, AC_nest_head|].
  eapply AC_trans; [apply AC_nest_tail|].
  eapply AC_trans; [exact (AC_cong op A' _ _ [] HB)|].
  apply AC_sym, AC_nest_tail.
Qed.

Lemma AC_concat op parts : EAC op (map (EAC op) parts) ~~ EAC op (concat parts).
Proof.
  induction parts as [|p ps IH]; cbn [map concat]; [apply AC_refl|].
  eapply AC_trans; [exact (AC_assoc op [] p _)|]. cbn [app].
  apply AC_app; [apply AC_refl|exact IH].
Qed.

Lemma AC_empty op : EInt (pym_ident op) ~~ EAC op [].
Proof.
  eapply AC_trans; [apply AC_sym, (AC_single op)|]. apply AC_ident.
Qed.

Lemma ac_terms_equiv op e : EAC op (ac_terms op e) ~~ EAC op [e].
Proof.
  induction e as [x|z|op' cs IH|a b IHa IHb|a b IHa IHb|f args kw IHf IHa IHk] using expr_ind';
    cbn [ac_terms]; try apply AC_refl.
  - destruct (Z.eqb z (pym_ident op)) eqn:E; [|apply AC_refl].
    apply Z.eqb_eq in E. subst z. apply AC_sym, AC_ident.
  - destruct (acop_eqb op op') eqn:E; [|apply AC_refl].
    apply acop_eqb_eq in E. subst op'.
    eapply AC_trans; [|apply AC_sym, AC_single].
    induction IH as [|c l Hc _ IHl]; cbn [flat_map]; [apply AC_refl|].
    exact (AC_app op _ [c] _ l Hc IHl).
Qed.

Lemma ac_terms_list_equiv op l : EAC op (flat_map (ac_terms op) l) ~~ EAC op l.
Proof.
  induction l as [|c l IH]; cbn [flat_map]; [apply AC_refl|].
  exact (AC_app op _ [c] _ l (ac_terms_equiv op c) IH).
Qed.

Lemma in_split_cong l (c : expr) : In c l -> exists l1 l2, l = l1 ++ c :: l2.
Proof. apply in_split. Qed.

Lemma AC_annih_in l c : In c l -> c ~~ EInt 0 -> EProd l ~~ EInt 0.
Proof.
  intros Hin Hc. destruct (in_split _ _ Hin) as (l1 & l2 & ->).
  eapply AC_trans; [apply AC_cong; exact Hc|].
  apply AC_annih, in_elt.
Qed.

Lemma prod_has_zero_equiv e : prod_has_zero e = true -> e ~~ EInt 0.
Proof.
  induction e as [x|z|op cs IH|a b IHa IHb|a b IHa IHb|f args kw IHf IHa IHk] using expr_ind';
    cbn [prod_has_zero]; try discriminate.
  - intros H. apply Z.eqb_eq in H. subst. apply AC_refl.
  - destruct op; [discriminate|]. intros H. apply existsb_exists in H. destruct H as (c & Hin & Hc).
    rewrite Forall_forall in IH. exact (AC_annih_in cs c Hin (IH c Hin Hc)).
Qed.

Lemma mk_ac_equiv op l : mk_ac op l ~~ EAC op l.
Proof.
  unfold mk_ac.
  destruct (match op with OProd => existsb prod_has_zero l | OSum => false end) eqn:Z.
  - destruct op; [discriminate|]. apply existsb_exists in Z. destruct Z as (c & Hin & Hc).
    apply AC_sym, (AC_annih_in l c Hin), prod_has_zero_equiv, Hc.
  - pose proof (ac_terms_list_equiv op l) as H.
    destruct (flat_map (ac_terms op) l) as [|a [|b r]].
    + eapply AC_trans; [apply AC_empty|exact H].
    + eapply AC_trans; [apply AC_sym, AC_single|exact H].
    + exact H.
Qed.

Lemma AC_canon e : e ~~ canon e.
Proof.
  induction e as [x|z|op cs IH|a b IHa IHb|a b IHa IHb|f args kw IHf IHa IHk] using expr_ind';
    cbn [canon]; try apply AC_refl.
  - apply AC_cong_all, Forall2_map_r, IH.
  - eapply AC_trans; [apply AC_quot_l; exact IHa|]. apply AC_quot_r; exact IHb.
  - eapply AC_trans; [apply AC_pow_l; exact IHa|]. apply AC_pow_r; exact IHb.
  - eapply AC_trans; [apply (AC_call_fn f (canon f)); now rewrite canon_idem|].
    eapply AC_trans; [apply (AC_call_args_all (canon f) kw), Forall2_map_r, IHa|].
    eapply AC_trans; [apply (AC_call_kw_all (canon f) (map canon args)), Forall2_kwmap_self, IHk|].
    apply AC_call_kwsort. symmetry. apply sort_kw_idem.
Qed.

Lemma keq_AC a b : keq a b -> a ~~ b.
Proof.
  intros H. eapply AC_trans; [apply AC_canon|]. unfold keq in H. rewrite H. apply AC_sym, AC_canon.
Qed.

Section Sem.
  Variable rho : string -> Z.
  Variable F : expr -> list Z -> list (string * Z) -> Z.
  Variable Q P : Z -> Z -> Z.
  Notation ev := (eval rho F Q P).

  Definition ac_bin (op : acop) (a b : Z) : Z := match op with OSum => (a + b)%Z | OProd => (a * b)%Z end.

  Lemma ac_fold_cons op x l : ac_fold op (x :: l) = ac_bin op x (ac_fold op l).
  Proof. now destruct op. Qed.

  Lemma ac_fold_app op a b : ac_fold op (a ++ b) = ac_bin op (ac_fold op a) (ac_fold op b).
  Proof.
    induction a as [|x a IH]; [destruct op; cbn [app ac_fold ac_bin fold_right]; lia|].
    cbn [app]. rewrite !ac_fold_cons, IH. destruct op; cbn [ac_bin]; lia.
  Qed.

  Lemma ac_fold_perm op l l' : Permutation l l' -> ac_fold op l = ac_fold op l'.
  Proof.
    induction 1 as [|x l l' _ IH|x y l|l l' l'' _ IH1 _ IH2]; [reflexivity| | |congruence].
    - now rewrite !ac_fold_cons, IH.
    - rewrite !ac_fold_cons. destruct op; cbn [ac_bin]; lia.
  Qed.

  Lemma prod_zero l : In 0%Z l -> ac_fold OProd l = 0%Z.
  Proof.
    induction l as [|x l IH]; [contradiction|]. intros [->|H]; cbn [ac_fold fold_right]; [lia|].
    cbn [ac_fold] in IH. rewrite (IH H). lia.
  Qed.

  Lemma eval_kw kw :
    map (fun kv : string * expr => let (k, v) := kv in (k, ev v)) kw = kwmap ev kw.
  Proof. reflexivity. Qed.

  Theorem AC1_sem a b : a ~~ b -> ev a = ev b.
  Proof.
    induction 1 as [e|a b _ IH|a b c _ IH1 _ IH2|op l1 a b l2 _ IH|a a' b _ IH|a b b' _ IH
                    |a a' b _ IH|a b b' _ IH|f f' args kw Hf|f l1 a b l2 kw _ IH|f args k1 n a b k2 _ IH
                    |f args kw kw' Hs|op l l' Hp|op l1 m l2|op l|op a|l Hin];
      cbn [eval]; try congruence.
    - rewrite !map_app. cbn [map]. now rewrite IH.
    - rewrite !map_app. cbn [map]. now rewrite IH.
    - rewrite !map_app. cbn [map]. now rewrite IH.
    - rewrite !eval_kw, !sort_kw_map. now rewrite Hs.
    - apply ac_fold_perm. now apply Permutation_map.
    - rewrite !map_app. cbn [map eval]. repeat (rewrite ac_fold_app || rewrite ac_fold_cons).
      destruct op; cbn [ac_bin]; lia.
    - cbn [map eval]. rewrite ac_fold_cons. destruct op; cbn [ac_bin pym_ident]; lia.
    - cbn [map]. rewrite ac_fold_cons. destruct op; cbn [ac_bin ac_fold fold_right]; lia.
    - apply prod_zero. change 0%Z with (ev (EInt 0)). now apply in_map.
  Qed.
End Sem.
