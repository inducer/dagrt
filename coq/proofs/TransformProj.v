(* The traced evaluation evalt (values and the log of user calls) projects to Lang.eval's values. *)
From Coq Require Import List ZArith NArith String Ascii Bool Arith Lia Permutation.
Import ListNotations.
From Dagrt Require Import Lang LangProofs Sched Transform TransformSem TransformSide TransformBasics.

Section Proj.
  Variable F : string -> list val -> list (string * val) -> option (list val).

  Lemma call1t_snd f kw vs : snd (call1t F f kw vs) = call1 F f kw vs.
  Proof. unfold call1t, call1. destruct (split_at _ vs) as [pos kws]. reflexivity. Qed.

  Lemma nfold_snd s o l :
    Forall (fun e => snd (evalt F s e) = snd (eval F s e)) l ->
    forall acc, snd (nfold_t F o s acc l) = snd (nfold F s o acc l).
  Proof.
    induction 1 as [|a l Ha _ IH]; intros acc; [reflexivity|]. cbn [nfold_t nfold].
    destruct (evalt F s a) as [r v], (eval F s a) as [r' v']. cbn in Ha. subst v'.
    destruct v as [x|u]; [|reflexivity]. destruct (nstep o acc x) as [acc'|]; [|reflexivity].
    specialize (IH acc'). destruct (nfold_t F o s acc' l), (nfold F s o acc' l). cbn in *. now subst.
  Qed.

  Lemma lazy_snd s stop l :
    Forall (fun e => snd (evalt F s e) = snd (eval F s e)) l ->
    snd (evalt F s (ENary (lazy_op stop) l)) = snd (eval F s (ENary (lazy_op stop) l)).
  Proof.
    assert (Ho : is_lazy (lazy_op stop) = true) by now destruct stop.
    assert (Ea : absorb (lazy_op stop) = stop) by now destruct stop.
    induction 1 as [|a l Ha _ IH]; [now rewrite evalt_lazy_nil, eval_lazy_nil, Ea|].
    rewrite evalt_lazy_cons, eval_lazy_cons, Ea by exact Ho.
    destruct (evalt F s a) as [r v], (eval F s a) as [r' v']. cbn in Ha. subst v'.
    destruct (rbind v _) as [b|u]; [|reflexivity]. destruct (Bool.eqb_spec b stop) as [->|]; [reflexivity|].
    destruct (evalt F s (ENary _ l)), (eval F s (ENary _ l)). exact IH.
  Qed.

  Lemma nfinish_snd o acc : snd (nfinish_t F o acc) = nfinish F o acc.
  Proof. destruct o, acc; try reflexivity. apply call1t_snd. Qed.

  Lemma evalt_snd s e : snd (evalt F s e) = snd (eval F s e).
  Proof.
    induction e as [z|b| |x|a IHa|c t e IHc IHt IHe|o a b IHa IHb|o l IH] using expr_ind';
      try reflexivity.
    - cbn [evalt eval]. destruct (evalt F s a) as [l v], (eval F s a) as [r v']. cbn in *. now subst.
    - cbn [evalt eval]. destruct (evalt F s c) as [l v], (eval F s c) as [r v']. cbn in IHc. subst v'.
      destruct (rbind v _) as [[|]|u]; cbn; try reflexivity.
      + destruct (evalt F s t), (eval F s t). cbn in *. now subst.
      + destruct (evalt F s e), (eval F s e). cbn in *. now subst.
    - cbn [evalt eval]. destruct (evalt F s a) as [l v], (eval F s a) as [r v']. cbn in IHa. subst v'.
      destruct v as [x|u]; cbn; try reflexivity.
      destruct (evalt F s b), (eval F s b). cbn in *. now subst.
    - destruct (is_lazy o) eqn:Ho;
        [destruct o; try discriminate; [apply (lazy_snd s false)|apply (lazy_snd s true)]; exact IH|].
      destruct (eval_nary_cases F o) as [E|[[|] ->]]; try discriminate.
      rewrite (evalt_nary F s o l Ho), E.
      pose proof (nfold_snd s o l IH (ninit o)) as Hg.
      destruct (nfold_t F o s (ninit o) l) as [r a], (nfold F s o (ninit o) l) as [r' a']. cbn in Hg. subst a'.
      destruct a as [acc|u]; cbn; [|reflexivity].
      pose proof (nfinish_snd o acc) as Hf. destruct (nfinish_t F o acc). cbn in *. now subst.
  Qed.
End Proj.
