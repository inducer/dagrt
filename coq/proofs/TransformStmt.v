(* TransformSpec.hoist one level up: khoist for what map_expressions makes of a statement kind, derived for what
   ms_generic puts in the place of a leaf (map_kind_r, ms_generic_r: every run on a statement without loops that
   returns; khoist has no rule for loop bounds, which the mappers rewrite too).  sspec is what the tree-level
   simulation asks of a statement-level function; a derived leaf meets it under the side conditions of the pass
   (derived_sspec over khoist_sem). *)
From Coq Require Import List ZArith NArith String Ascii Bool Arith Lia Permutation.
Import ListNotations.
From Dagrt Require Import Lang LangProofs Sched Transform TransformSem TransformSide TransformBasics TransformHoist
     TransformSpec TransformMappers TransformLeaf ListFacts.

Lemma mk_assign0 f x rhs st :
  map_kind_w true f (KAssign x None rhs []) st = bindw (f rhs) (fun rhs' => retw (KAssign x None rhs' [])) st.
Proof.
  unfold map_kind_w. rewrite bindw_retw_l. apply bindw_ext. intros rhs' st1.
  cbn [map seqw]. now rewrite bindw_retw_l.
Qed.

Lemma mk_assign1 f x ie rhs st :
  map_kind_w true f (KAssign x (Some ie) rhs []) st =
  bindw (f ie) (fun ie' => bindw (f rhs) (fun rhs' => retw (KAssign x (Some ie') rhs' []))) st.
Proof.
  unfold map_kind_w. rewrite bindw_assoc. apply bindw_ext. intros ie' st1.
  rewrite bindw_retw_l. apply bindw_ext. intros rhs' st2. cbn [map seqw]. now rewrite bindw_retw_l.
Qed.

Inductive khoist (p : pass) (cond : expr) : skind -> skind -> list tstmt -> list var -> list string -> Prop :=
| kh_id k : khoist p cond k k [] [] []
| kh_assign0 x rhs rhs' ns N I :
    hoist p cond rhs rhs' ns N I -> khoist p cond (KAssign x None rhs []) (KAssign x None rhs' []) ns N I
| kh_assign1 x ie ie' rhs rhs' ns N I :
    hoists p cond [ie; rhs] [ie'; rhs'] ns N I ->
    khoist p cond (KAssign x (Some ie) rhs []) (KAssign x (Some ie') rhs' []) ns N I
| kh_yield comp tid time time' e e' ns N I :
    hoists p cond [e; time] [e'; time'] ns N I ->
    khoist p cond (KYield comp tid time e) (KYield comp tid time' e') ns N I
(* a call statement hands the mapper its call as one expression and takes the call that comes back apart *)
| kh_call xs fn args kw fn' ks' l' ns N I pos kv :
    hoist p cond (call_expr fn args kw) (ENary (NCall fn' ks') l') ns N I ->
    split_at (List.length l' - List.length ks') l' = (pos, kv) ->
    khoist p cond (KCall xs fn args kw) (KCall xs fn' pos (combine ks' kv)) ns N I.

Lemma map_kind_r p cond f k :
  loopfree k = true -> (forall e, rspec p cond e (f e)) ->
  forall st k' ns xs st', map_kind_w true f k st = TOk (k', ns, xs, st') ->
    exists N I, ext st st' N I /\ incl xs I /\ khoist p cond k k' ns N I.
Proof.
  intros Hl Hf st k' ns xs st' E.
  destruct k as [x sub rhs loops|ys fn args kw|comp tid time e| | | |];
    try (revert E; apply runs_ret; constructor).
  - destruct loops; [|discriminate]. destruct sub as [ie|].
    + rewrite mk_assign1 in E. revert E. apply (runs_bind _ _ _ (khoist p cond _) (Hf ie)). intros ie' ns1 N1 I1 D1.
      apply (runs_bind _ _ _ _ (Hf rhs)). intros rhs' ns2 N2 I2 D2. apply runs_ret. apply kh_assign1.
      exact (hs_cons _ _ _ _ _ _ _ _ _ _ _ _ D1 (hs_cons _ _ _ _ _ _ _ _ _ _ _ _ D2 (hs_nil _ _))).
    + rewrite mk_assign0 in E. revert E. apply (runs_fmap _ _ _ (khoist p cond _) (Hf rhs)). intros rhs' ns1 N I D.
      now constructor.
  - cbn [map_kind_w] in E. revert E. apply (runs_bind _ _ _ (khoist p cond _) (Hf _)). intros r ns1 N1 I1 D1.
    destruct r as [| | | | | | |[| | | | | |fn' ks'] l']; try (intros st0 a0 ns0 xs0 st0' E0; discriminate).
    destruct (split_at (List.length l' - List.length ks') l') as [pos kv] eqn:Es. apply runs_ret. cbn [app].
    rewrite app_nil_r. exact (kh_call p cond ys fn args kw fn' ks' l' ns1 N1 I1 pos kv D1 Es).
  - cbn [map_kind_w] in E. revert E. apply (runs_bind _ _ _ (khoist p cond _) (Hf e)). intros e' ns1 N1 I1 D1.
    apply (runs_bind _ _ _ _ (Hf time)). intros time' ns2 N2 I2 D2. apply runs_ret. apply kh_yield.
    exact (hs_cons _ _ _ _ _ _ _ _ _ _ _ _ D1 (hs_cons _ _ _ _ _ _ _ _ _ _ _ _ D2 (hs_nil _ _))).
Qed.

Definition derived (p : pass) (s : tstmt) (l : list tstmt) (N : list var) (I : list string) : Prop :=
  exists ns k' deps', l = ns ++ [mkT (tid s) deps' (tcond s) k'] /\ khoist p (tcond s) (tkd s) k' ns N I.

Lemma ms_generic_r p (mp : expr -> list string -> expr -> MW expr) s :
  loopfree (tkd s) = true -> (forall c d e, rspec p c e (mp c d e)) ->
  forall st l st', ms_generic mp s st = TOk (l, st') -> exists N I, ext st st' N I /\ derived p s l N I.
Proof.
  intros Hl Hm st l st' E. unfold ms_generic in E.
  destruct (map_kind_w true (mp (tcond s) (tdeps s)) (tkd s) st) as [[[[k' ns] xs] st1]|e] eqn:Ek; [|discriminate].
  inversion E; subst l st1. clear E.
  destruct (map_kind_r p (tcond s) _ (tkd s) Hl (Hm _ _) _ _ _ _ _ Ek) as (N & I & X & _ & Hk).
  exists N, I. split; [exact X|]. exists ns, k', (tdeps s ++ xs). auto.
Qed.

Lemma khoist_emitted {p cond k k' ns N I} : khoist p cond k k' ns N I -> Forall (emitted cond N) ns.
Proof. intros H. destruct H; [constructor|eapply hoist_emitted|eapply hoists_emitted..|eapply hoist_emitted]; eassumption. Qed.

Lemma khoist_idcount {p cond k k' ns N I} : khoist p cond k k' ns N I -> idcount ns I.
Proof. intros H. destruct H; [apply idcount_nil|eapply hoist_idcount|eapply hoists_idcount..|eapply hoist_idcount]; eassumption. Qed.

Lemma khoist_writes {p cond k k' ns N I} : khoist p cond k k' ns N I -> kind_writes k' = kind_writes k.
Proof. intros H. now destruct H. Qed.

Lemma khoist_loopfree {p cond k k' ns N I} : khoist p cond k k' ns N I -> loopfree k = true -> loopfree k' = true.
Proof. intros H. now destruct H. Qed.

Lemma khoist_kvars {p cond k k' ns N I} : khoist p cond k k' ns N I -> incl (kvars k') (kvars k ++ N).
Proof.
  intros H. destruct H as [k|x rhs rhs' ns N I H|x ie ie' rhs rhs' ns N I H|comp tid time time' e e' ns N I H
                           |xs fn args kw fn' ks' l' ns N I pos kv H Es]; cbn [kvars flat_map app].
  - now apply incl_appl.
  - rewrite !app_nil_r. intros y [<-|Hy]; [now left|right; exact (hoist_vars H y Hy)].
  - pose proof (hoists_vars H) as V. cbn [flat_map] in V. rewrite !app_nil_r in *.
    intros y [<-|Hy]; [now left|right; exact (V y Hy)].
  - pose proof (hoists_vars H) as V. cbn [flat_map] in V. now rewrite !app_nil_r in V.
  - apply split_at_spec in Es. destruct Es as [-> _]. rewrite <- app_assoc.
    apply incl_app; [now apply incl_appl|apply incl_appr].
    (* the operands of the rewritten call are among those of the call that came back *)
    assert (V1 : incl (flat_map vars pos ++ flat_map vars (map snd (combine ks' kv))) (flat_map vars (pos ++ kv))).
    { rewrite flat_map_app. apply incl_app; [apply incl_appl, incl_refl|apply incl_appr, flat_map_incl, combine_snd_incl]. }
    rewrite <- (flat_map_app vars args (map snd kw)). exact (incl_tran V1 (hoist_vars H)).
Qed.

(* The side conditions of the pass on a statement kind.  Under the argument isolator the keywords of a call statement
   must be sorted too: the call is mapped as an expression, and the isolator sorts the keywords of every call. *)
Definition okk (p : pass) (k : skind) : Prop :=
  forallb (okp p) (kexprs k) = true /\
  (p = Pfai -> forall xs fn args kw, k = KCall xs fn args kw -> sorted_keys (map fst kw) = true).

Section Stmt.
  Variable F : string -> list val -> list (string * val) -> option (list val).
  Variable dg : bool.

  Notation run_block := (fold_left (fun S x => run_tree F dg x S)).

  Definition sspec (s : tstmt) (st : gst) (l : list tstmt) (st' : gst) : Prop :=
    exists N I ns s',
      l = ns ++ [s'] /\ ext st st' N I /\
      tid s' = tid s /\ tcond s' = tcond s /\ swr s' = swr s /\
      Forall (emitted (tcond s) N) ns /\ idcount ns I /\
      incl (svars s') (svars s ++ N) /\ loopfree (tkd s') = true /\
      (incl (svars s) (ex (gvars st)) ->
       forall a evs log,
         srel N (step_t F dg s (TRun a evs log)) (run_block (map TLeaf l) (TRun a evs log))).

  (* A call node that is still a call node afterwards was left alone or built again from its mapped operands (under
     the argument isolator: from its arguments in the order of the sorted keywords, which under the side conditions
     is the order they stand in): what is hoisted are the operands.  This is what a call STATEMENT needs, whose
     function may return any number of values, so that the hoisting of the call as an expression says nothing. *)
  Lemma hoist_call_operands p cond e r ns N I :
    hoist p cond e r ns N I -> forall f ks l f' ks' l', e = ENary (NCall f ks) l -> r = ENary (NCall f' ks') l' ->
    forallb (okp p) l = true -> (p = Pfai -> sorted_keys ks = true) -> (List.length ks <= List.length l)%nat ->
    f' = f /\ ks' = ks /\ List.length l' = List.length l /\
    forall K, incl (flat_map vars l) K -> incl (vars cond) K -> fresh_for K N -> hoisted_list F dg cond l l' ns N.
  Proof.
    intros H f ks l f' ks' l'.
    destruct H as [p cond a| | | |p cond o l0 l0' ns N I Hp Hd| |cond f0 kw l0 lp lk l0' ns N I Es Hd| |];
      intros Ee Er Hok Hs Hlen; try discriminate.
    - rewrite Ee in Er. injection Er as <- <- <-. repeat (split; [reflexivity|]). intros K _ _ _ s L vs _ E. exists [], s, L.
      split; [reflexivity|split; [apply same_off_refl|split; [exact E|apply Permutation_refl]]].
    - injection Er as -> <-. injection Ee as <- <- ->. repeat (split; [reflexivity|]). split; [exact (hoists_length Hd)|].
      intros K. exact (hoists_hoisted F dg Hd Hok K).
    - injection Er as <- <- <-. injection Ee as -> -> ->. destruct (args_sorted ks l lp lk (Hs eq_refl) Hlen Es) as [E1 E2]. rewrite E1, E2 in *.
      repeat (split; [reflexivity|]). split; [exact (hoists_length Hd)|].
      intros K. exact (hoists_hoisted F dg Hd Hok K).
  Qed.

  Lemma khoist_sem p cond k k' ns N I :
    khoist p cond k k' ns N I -> okk p k ->
    forall K, incl (kvars k) K -> incl (vars cond) K -> fresh_for K N -> khoisted F dg cond k k' ns N.
  Proof.
    intros H [Hok Hs] K Hv Hc Fr.
    destruct H as [k|x rhs rhs' ns N I H|x ie ie' rhs rhs' ns N I H|comp tid time time' e e' ns N I H
                   |xs fn args kw fn' ks' l' ns N I pos kv H Es]; cbn [kexprs kvars app flat_map forallb] in *.
    - apply khoisted_id.
    - apply khoisted_assign0. rewrite andb_true_r in Hok. apply (hoist_hoisted F dg H Hok K); [|exact Hc|exact Fr].
      intros y Hy. apply Hv. right. now rewrite !app_nil_r.
    - apply khoisted_assign1.
      + apply (hoists_hoisted F dg H Hok K); [|exact Hc|exact Fr].
        intros y Hy. apply Hv. right. cbn [flat_map] in Hy. now rewrite !app_nil_r in *.
      + intros Hin. apply (in_fresh_not_old _ _ _ Fr Hin). apply Hv. now left.
    - apply khoisted_yield. apply (hoists_hoisted F dg H Hok K); [|exact Hc|exact Fr].
      cbn [flat_map]. now rewrite app_nil_r.
    - destruct (hoist_call_operands _ _ _ _ _ _ _ H _ _ _ _ _ _ eq_refl eq_refl Hok (fun E => Hs E _ _ _ _ eq_refl)) as (-> & -> & Len & Hh).
      { rewrite app_length, !map_length. lia. }
      rewrite map_length in Es. rewrite app_length, map_length in Len.
      apply (khoisted_call F dg cond xs fn args kw l' ns N pos kv); [|exact Es|exact Len].
      apply (Hh K); [|exact Hc|exact Fr].
      rewrite flat_map_app. apply incl_app; intros y Hy; apply Hv; rewrite !in_app_iff; tauto.
  Qed.

  (* a leaf replaced by ns and the leaf itself with the kind k' *)
  Lemma leaf_sspec s st st' N I ns k' deps' :
    ext st st' N I -> has_call (tcond s) = false ->
    Forall (emitted (tcond s) N) ns -> idcount ns I -> incl (kvars k') (kvars (tkd s) ++ N) ->
    kind_writes k' = kind_writes (tkd s) -> loopfree k' = true ->
    (forall K, incl (kvars (tkd s)) K -> incl (vars (tcond s)) K -> fresh_for K N ->
               khoisted F dg (tcond s) (tkd s) k' ns N) ->
    sspec s st (ns ++ [mkT (tid s) deps' (tcond s) k']) st'.
  Proof.
    intros X Hnc G D V W L Hk. exists N, I, ns, (mkT (tid s) deps' (tcond s) k').
    split; [reflexivity|split; [exact X|split; [reflexivity|split; [reflexivity|split; [exact W|]]]]].
    split; [exact G|split; [exact D|split; [|split; [exact L|]]]].
    { unfold svars. cbn [tcond tkd]. rewrite <- app_assoc. exact (incl_app (incl_appl _ (incl_refl _)) (incl_appr _ V)). }
    intros Hv a evs log. destruct s as [id deps cond k]. cbn [tid tdeps tcond tkd] in *.
    pose proof (ext_fresh_vars _ _ _ _ X) as Fr. apply incl_app_inv in Hv. destruct Hv as [Hvc Hvk].
    apply leaf_block; [exact Hnc|exact (Hk _ Hvk Hvc Fr)|exact (emitted_guarded _ _ _ G)|exact (fresh_off _ _ N Fr Hvc)].
  Qed.

  Theorem derived_sspec p s st l st' N I :
    derived p s l N I -> ext st st' N I -> has_call (tcond s) = false -> loopfree (tkd s) = true -> okk p (tkd s) ->
    sspec s st l st'.
  Proof.
    intros (ns & k' & deps' & -> & Hk) X Hnc Hlf Hok.
    apply (leaf_sspec s st st' N I ns k' deps' X Hnc (khoist_emitted Hk) (khoist_idcount Hk) (khoist_kvars Hk)
                      (khoist_writes Hk) (khoist_loopfree Hk Hlf)).
    intros K. exact (khoist_sem p _ _ k' ns N I Hk Hok K).
  Qed.

  Lemma sspec_same s st st' : ext st st' [] [] -> loopfree (tkd s) = true -> sspec s st [s] st'.
  Proof.
    intros X Hl. exists [], [], [], s. split; [reflexivity|split; [exact X|]].
    repeat (split; [reflexivity|]). split; [constructor|split; [apply idcount_nil|]].
    split; [now apply incl_appl|split; [exact Hl|]].
    intros _ a evs log. cbn [map fold_left run_tree]. apply srel_refl.
  Qed.

  Lemma sspec_id s st : loopfree (tkd s) = true -> sspec s st [s] st.
  Proof. apply sspec_same, ext_refl. Qed.

  (* what the tree-level simulation reads off sspec *)
  Lemma sspec_leaf s st l st' :
    sspec s st l st' ->
    exists N I,
      ext st st' N I /\
      (forall y, count_occ string_dec (map tid l) y = (count_occ string_dec [tid s] y + count_occ string_dec I y)%nat) /\
      (incl (svars s) (ex (gvars st)) ->
       forall a evs log,
         srel N (step_t F dg s (TRun a evs log)) (run_block (map TLeaf l) (TRun a evs log))).
  Proof.
    intros (N & I & ns & s' & -> & X & Hid & _ & _ & _ & D & _ & _ & Hsim). exists N, I.
    split; [exact X|split; [|exact Hsim]].
    intros y. rewrite map_app, count_occ_app, D. cbn [map]. rewrite Hid. apply Nat.add_comm.
  Qed.

  (* one run of map_expressions in one statement *)
  Definition kspec (cond : expr) (k : skind) (st : gst) (k' : skind) (ns : list tstmt) (xs : list string)
             (st' : gst) : Prop :=
    exists N I,
      ext st st' N I /\ Forall (emitted cond N) ns /\ idcount ns I /\ incl xs I /\
      incl (kvars k') (kvars k ++ N) /\ kind_writes k' = kind_writes k /\ loopfree k' = true /\
      (incl (kvars k) (ex (gvars st)) -> incl (vars cond) (ex (gvars st)) -> khoisted F dg cond k k' ns N).

  Theorem map_kind_spec p cond f k :
    loopfree k = true -> (forall e, rspec p cond e (f e)) -> okk p k ->
    forall st k' ns xs st', map_kind_w true f k st = TOk (k', ns, xs, st') -> kspec cond k st k' ns xs st'.
  Proof.
    intros Hl Hf Hok st k' ns xs st' E.
    destruct (map_kind_r p cond f k Hl Hf _ _ _ _ _ E) as (N & I & X & S & Hk).
    exists N, I. split; [exact X|split; [exact (khoist_emitted Hk)|split; [exact (khoist_idcount Hk)|split; [exact S|]]]].
    split; [exact (khoist_kvars Hk)|split; [exact (khoist_writes Hk)|split; [exact (khoist_loopfree Hk Hl)|]]].
    intros Hv Hc. exact (khoist_sem p cond k k' ns N I Hk Hok _ Hv Hc (ext_fresh_vars _ _ _ _ X)).
  Qed.
End Stmt.
