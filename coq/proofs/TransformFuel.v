(* The search for an unused name never runs out of fuel (pytools' generator always
   terminates): there are more candidates than existing names and the candidates are pairwise
   distinct. *)
From Coq Require Import List ZArith NArith String Ascii Bool Arith Lia DecimalString DecimalN DecimalPos.
Import ListNotations.
From Dagrt Require Import Lang Transform TransformBasics StringFacts.

Lemma string_of_uint_inj d d' :
  d <> Decimal.Nil -> d' <> Decimal.Nil -> NilZero.string_of_uint d = NilZero.string_of_uint d' -> d = d'.
Proof.
  intros Hd Hd' H. pose proof (NilZero.usu d Hd) as H1. pose proof (NilZero.usu d' Hd') as H2.
  rewrite H in H1. rewrite H1 in H2. now inversion H2.
Qed.

Lemma N_to_uint_nonnil n : N.to_uint n <> Decimal.Nil.
Proof. destruct n; [discriminate|apply DecimalPos.Unsigned.to_uint_nonnil]. Qed.

Lemma decN_inj a b : decN a = decN b -> a = b.
Proof.
  unfold decN. intros H. apply string_of_uint_inj in H; try apply N_to_uint_nonnil.
  now apply DecimalN.Unsigned.to_uint_inj.
Qed.

Definition cand (p : string) (n : N) : string := (p ++ "_" ++ decN n)%string.

Lemma cand_inj p a b : cand p a = cand p b -> a = b.
Proof. unfold cand. intros H. apply append_inv_head in H. apply (append_inv_head "_") in H. now apply decN_inj. Qed.

Lemma smem_remove x y l : x <> y -> smem x (remove string_dec y l) = smem x l.
Proof.
  intros Hxy. destruct (smem x l) eqn:E.
  - apply smem_In. apply smem_In in E. now apply in_in_remove.
  - apply smem_false. apply smem_false in E. intros H. apply E. eapply in_remove. exact H.
Qed.

Lemma search_remove fuel : forall e p n m,
  (m < n)%N -> search fuel (remove string_dec (cand p m) e) p n = search fuel e p n.
Proof.
  induction fuel as [|f IH]; intros e p n m Hm; [reflexivity|]. cbn [search]. fold (cand p n).
  rewrite smem_remove by (intros H; apply cand_inj in H; lia).
  destruct (smem (cand p n) e); [|reflexivity]. apply IH. lia.
Qed.

Lemma search_total fuel : forall e p n,
  (List.length e < fuel)%nat -> exists c nm, search fuel e p n = Some (c, nm).
Proof.
  induction fuel as [|f IH]; intros e p n H; [lia|]. cbn [search]. fold (cand p n).
  destruct (smem (cand p n) e) eqn:E; [|eauto].
  (* the measure: a taken candidate is removed from e; the later candidates differ from it, so the search goes on
     as before (search_remove), in a list that has become shorter than the fuel left *)
  apply smem_In in E. rewrite <- (search_remove f e p (N.succ n) n) by lia.
  apply IH. pose proof (remove_length_lt string_dec _ _ E). lia.
Qed.

Lemma search0_total e p c : exists c' nm, search0 e p c = Some (c', nm).
Proof.
  unfold search0. destruct c as [n|].
  - apply search_total. lia.
  - destruct (smem p e); [apply search_total; lia|eauto].
Qed.

(* UniqueNameGenerator.__call__ always returns *)
Theorem gen_total g b : exists n g', gen g b = Some (n, g').
Proof.
  unfold gen. destruct (match assoc b (ctr g) with Some c => _ | None => _ end) as [b' c].
  destruct (search0_total (ex g) b' c) as (c' & nm & ->). eauto.
Qed.

Corollary genv_total b st : exists n st', genv b st = TOk (n, st').
Proof. unfold genv. destruct (gen_total (gvars st) b) as (n & g' & ->). eauto. Qed.

Corollary geni_total b st : exists n st', geni b st = TOk (n, st').
Proof. unfold geni. destruct (gen_total (gids st) b) as (n & g' & ->). eauto. Qed.
