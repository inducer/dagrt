(* C13 -- the name mapping of model/Names.v.  pytools' UniqueNameGenerator never runs out of candidates and returns
   a new name of a known shape (gen_call_cases, out_shape).  On top of that, for the Python and for the Fortran name
   manager: no sequence of calls fails, a repeated request repeats its answer, different (name space, key) pairs
   get different names, and the names are legal, not reserved and in the right storage class -- with
   counterexamples where the code falls short of that. *)
From Coq Require Import List String Ascii Bool Arith NArith DecimalString FinFun.
From Dagrt Require Import GenC13 Names ListFacts StringFacts.
Import ListNotations.
Open Scope string_scope.

Lemma prefix_trans p q v : prefix p q = true -> prefix q v = true -> prefix p v = true.
Proof. intros [r ->]%prefix_split [t ->]%prefix_split. rewrite append_assoc. apply prefix_append. Qed.

Lemma prefix_comparable p q s :
  prefix p s = true -> prefix q s = true -> prefix p q = true \/ prefix q p = true.
Proof.
  revert q s; induction p as [|c p IH]; intros q s Hp Hq.
  - left. destruct q; reflexivity.
  - destruct q as [|d q]; [right; reflexivity|].
    destruct s as [|e s]; cbn in Hp, Hq; [discriminate|].
    destruct (ascii_dec c e) as [->|]; [|discriminate].
    destruct (ascii_dec d e) as [->|]; [|discriminate].
    cbn. destruct (ascii_dec e e); [|congruence]. exact (IH q s Hp Hq).
Qed.

Lemma incomparable_prefix_false p q v :
  prefix p q = false -> prefix q p = false -> prefix p v = true -> prefix q v = false.
Proof.
  intros A B C. destruct (prefix q v) eqn:E; [|reflexivity].
  destruct (prefix_comparable _ _ _ C E); congruence.
Qed.

Lemma not_in_by_prefix p v l :
  forallb (fun r => negb (prefix p r)) l = true -> prefix p v = true -> existsb (String.eqb v) l = false.
Proof.
  intros A B. apply existsb_str_nIn. intros E. rewrite forallb_forall in A. specialize (A _ E).
  now rewrite B in A.
Qed.

Lemma sall_app p a b : sall p (a ++ b) = sall p a && sall p b.
Proof. induction a as [|c a IH]; cbn; [reflexivity | now rewrite IH, andb_assoc]. Qed.

Lemma smap_app f a b : smap f (a ++ b) = smap f a ++ smap f b.
Proof. induction a as [|c a IH]; cbn; [reflexivity | now rewrite IH]. Qed.

Lemma sall_impl (p q : ascii -> bool) s :
  (forall c, p c = true -> q c = true) -> sall p s = true -> sall q s = true.
Proof.
  intros H; induction s as [|c s IH]; cbn; [reflexivity|].
  rewrite !andb_true_iff. intros [A B]; auto.
Qed.

Lemma sall_smap p f s : (forall c, p (f c) = true) -> sall p (smap f s) = true.
Proof. intros H; induction s as [|c s IH]; cbn; [reflexivity | now rewrite H, IH]. Qed.

Lemma smem_sall p c s : sall p s = true -> smem c s = true -> p c = true.
Proof.
  induction s as [|d s IH]; cbn; [discriminate|]. rewrite andb_true_iff, orb_true_iff.
  intros [A B] [E|E]; auto. apply Ascii.eqb_eq in E. now subst.
Qed.

Lemma first_is_app p a b : first_is p a = true -> first_is p (a ++ b) = true.
Proof. destruct a; cbn; [discriminate | auto]. Qed.

Lemma first_is_prefix q p v : first_is q p = true -> prefix p v = true -> first_is q v = true.
Proof. intros A [r ->]%prefix_split. now apply first_is_app. Qed.

Lemma first_is_nonempty p s : first_is p s = true -> s <> "".
Proof. destruct s; cbn; congruence. Qed.

Lemma first_not_us b : first_is (fun c => negb (is_us c)) b = true -> first_is is_us b = false.
Proof. destruct b; cbn; [discriminate | now intros ->%negb_true_iff]. Qed.

Lemma is_empty_true s : is_empty s = true <-> s = "".
Proof. destruct s; cbn; split; congruence. Qed.

Lemma is_empty_false s : is_empty s = false <-> s <> "".
Proof. destruct s; cbn; split; congruence. Qed.

(* [lower] is Fortran's comparison in C13_injective_f.  The generator proofs need of it only that it fixes a
   counter, i.e. digits. *)

Lemma between_iff lo hi c :
  ascii_between lo hi c = true <-> (N_of_ascii lo <= N_of_ascii c <= N_of_ascii hi)%N.
Proof. unfold ascii_between. now rewrite andb_true_iff, !N.leb_le. Qed.

Lemma between_apart lo hi lo' hi' c :
  (N_of_ascii hi < N_of_ascii lo')%N \/ (N_of_ascii hi' < N_of_ascii lo)%N ->
  ascii_between lo hi c = true -> ascii_between lo' hi' c = false.
Proof.
  intros D H. apply not_true_iff_false. rewrite between_iff in *. destruct H as [H1 H2]. intros [A B].
  apply (N.lt_irrefl (N_of_ascii c)). destruct D as [D|D].
  - exact (N.le_lt_trans _ _ _ H2 (N.lt_le_trans _ _ _ D A)).
  - exact (N.le_lt_trans _ _ _ B (N.lt_le_trans _ _ _ D H1)).
Qed.

Lemma is_us_eq c : is_us c = true <-> c = "_"%char.
Proof. unfold is_us. apply Ascii.eqb_eq. Qed.

Lemma between_not_us lo hi c : ascii_between lo hi "_" = false -> ascii_between lo hi c = true -> is_us c = false.
Proof. intros N H. apply not_true_iff_false. intros ->%is_us_eq. congruence. Qed.

Lemma digit_not_upper c : is_digit c = true -> is_upper c = false.
Proof. apply between_apart. now left. Qed.

Lemma lower_not_upper c : is_lower c = true -> is_upper c = false.
Proof. apply between_apart. now right. Qed.

Lemma digit_not_us c : is_digit c = true -> is_us c = false.
Proof. now apply between_not_us. Qed.

Lemma digits_no_us e : sall is_digit e = true -> sall (fun c => negb (is_us c)) e = true.
Proof. apply sall_impl. intros c D. now rewrite (digit_not_us _ D). Qed.

Lemma digit_word c : is_digit c = true -> is_word c = true.
Proof. unfold is_word. intros ->. now rewrite orb_true_r. Qed.

Lemma us_word c : is_us c = true -> is_word c = true.
Proof. unfold is_word. intros ->. apply orb_true_r. Qed.

Lemma to_lower_upper c : is_upper c = true -> is_lower (to_lower c) = true.
Proof.
  intros U. unfold to_lower. rewrite U. apply between_iff in U as [U1 U2]. apply between_iff.
  (* the code of "a" is that of "A" plus 32, and likewise for "z" *)
  rewrite N_ascii_embedding.
  - split; [exact (proj1 (N.add_le_mono_r _ _ 32) U1) | exact (proj1 (N.add_le_mono_r _ _ 32) U2)].
  - apply N.le_lt_trans with (N_of_ascii "Z" + 32)%N; [apply N.add_le_mono_r, U2 | reflexivity].
Qed.

Lemma to_lower_other c : is_upper c = false -> to_lower c = c.
Proof. unfold to_lower. now intros ->. Qed.

Lemma to_lower_digit c : is_digit c = true -> to_lower c = c.
Proof. intros D. apply to_lower_other, digit_not_upper, D. Qed.

Lemma to_lower_cases c : to_lower c = c \/ (is_upper c = true /\ is_lower (to_lower c) = true).
Proof.
  destruct (is_upper c) eqn:U; [right; auto using to_lower_upper | left; now apply to_lower_other].
Qed.

Lemma to_lower_idem c : to_lower (to_lower c) = to_lower c.
Proof.
  destruct (to_lower_cases c) as [E|[_ L]]; [now rewrite !E | apply to_lower_other, lower_not_upper, L].
Qed.

Lemma to_lower_letter c : is_letter (to_lower c) = is_letter c.
Proof.
  destruct (to_lower_cases c) as [->|[U L]]; [reflexivity|]. unfold is_letter. now rewrite U, L, orb_true_r.
Qed.

Lemma to_lower_us c : is_us (to_lower c) = is_us c.
Proof.
  destruct (to_lower_cases c) as [->|[U L]]; [reflexivity|].
  now rewrite (between_not_us "A" "Z" c), (between_not_us "a" "z" (to_lower c)).
Qed.

Lemma to_lower_word c : is_word (to_lower c) = is_word c.
Proof.
  destruct (to_lower_cases c) as [->|[U L]]; [reflexivity|].
  unfold is_word, is_letter. now rewrite U, L, orb_true_r.
Qed.

Lemma lower_app a b : lower (a ++ b) = lower a ++ lower b.
Proof. apply smap_app. Qed.

Lemma prefix_lower p v : prefix p v = true -> prefix (lower p) (lower v) = true.
Proof. intros [r ->]%prefix_split. rewrite lower_app. apply prefix_append. Qed.

Lemma lower_digits s : sall is_digit s = true -> lower s = s.
Proof.
  unfold lower. induction s as [|c s IH]; cbn; [reflexivity|]. rewrite andb_true_iff. intros [A B].
  now rewrite to_lower_digit, IH.
Qed.

Lemma lower_idem s : lower (lower s) = lower s.
Proof. unfold lower. induction s as [|c s IH]; cbn; [reflexivity | now rewrite to_lower_idem, IH]. Qed.

Lemma sall_word_lower s : sall is_word (lower s) = sall is_word s.
Proof. unfold lower. induction s as [|c s IH]; cbn; [reflexivity | now rewrite to_lower_word, IH]. Qed.

Lemma length_lower s : String.length (lower s) = String.length s.
Proof. unfold lower. induction s as [|c s IH]; cbn; [reflexivity | now rewrite IH]. Qed.

Lemma string_of_uint_digits d : sall is_digit (NilEmpty.string_of_uint d) = true.
Proof. induction d; cbn; try reflexivity; exact IHd. Qed.

Lemma dec_digits n : sall is_digit (dec n) = true.
Proof. apply string_of_uint_digits. Qed.

Lemma dec_word n : sall is_word (dec n) = true.
Proof. apply sall_impl with (p := is_digit); [apply digit_word | apply dec_digits]. Qed.

Lemma lower_dec n : lower (dec n) = dec n.
Proof. apply lower_digits, dec_digits. Qed.

Lemma numbered_app p b n : numbered (p ++ b) n = p ++ numbered b n.
Proof. apply append_assoc. Qed.

Lemma prefix_numbered p base n : prefix p base = true -> prefix p (numbered base n) = true.
Proof. apply prefix_append_l. Qed.

Lemma sall_numbered base n : sall is_word base = true -> sall is_word (numbered base n) = true.
Proof.
  intros W. unfold numbered. rewrite sall_app, W. change ("_" ++ dec n) with (String "_" (dec n)).
  cbn [sall]. rewrite dec_word. reflexivity.
Qed.

Lemma nrm_numbered cf base n : nrm cf (numbered base n) = numbered (nrm cf base) n.
Proof.
  destruct cf; cbn; [|reflexivity]. unfold numbered.
  rewrite !lower_app, lower_dec. reflexivity.
Qed.

Lemma numbered_inj base n m : numbered base n = numbered base m -> n = m.
Proof.
  unfold numbered. intros H. apply append_inv_head in H. cbn in H. injection H as H.
  now apply string_of_N_inj.
Qed.

Lemma nrm_numbered_inj cf base n m : nrm cf (numbered base n) = nrm cf (numbered base m) -> n = m.
Proof. rewrite !nrm_numbered. apply numbered_inj. Qed.

Lemma numbered_neq_base cf base n : nrm cf (numbered base n) <> nrm cf base.
Proof.
  rewrite nrm_numbered. intros H. enough (E : "_" ++ dec n = "") by discriminate.
  apply (append_inv_head (nrm cf base)). now rewrite append_nil_r.
Qed.

Lemma conflicting_true cf ex name :
  conflicting cf ex name = true <-> In (nrm cf name) (map (nrm cf) ex).
Proof.
  unfold conflicting. rewrite existsb_exists, in_map_iff. split.
  - intros [e [Hin He]]. apply String.eqb_eq in He. eauto.
  - intros [e [He Hin]]. exists e. split; [exact Hin | now apply String.eqb_eq].
Qed.

Lemma conflicting_false cf ex name :
  conflicting cf ex name = false <-> ~ In (nrm cf name) (map (nrm cf) ex).
Proof. rewrite <- conflicting_true. destruct (conflicting cf ex name); split; congruence. Qed.

Lemma conflicting_false_id ex v : conflicting false ex v = false <-> ~ In v ex.
Proof. rewrite conflicting_false. cbn. now rewrite map_id. Qed.

Lemma search_some cf ex base fuel n c name :
  search cf ex base fuel n = Some (c, name) ->
  exists m, name = numbered base m /\ c = N.succ m /\ conflicting cf ex name = false.
Proof.
  revert n; induction fuel as [|f IH]; intros n H; cbn in H; [discriminate|].
  destruct (conflicting cf ex (numbered base n)) eqn:E.
  - eauto.
  - injection H as <- <-. eauto.
Qed.

Lemma search_none cf ex base fuel n :
  search cf ex base fuel n = None ->
  forall i, i < fuel -> conflicting cf ex (numbered base (n + N.of_nat i)) = true.
Proof.
  revert n; induction fuel as [|f IH]; intros n H i Hi; [now apply Nat.nlt_0_r in Hi|]. cbn in H.
  destruct (conflicting cf ex (numbered base n)) eqn:E; [|discriminate].
  destruct i as [|i].
  - now rewrite N.add_0_r.
  - rewrite Nat2N.inj_succ, N.add_succ_r, <- N.add_succ_l. apply (IH _ H). now apply Nat.succ_lt_mono.
Qed.

(* pigeonhole: the [fuel] candidates and the names in l are pairwise different and all among the existing names *)
Lemma search_none_bound cf ex base fuel n l :
  search cf ex base fuel n = None ->
  NoDup l -> incl l (map (nrm cf) ex) -> (forall i, ~ In (nrm cf (numbered base (n + N.of_nat i))) l) ->
  List.length l + fuel <= List.length ex.
Proof.
  intros H NDl Il Dis. rewrite <- (map_length (nrm cf) ex).
  apply (candidates_length (fun i => nrm cf (numbered base (n + N.of_nat i)))); auto.
  - intros i j E. apply nrm_numbered_inj, N.add_cancel_l in E. now apply Nat2N.inj.
  - intros i Hi. apply conflicting_true. exact (search_none _ _ _ _ _ H i Hi).
Qed.

Lemma search_adequate cf ex base n : search cf ex base (S (List.length ex)) n <> None.
Proof.
  intros H. apply (Nat.nle_succ_diag_l (List.length ex)).
  exact (search_none_bound _ _ _ _ _ [] H (NoDup_nil _) (incl_nil_l _) (fun _ X => X)).
Qed.

(* the unnumbered candidate and |existing| numbered ones *)
Lemma search_adequate_bare cf ex base :
  conflicting cf ex base = true -> search cf ex base (List.length ex) 0%N <> None.
Proof.
  intros C H. apply (Nat.nle_succ_diag_l (List.length ex)).
  apply (search_none_bound _ _ _ _ _ [nrm cf base] H).
  - repeat constructor. intros [].
  - intros x [<-|[]]. now apply conflicting_true.
  - intros i [E|[]]. symmetry in E. now apply numbered_neq_base in E.
Qed.

Lemma rsplit_app s a b : rsplit s = Some (a, b) -> s = a ++ "_" ++ b.
Proof.
  revert a b; induction s as [|c s IH]; intros a b H; cbn in H; [discriminate|].
  destruct (rsplit s) as [[a' b']|] eqn:E.
  - injection H as <- <-. cbn. now rewrite (IH _ _ eq_refl).
  - destruct (is_us c) eqn:U; [|discriminate]. injection H as <- <-. apply is_us_eq in U. now subst.
Qed.

Lemma rsplit_no_us s : sall (fun c => negb (is_us c)) s = true -> rsplit s = None.
Proof.
  induction s as [|c s IH]; cbn; [reflexivity|]. rewrite andb_true_iff. intros [A B].
  rewrite (IH B). apply negb_true_iff in A. now rewrite A.
Qed.

Lemma rsplit_last a e : sall (fun c => negb (is_us c)) e = true -> rsplit (a ++ "_" ++ e) = Some (a, e).
Proof.
  intros He. induction a as [|c a IH]; cbn.
  - now rewrite (rsplit_no_us _ He).
  - cbn in IH. now rewrite IH.
Qed.

Lemma rsplit_head h s a b :
  sall (fun c => negb (is_us c)) h = true -> rsplit (h ++ s) = Some (a, b) ->
  exists a0, a = h ++ a0 /\ rsplit s = Some (a0, b).
Proof.
  revert a; induction h as [|c h IH]; intros a Hh H.
  - exists a. auto.
  - cbn in Hh. apply andb_true_iff in Hh as [Hc Hh]. apply negb_true_iff in Hc.
    cbn in H. destruct (rsplit (h ++ s)) as [[a' b']|] eqn:E.
    + injection H as <- <-. destruct (IH _ Hh eq_refl) as [a0 [-> R]]. exists a0. auto.
    + rewrite Hc in H. discriminate.
Qed.

Lemma rsplit_us_cons s a b :
  rsplit (String "_" s) = Some (a, b) -> a = "" \/ exists a', a = String "_" a'.
Proof.
  cbn. destruct (rsplit s) as [[a' b']|]; intros H; injection H as <- <-; eauto.
Qed.

Lemma split_counter_some s a n :
  split_counter s = Some (a, n) ->
  exists d, rsplit s = Some (a, d) /\ a <> "" /\ sall is_word a = true /\ sall is_digit d = true.
Proof.
  unfold split_counter. destruct (rsplit s) as [[a' b']|]; [|discriminate].
  destruct (negb (is_empty a') && sall is_word a' && negb (is_empty b') && sall is_digit b') eqn:C; [|discriminate].
  intros H; injection H as <- <-.
  rewrite !andb_true_iff in C. destruct C as [[[C1 C2] C3] C4].
  apply negb_true_iff, is_empty_false in C1. eauto.
Qed.

Lemma split_counter_word s : sall is_word s = false -> split_counter s = None.
Proof.
  intros H. destruct (split_counter s) as [[a n]|] eqn:E; [|reflexivity].
  apply split_counter_some in E as [d [->%rsplit_app [_ [Wa Wd]]]].
  rewrite !sall_app, Wa in H. cbn in H.
  rewrite (sall_impl _ _ _ digit_word Wd) in H. discriminate.
Qed.

Lemma split_counter_no_us h : sall (fun c => negb (is_us c)) h = true -> split_counter h = None.
Proof. intros H. unfold split_counter. now rewrite rsplit_no_us. Qed.

Lemma split_counter_us_end x : split_counter (x ++ "_") = None.
Proof.
  unfold split_counter. change (x ++ "_") with (x ++ "_" ++ ""). now rewrite (rsplit_last x "" eq_refl), andb_false_r.
Qed.

Definition out_shape (fp b v : string) : Prop :=
  v = fp ++ b \/
  exists base n, v = numbered base n /\
                 (base = fp ++ b \/ exists m, split_counter (fp ++ b) = Some (base, m)).

Lemma base_and_counter_spec g b0 base c :
  base_and_counter g b0 = (base, c) ->
  (base = b0 \/ exists m, split_counter b0 = Some (base, m)) /\
  (c = None -> base = b0).
Proof.
  unfold base_and_counter. destruct (assoc b0 (g_counters g)) as [c'|].
  - intros H; injection H as <- <-. split; [auto | auto].
  - destruct (split_counter b0) as [[a n]|] eqn:E; intros H; injection H as <- <-.
    + split; [eauto | discriminate].
    + split; auto.
Qed.

Lemma gen_call_cases cf g b :
  match gen_call cf g b with
  | Ok (v, g') => out_shape (g_fp g) b v /\ conflicting cf (g_existing g) v = false /\
                  g_existing g' = v :: g_existing g /\ g_fp g' = g_fp g
  | OutOfFuel => exists base,
      (exists n, search cf (g_existing g) base (S (List.length (g_existing g))) n = None) \/
      (conflicting cf (g_existing g) base = true /\
       search cf (g_existing g) base (List.length (g_existing g)) 0%N = None)
  | ValueError => False
  end.
Proof.
  unfold gen_call. destruct (base_and_counter g (g_fp g ++ b)) as [base c] eqn:BC. cbn [fst snd].
  apply base_and_counter_spec in BC as [B1 B2].
  destruct c as [n|].
  - destruct (search cf (g_existing g) base (S (List.length (g_existing g))) n) as [[c name]|] eqn:S; [|eauto].
    apply search_some in S as [m [-> [_ C]]]. repeat split; auto. right. exists base, m. auto.
  - specialize (B2 eq_refl). subst base.
    destruct (conflicting cf (g_existing g) (g_fp g ++ b)) eqn:C.
    + destruct (search cf (g_existing g) (g_fp g ++ b) (List.length (g_existing g)) 0%N) as [[c name]|] eqn:S;
        [|eauto].
      apply search_some in S as [m [-> [_ C']]]. repeat split; auto. right. exists (g_fp g ++ b), m. auto.
    + repeat split; auto. now left.
Qed.

Theorem gen_call_spec cf g b v g' :
  gen_call cf g b = Ok (v, g') ->
  out_shape (g_fp g) b v /\
  conflicting cf (g_existing g) v = false /\
  g_existing g' = v :: g_existing g /\ g_fp g' = g_fp g.
Proof. intros H. pose proof (gen_call_cases cf g b) as P. now rewrite H in P. Qed.

Theorem gen_call_total cf g b : exists v g', gen_call cf g b = Ok (v, g').
Proof.
  pose proof (gen_call_cases cf g b) as P. destruct (gen_call cf g b) as [[v g']| |]; [eauto | | destruct P].
  destruct P as [base [[n S]|[C S]]]; [now apply search_adequate in S | now apply search_adequate_bare in S].
Qed.

Lemma gen_call_not_error cf g b : gen_call cf g b <> OutOfFuel /\ gen_call cf g b <> ValueError.
Proof. destruct (gen_call_total cf g b) as [v [g' ->]]. split; discriminate. Qed.

Example ex_gen_call :
  gen_call false (mkGen "local" ["localy_1"; "localy"] [("localy", 2%N)]) "y_1"
  = Ok ("localy_2", mkGen "local" ["localy_2"; "localy_1"; "localy"] [("localy", 3%N); ("localy", 2%N)]).
Proof. reflexivity. Qed.

Lemma out_shape_closed (P : string -> Prop) fp b v :
  P (fp ++ b) ->
  (forall a m, split_counter (fp ++ b) = Some (a, m) -> P a) ->
  (forall base n, P base -> P (numbered base n)) ->
  out_shape fp b v -> P v.
Proof. intros H0 Hs Hn [->|[base [n [-> [->|[m S]]]]]]; eauto. Qed.

(* Stripping a counter cuts the request at its last underscore and numbering only appends, so a prefix h of the
   request is lost only if the cut falls inside h: only if h itself reads word_digits.  The premise says it does not;
   for a constant it is checked by evaluation. *)
Lemma out_shape_keeps_head h fp b v :
  split_counter h = None -> prefix h (fp ++ b) = true -> out_shape fp b v -> prefix h v = true.
Proof.
  intros Hh Hp [->|[base [n [-> [->|[m S]]]]]]; [exact Hp | now apply prefix_numbered |].
  apply split_counter_some in S as [d [R [Na [Wa Wd]]]]. pose proof (rsplit_app _ _ _ R) as E.
  assert (Q : prefix (base ++ "_") (fp ++ b) = true) by (rewrite E, <- append_assoc; apply prefix_append).
  unfold numbered. rewrite <- append_assoc.
  destruct (prefix_comparable _ _ _ Hp Q) as [P|P]; [now apply prefix_append_l|].
  (* h = base_e with e a beginning of the counter: e is empty, or h is word_digits *)
  apply prefix_split in P as [e ->]. rewrite E, !append_assoc in Hp.
  apply prefix_split in Hp as [r Hr]. rewrite !append_assoc in Hr.
  apply append_inv_head in Hr. cbn in Hr. injection Hr as ->. rewrite sall_app in Wd. apply andb_true_iff in Wd as [We _].
  destruct e as [|c e]; [rewrite append_nil_r; apply prefix_append|]. exfalso.
  unfold split_counter in Hh. rewrite append_assoc, (rsplit_last _ _ (digits_no_us _ We)), Wa, We in Hh.
  destruct base; [congruence | discriminate].
Qed.

Lemma out_shape_head h fp b v :
  sall (fun c => negb (is_us c)) h = true -> prefix h (fp ++ b) = true -> out_shape fp b v ->
  prefix h v = true.
Proof. intros Hh. apply out_shape_keeps_head, split_counter_no_us, Hh. Qed.

Lemma out_shape_head_us h fp b v x :
  fp ++ b = h ++ "_" ++ x -> out_shape fp b v -> prefix (h ++ "_") v = true.
Proof.
  intros E. apply out_shape_keeps_head; [apply split_counter_us_end|]. rewrite E, <- append_assoc. apply prefix_append.
Qed.

Lemma out_shape_assoc fp h b v : out_shape fp (h ++ b) v -> out_shape (fp ++ h) b v.
Proof. unfold out_shape. now rewrite append_assoc. Qed.

(* a forced prefix with a character outside \w disables the counter pattern *)
Lemma out_shape_nonword fp b v :
  sall is_word fp = false -> out_shape fp b v ->
  exists a, v = fp ++ a /\ (a = b \/ exists n, a = numbered b n).
Proof.
  intros W [->|[base [n [-> [->|[m S]]]]]].
  - eauto.
  - exists (numbered b n). split; [apply numbered_app | eauto].
  - rewrite split_counter_word in S; [discriminate|]. now rewrite sall_app, W.
Qed.

Lemma out_shape_word fp b v :
  sall is_word (fp ++ b) = true -> out_shape fp b v -> sall is_word v = true.
Proof.
  intros W. apply out_shape_closed with (P := fun v => sall is_word v = true);
    [exact W | | intros; now apply sall_numbered].
  intros a m S. now apply split_counter_some in S as [d [_ [_ [Wa _]]]].
Qed.

Lemma out_shape_first p fp b v :
  first_is p (fp ++ b) = true -> out_shape fp b v -> first_is p v = true.
Proof.
  intros F. apply out_shape_closed with (P := fun v => first_is p v = true);
    [exact F | | intros; now apply first_is_app].
  intros a m S. apply split_counter_some in S as [d [S%rsplit_app [Ne _]]]. rewrite S in F.
  destruct a; [congruence | exact F].
Qed.

Lemma gen_call_word cf g b v g' :
  g_fp g = "" -> sall is_word b = true -> gen_call cf g b = Ok (v, g') -> sall is_word v = true.
Proof.
  intros F W H. apply gen_call_spec in H as [S _]. rewrite F in S. eapply out_shape_word; [|exact S]. exact W.
Qed.

Lemma ident_chars_word : sall is_word ident_chars = true.
Proof. reflexivity. Qed.

Lemma sanitise_char_word c : is_word (sanitise_char c) = true.
Proof.
  unfold sanitise_char. destruct (smem c ident_chars) eqn:E; [|reflexivity].
  exact (smem_sall _ _ _ ident_chars_word E).
Qed.

Lemma lstrip_us_word s : sall is_word s = true -> sall is_word (lstrip_us s) = true.
Proof.
  induction s as [|c s IH]; cbn; [reflexivity|]. rewrite andb_true_iff. intros [A B].
  destruct (is_us c); [auto | cbn; now rewrite A, B].
Qed.

Lemma lstrip_us_first s : lstrip_us s = "" \/ first_is (fun c => negb (is_us c)) (lstrip_us s) = true.
Proof.
  induction s as [|c s IH]; cbn; [now left|]. destruct (is_us c) eqn:E; [exact IH|].
  right. cbn. now rewrite E.
Qed.

Lemma lstrip_us_app a b : lstrip_us a <> "" -> lstrip_us (a ++ b) = lstrip_us a ++ b.
Proof.
  induction a as [|c a IH]; cbn; [congruence|]. destruct (is_us c); [exact IH | reflexivity].
Qed.

Lemma make_identifier_word s : sall is_word (make_identifier s) = true.
Proof.
  unfold make_identifier. destruct (is_empty _); [reflexivity|].
  apply lstrip_us_word, sall_smap, sanitise_char_word.
Qed.

Lemma make_identifier_first s : first_is (fun c => negb (is_us c)) (make_identifier s) = true.
Proof.
  unfold make_identifier. destruct (is_empty _) eqn:E; [reflexivity|].
  destruct (lstrip_us_first (smap sanitise_char s)) as [H|H]; [|exact H].
  apply is_empty_false in E. contradiction.
Qed.

Lemma make_identifier_tag t r :
  lstrip_us (smap sanitise_char t) <> "" ->
  make_identifier (t ++ r) = lstrip_us (smap sanitise_char t) ++ smap sanitise_char r.
Proof.
  intros H. unfold make_identifier. rewrite smap_app, lstrip_us_app by exact H.
  destruct (lstrip_us (smap sanitise_char t)); [congruence | reflexivity].
Qed.

Lemma assoc_in {B} k (v : B) l : assoc k l = Some v -> In (k, v) l.
Proof.
  induction l as [|[k' v'] l IH]; cbn; [discriminate|].
  destruct (String.eqb k k') eqn:E.
  - apply String.eqb_eq in E. intros H; injection H as <-. subst. now left.
  - auto.
Qed.

Lemma in_assoc_some {B} k (v : B) l : In (k, v) l -> assoc k l <> None.
Proof.
  induction l as [|[k' v'] l IH]; cbn; [contradiction|]. intros [E|E].
  - injection E as -> ->. now rewrite String.eqb_refl.
  - destruct (String.eqb k k'); [discriminate | auto].
Qed.

Fixpoint nodupb (l : list string) : bool :=
  match l with
  | [] => true
  | x :: r => negb (existsb (String.eqb x) r) && nodupb r
  end.

Lemma nodupb_NoDup l : nodupb l = true -> NoDup l.
Proof. exact (nodupb_by_NoDup String.eqb String.eqb_eq l). Qed.

Lemma assoc_nodup_inj_f (f : string -> string) (l : dict) k1 k2 v1 v2 :
  NoDup (map f (map snd l)) -> assoc k1 l = Some v1 -> assoc k2 l = Some v2 -> k1 <> k2 -> f v1 <> f v2.
Proof.
  rewrite map_map. intros ND H1%assoc_in H2%assoc_in Hk E.
  pose proof (NoDup_map_inj _ _ _ _ ND H1 H2 E) as X. now injection X.
Qed.

Definition seed_of (key : string) (p : option string) : string :=
  match p with Some q => q ++ key | None => key end.

Lemma gom_spec cf d g key p v d' g' :
  get_or_make cf d g key p = Ok (v, d', g') ->
  (assoc key d = Some v /\ d' = d /\ g' = g) \/
  (assoc key d = None /\ d' = (key, v) :: d /\ gen_call cf g (make_identifier (seed_of key p)) = Ok (v, g')).
Proof.
  unfold get_or_make, gen_call_key, seed_of. destruct (assoc key d) as [w|].
  - intros H; injection H as <- <- <-. auto.
  - destruct (gen_call cf g _) as [[w g1]| |] eqn:E; try discriminate.
    intros H; injection H as <- <- <-. auto.
Qed.

Lemma gom_total cf d g key p : exists v d' g', get_or_make cf d g key p = Ok (v, d', g').
Proof.
  unfold get_or_make, gen_call_key. destruct (assoc key d) as [w|]; [eauto|].
  destruct (gen_call_total cf g (make_identifier (seed_of key p))) as [v [g' E]].
  unfold seed_of in E. rewrite E. eauto.
Qed.

Lemma gom_hit cf d g key p v : assoc key d = Some v -> get_or_make cf d g key p = Ok (v, d, g).
Proof. unfold get_or_make. now intros ->. Qed.

Lemma space_eqb_eq a b : space_eqb a b = true <-> a = b.
Proof. destruct a, b; cbn; split; congruence. Qed.

Lemma space_eqb_refl a : space_eqb a a = true.
Proof. now destruct a. Qed.

Lemma space_eq_dec (a b : space) : {a = b} + {a <> b}.
Proof. decide equality. Qed.

Definition upd (L : space -> string -> option string) (sp : space) (k v : string)
  : space -> string -> option string :=
  fun sp' k' => if space_eqb sp' sp && String.eqb k' k then Some v else L sp' k'.

Lemma upd_same L sp k v : upd L sp k v sp k = Some v.
Proof. unfold upd. now rewrite space_eqb_refl, String.eqb_refl. Qed.

Lemma upd_cases L sp k v sp' k' v' :
  upd L sp k v sp' k' = Some v' -> (sp' = sp /\ k' = k /\ v' = v) \/ L sp' k' = Some v'.
Proof.
  unfold upd. destruct (space_eqb sp' sp && String.eqb k' k) eqn:E; [|auto].
  apply andb_true_iff in E as [->%space_eqb_eq ->%String.eqb_eq]. intros H; injection H as <-. auto.
Qed.

Lemma upd_keeps L sp k v sp' k' v' : L sp k = None -> L sp' k' = Some v' -> upd L sp k v sp' k' = Some v'.
Proof.
  intros N A. unfold upd. destruct (space_eqb sp' sp && String.eqb k' k) eqn:E; [|exact A].
  apply andb_true_iff in E as [->%space_eqb_eq ->%String.eqb_eq]. congruence.
Qed.

(* Instantiated twice: py_step / py_run and f_step / f_run. *)
Section Runs.
  Context {St Op Out : Type} (step : St -> Op -> res (Out * St)) (run : St -> list Op -> res (list Out * St)).
  Hypothesis run_nil : forall s, run s [] = Ok ([], s).
  Hypothesis run_cons : forall s op r,
    run s (op :: r) =
    match step s op with
    | Ok (o, s1) => match run s1 r with
                    | Ok (os, s2) => Ok (o :: os, s2)
                    | OutOfFuel => OutOfFuel | ValueError => ValueError
                    end
    | OutOfFuel => OutOfFuel | ValueError => ValueError
    end.

  Lemma run_total :
    (forall s op, exists o s', step s op = Ok (o, s')) -> forall ops s, exists outs s', run s ops = Ok (outs, s').
  Proof.
    intros T. induction ops as [|op ops IH]; intros s; [rewrite run_nil; eauto|].
    rewrite run_cons. destruct (T s op) as [o [s1 ->]]. destruct (IH s1) as [os [s2 ->]]. eauto.
  Qed.

  Lemma run_preserves (P : St -> Prop) ops :
    (forall s op o s', In op ops -> P s -> step s op = Ok (o, s') -> P s') ->
    forall s outs s', P s -> run s ops = Ok (outs, s') -> P s'.
  Proof.
    induction ops as [|op ops IH]; intros Hs s outs s' I H.
    - rewrite run_nil in H. now injection H as <- <-.
    - rewrite run_cons in H. destruct (step s op) as [[o s1]| |] eqn:E; try discriminate.
      destruct (run s1 ops) as [[os s2]| |] eqn:R; try discriminate. injection H as <- <-.
      apply (IH (fun s op o s' Hin => Hs s op o s' (or_intror Hin)) s1 os); [|exact R].
      exact (Hs _ _ _ _ (or_introl eq_refl) I E).
  Qed.
End Runs.

Definition py_gen (s : py_state) (sp : space) : gen :=
  match sp with Local => py_lgen s | Global => py_ggen s | Function => py_fgen s end.
Definition py_fp (sp : space) : string :=
  match sp with Local => py_local_prefix | Global => py_global_prefix | Function => py_function_prefix end.
Definition py_op_of (sp : space) (k : string) : py_op :=
  match sp with Local => PLocal k | Global => PGlobal k | Function => PFunction k end.
Definition py0 : py_state :=
  mkPy [] (new_gen py_local_prefix) py_global_start (new_gen py_global_prefix) [] (new_gen py_function_prefix).

Lemma py_init_ok : py_init = Ok py0.
Proof. reflexivity. Qed.

Definition space_of_getitem (k : string) : space := if is_state_variable k then Global else Local.

Lemma py_getitem s k : py_step s (PGetItem k) = py_step s (py_op_of (space_of_getitem k) k).
Proof. unfold space_of_getitem. cbn. now destruct (is_state_variable k). Qed.

Lemma py_op_view op : op = PClear \/ exists sp k, forall s, py_step s op = py_step s (py_op_of sp k).
Proof.
  destruct op as [k|k|k|k|]; [right|right|right|right|now left].
  - exists Global, k. reflexivity.
  - exists Local, k. reflexivity.
  - exists Function, k. reflexivity.
  - exists (space_of_getitem k), k. intros s. apply py_getitem.
Qed.

Definition py_dict (s : py_state) (sp : space) : dict :=
  match sp with Local => py_local s | Global => py_global s | Function => py_func s end.
Definition py_put (s : py_state) (sp : space) (d : dict) (g : gen) : py_state :=
  match sp with
  | Local => mkPy d g (py_global s) (py_ggen s) (py_func s) (py_fgen s)
  | Global => mkPy (py_local s) (py_lgen s) d g (py_func s) (py_fgen s)
  | Function => mkPy (py_local s) (py_lgen s) (py_global s) (py_ggen s) d g
  end.

Lemma py_step_keyed s sp k :
  py_step s (py_op_of sp k) =
  match get_or_make false (py_dict s sp) (py_gen s sp) k None with
  | Ok (v, d, g) => Ok (Some v, py_put s sp d g)
  | OutOfFuel => OutOfFuel | ValueError => ValueError
  end.
Proof. destruct sp; reflexivity. Qed.

Lemma py_lookup_dict s sp k : py_lookup s sp k = assoc k (py_dict s sp).
Proof. destruct sp; reflexivity. Qed.

Lemma py_put_same s sp : py_put s sp (py_dict s sp) (py_gen s sp) = s.
Proof. destruct s, sp; reflexivity. Qed.

Lemma py_lookup_put s sp k v g sp' k' :
  py_lookup (py_put s sp ((k, v) :: py_dict s sp) g) sp' k' = upd (py_lookup s) sp k v sp' k'.
Proof. destruct sp, sp'; reflexivity. Qed.

Lemma py_gen_put s sp d g sp' : py_gen (py_put s sp d g) sp' = if space_eqb sp' sp then g else py_gen s sp'.
Proof. destruct sp, sp'; reflexivity. Qed.

Lemma py_prim_spec s sp k o s' :
  py_step s (py_op_of sp k) = Ok (o, s') ->
  exists v, o = Some v /\
    ((py_lookup s sp k = Some v /\ s' = s) \/
     (py_lookup s sp k = None /\
      (forall sp' k', py_lookup s' sp' k' = upd (py_lookup s) sp k v sp' k') /\
      gen_call false (py_gen s sp) (make_identifier k) = Ok (v, py_gen s' sp) /\
      (forall sp', sp' <> sp -> py_gen s' sp' = py_gen s sp'))).
Proof.
  rewrite py_step_keyed, py_lookup_dict.
  destruct (get_or_make _ _ _ _ _) as [[[v d] g]| |] eqn:E; try discriminate.
  intros H; injection H as <- <-. exists v. split; [reflexivity|].
  apply gom_spec in E as [[A [-> ->]]|[A [-> G]]].
  - left. split; [exact A | apply py_put_same].
  - right. split; [exact A|]. split; [intros; apply py_lookup_put|]. split.
    + now rewrite py_gen_put, space_eqb_refl.
    + intros sp' D. rewrite py_gen_put. destruct (space_eqb sp' sp) eqn:X; [|reflexivity].
      now apply space_eqb_eq in X.
Qed.

Lemma py_prim_hit s sp k v : py_lookup s sp k = Some v -> py_step s (py_op_of sp k) = Ok (Some v, s).
Proof.
  rewrite py_lookup_dict, py_step_keyed. intros H. now rewrite (gom_hit _ _ _ _ _ _ H), py_put_same.
Qed.

Lemma py_prim_total s sp k : exists v s', py_step s (py_op_of sp k) = Ok (Some v, s').
Proof.
  rewrite py_step_keyed. destruct (gom_total false (py_dict s sp) (py_gen s sp) k None) as [v [d [g ->]]]. eauto.
Qed.

Lemma py_prim_returns s sp k v s' :
  py_step s (py_op_of sp k) = Ok (Some v, s') -> py_lookup s' sp k = Some v.
Proof.
  intros H. apply py_prim_spec in H as [w [E [[A ->]|[_ [L _]]]]]; injection E as <-; [exact A|].
  rewrite L. apply upd_same.
Qed.

Lemma py_prim_keeps s sp0 k0 o s' sp k v :
  py_step s (py_op_of sp0 k0) = Ok (o, s') -> py_lookup s sp k = Some v -> py_lookup s' sp k = Some v.
Proof.
  intros H A. apply py_prim_spec in H as [w [_ [[_ ->]|[N [L _]]]]]; [exact A|].
  rewrite L. now apply upd_keeps.
Qed.

Theorem py_step_total s op : exists o s', py_step s op = Ok (o, s').
Proof.
  destruct (py_op_view op) as [->|[sp [k E]]].
  - cbn. eauto.
  - rewrite E. destruct (py_prim_total s sp k) as [v [s' ->]]. eauto.
Qed.

Lemma py_run_preserves (P : py_state -> Prop) ops :
  (forall s op o s', In op ops -> P s -> py_step s op = Ok (o, s') -> P s') ->
  forall s outs s', P s -> py_run s ops = Ok (outs, s') -> P s'.
Proof. exact (run_preserves py_step py_run (fun _ => eq_refl) (fun _ _ _ => eq_refl) P ops). Qed.

Theorem py_run_total ops : forall s, exists outs s', py_run s ops = Ok (outs, s').
Proof. exact (run_total py_step py_run (fun _ => eq_refl) (fun _ _ _ => eq_refl) py_step_total ops). Qed.

Lemma py_step_keeps s op o s' sp k v :
  py_step s op = Ok (o, s') -> py_lookup s sp k = Some v ->
  (sp = Local /\ op = PClear) \/ py_lookup s' sp k = Some v.
Proof.
  intros H A. destruct (py_op_view op) as [->|[sp0 [k0 E]]].
  - cbn in H. injection H as <- <-. destruct sp; cbn in *; auto.
  - rewrite E in H. right. eapply py_prim_keeps; eauto.
Qed.

Lemma py_run_keeps ops : forall s outs s' sp k v,
  py_run s ops = Ok (outs, s') -> py_lookup s sp k = Some v ->
  (sp = Local -> ~ In PClear ops) -> py_lookup s' sp k = Some v.
Proof.
  intros s outs s' sp k v R A NC.
  apply (py_run_preserves (fun s => py_lookup s sp k = Some v) ops) with s outs; auto.
  intros s0 op o s1 Hin A0 E. destruct (py_step_keeps _ _ _ _ _ _ _ E A0) as [[-> ->]|]; [|assumption].
  now destruct (NC eq_refl).
Qed.

(* for locals the premise says: within one function body, i.e. no clear_locals in between *)
Theorem py_stable s sp k v s1 ops outs s2 :
  py_step s (py_op_of sp k) = Ok (Some v, s1) -> py_run s1 ops = Ok (outs, s2) ->
  (sp = Local -> ~ In PClear ops) ->
  py_step s2 (py_op_of sp k) = Ok (Some v, s2).
Proof.
  intros H R NC. apply py_prim_hit. eapply py_run_keeps; eauto. eapply py_prim_returns; eauto.
Qed.

Theorem py_stable_getitem s k v s1 ops outs s2 :
  py_step s (PGetItem k) = Ok (Some v, s1) -> py_run s1 ops = Ok (outs, s2) ->
  (is_state_variable k = false -> ~ In PClear ops) ->
  py_step s2 (PGetItem k) = Ok (Some v, s2).
Proof.
  rewrite !py_getitem. intros H R NC. eapply py_stable; eauto.
  unfold space_of_getitem. destruct (is_state_variable k); [discriminate | auto].
Qed.

(* The invariant for injectivity: every binding is a start binding or was made by its space's generator, which
   has it among its existing names; within a space different keys have different names. *)

Definition py_extra (sp : space) : dict := match sp with Global => py_global_start | _ => [] end.

Record PyInv (s : py_state) : Prop := {
  pi_fp : forall sp, g_fp (py_gen s sp) = py_fp sp;
  pi_cover : forall sp k v, py_lookup s sp k = Some v ->
                            In v (g_existing (py_gen s sp)) \/ In (k, v) (py_extra sp);
  pi_shape : forall sp k v, py_lookup s sp k = Some v ->
                            In (k, v) (py_extra sp) \/ out_shape (py_fp sp) (make_identifier k) v;
  pi_inj : forall sp k1 k2 v1 v2, py_lookup s sp k1 = Some v1 -> py_lookup s sp k2 = Some v2 ->
                                  k1 <> k2 -> v1 <> v2
}.

Lemma py_global_prefix_nonword : sall is_word py_global_prefix = false.
Proof. reflexivity. Qed.
Lemma py_function_prefix_nonword : sall is_word py_function_prefix = false.
Proof. reflexivity. Qed.
Lemma py_fp_keeps sp : split_counter (py_fp sp) = None.
Proof. now destruct sp. Qed.

Lemma py_shape_prefix sp b v : out_shape (py_fp sp) b v -> prefix (py_fp sp) v = true.
Proof. apply out_shape_keeps_head; [apply py_fp_keeps | apply prefix_append]. Qed.

Lemma py_fp_apart sp1 sp2 : sp1 <> sp2 -> prefix (py_fp sp1) (py_fp sp2) = false.
Proof. destruct sp1, sp2; intros D; reflexivity || now destruct D. Qed.

Lemma py_start_apart sp : forallb (fun kv => negb (prefix (py_fp sp) (snd kv))) py_global_start = true.
Proof. destruct sp; reflexivity. Qed.

Lemma py_extra_no_prefix sp sp' k v : In (k, v) (py_extra sp) -> prefix (py_fp sp') v = false.
Proof.
  intros Hin. destruct sp; try contradiction. pose proof (py_start_apart sp') as F.
  rewrite forallb_forall in F. apply negb_true_iff, (F _ Hin).
Qed.

Lemma py_new_not_extra sp b v k2 v2 : out_shape (py_fp sp) b v -> In (k2, v2) (py_extra sp) -> v <> v2.
Proof. intros H%py_shape_prefix X <-. now rewrite (py_extra_no_prefix _ sp _ _ X) in H. Qed.

Lemma py0_lookup sp k v : py_lookup py0 sp k = Some v -> sp = Global /\ assoc k py_global_start = Some v.
Proof. destruct sp; cbn; intros H; (discriminate || auto). Qed.

Lemma PyInv_py0 : PyInv py0.
Proof.
  constructor.
  - intros []; reflexivity.
  - intros sp k v [-> H]%py0_lookup. right. now apply assoc_in.
  - intros sp k v [-> H]%py0_lookup. left. now apply assoc_in.
  - intros sp k1 k2 v1 v2 [-> H1]%py0_lookup [_ H2]%py0_lookup.
    apply (assoc_nodup_inj_f (fun v => v) py_global_start k1 k2 v1 v2); auto. now apply nodupb_NoDup.
Qed.

Lemma PyInv_step s op o s' : PyInv s -> py_step s op = Ok (o, s') -> PyInv s'.
Proof.
  intros I H. destruct (py_op_view op) as [->|[sp [k E]]].
  - cbn in H. injection H as <- <-. destruct I as [F C Sh J].
    (* clear_locals: what is still bound was bound before, by a generator that has not changed *)
    set (s' := mkPy [] _ _ _ _ _).
    assert (Old : forall sp k v, py_lookup s' sp k = Some v ->
                                 py_lookup s sp k = Some v /\ py_gen s' sp = py_gen s sp)
      by (intros [] k v Hl; cbn in Hl |- *; (discriminate || auto)).
    constructor.
    + intros []; [reflexivity | apply (F Global) | apply (F Function)].
    + intros sp k v [Hl G]%Old. rewrite G. eauto.
    + intros sp k v [Hl _]%Old. eauto.
    + intros sp k1 k2 v1 v2 [H1 _]%Old [H2 _]%Old. eauto.
  - rewrite E in H. apply py_prim_spec in H as [v [_ [[_ ->]|[N [L [G O]]]]]]; [exact I|].
    destruct I as [F C Sh J]. apply gen_call_spec in G as [S [NC [EX FP]]]. rewrite F in S.
    apply conflicting_false_id in NC.
    assert (Fresh : forall k2 v2, py_lookup s sp k2 = Some v2 -> v <> v2).
    { intros k2 v2 H2. destruct (C _ _ _ H2) as [A|A]; [now intros <- | eapply py_new_not_extra; eauto]. }
    constructor.
    + intros sp'. destruct (space_eq_dec sp' sp) as [->|D]; [now rewrite FP | now rewrite O].
    + intros sp' k' v' Hl. rewrite L in Hl. apply upd_cases in Hl as [[-> [-> ->]]|Hl].
      * left. rewrite EX. now left.
      * destruct (C _ _ _ Hl) as [A|A]; [left | now right].
        destruct (space_eq_dec sp' sp) as [->|D]; [rewrite EX; now right | now rewrite O].
    + intros sp' k' v' Hl. rewrite L in Hl. apply upd_cases in Hl as [[-> [-> ->]]|Hl]; [now right | now apply Sh].
    + intros sp' k1 k2 v1 v2 H1 H2 Hk. rewrite L in H1, H2.
      apply upd_cases in H1 as [[-> [-> ->]]|H1], H2 as [[E2 [-> ->]]|H2].
      * congruence.
      * eauto.
      * subst sp'. apply not_eq_sym. eauto.
      * eapply J; eauto.
Qed.

Lemma PyInv_run ops s outs s' : PyInv s -> py_run s ops = Ok (outs, s') -> PyInv s'.
Proof. apply (py_run_preserves PyInv). intros s0 op o s1 _. apply PyInv_step. Qed.

Lemma py_value_class s sp k v :
  PyInv s -> py_lookup s sp k = Some v -> In (k, v) (py_extra sp) \/ prefix (py_fp sp) v = true.
Proof.
  intros I H. destruct (pi_shape _ I _ _ _ H) as [A|A]; [now left | right; now apply py_shape_prefix in A].
Qed.

Lemma py_class_apart s sp1 k1 v1 sp2 v2 :
  PyInv s -> sp1 <> sp2 -> py_lookup s sp1 k1 = Some v1 -> prefix (py_fp sp2) v2 = true -> v1 <> v2.
Proof.
  intros I D H1 P2 <-. destruct (py_value_class _ _ _ _ I H1) as [X|P1].
  - now rewrite (py_extra_no_prefix _ sp2 _ _ X) in P2.
  - rewrite (incomparable_prefix_false _ _ _ (py_fp_apart _ _ D) (py_fp_apart _ _ (not_eq_sym D)) P1) in P2.
    discriminate.
Qed.

Theorem py_injective s sp1 k1 v1 sp2 k2 v2 :
  PyInv s -> py_lookup s sp1 k1 = Some v1 -> py_lookup s sp2 k2 = Some v2 ->
  (sp1 <> sp2 \/ k1 <> k2) -> v1 <> v2.
Proof.
  intros I H1 H2 D. destruct (space_eq_dec sp1 sp2) as [->|N].
  - destruct D as [D|D]; [congruence|]. eapply (pi_inj _ I); eauto.
  - destruct (py_value_class _ _ _ _ I H2) as [X2|P2]; [|exact (py_class_apart _ _ _ _ _ _ I N H1 P2)].
    destruct (py_value_class _ _ _ _ I H1) as [X1|P1];
      [|exact (not_eq_sym (py_class_apart _ _ _ _ _ _ I (not_eq_sym N) H2 P1))].
    (* only the global space has start bindings *)
    destruct sp1, sp2; cbn in X1, X2; contradiction.
Qed.

Definition py_reach (s : py_state) : Prop := exists ops outs, py_run py0 ops = Ok (outs, s).

Lemma py_reach_inv s : py_reach s -> PyInv s.
Proof. intros [ops [outs R]]. eapply PyInv_run; [apply PyInv_py0 | exact R]. Qed.

(* python.py has no literal for the instance qualifier: its literals are the forced prefixes that GenC13 holds, and
   py_global_prefix_eq / py_self_facts tie these two pieces to them. *)
Definition py_self : string := "self.".
Definition py_global_attr : string := "global_".

Lemma py_global_prefix_eq : py_global_prefix = py_self ++ py_global_attr.
Proof. reflexivity. Qed.

Lemma py_self_facts :
  prefix py_self py_global_prefix = true /\
  forallb (fun kv => prefix py_self (snd kv)) py_global_start = true /\
  prefix py_self py_local_prefix = false /\ prefix py_local_prefix py_self = false.
Proof. repeat split; reflexivity. Qed.

Lemma py_state_value_self s k v :
  PyInv s -> py_lookup s Global k = Some v -> prefix py_self v = true.
Proof.
  intros I H. destruct py_self_facts as [A [B _]].
  destruct (py_value_class _ _ _ _ I H) as [C|C].
  - rewrite forallb_forall in B. exact (B _ C).
  - eapply prefix_trans; [exact A | exact C].
Qed.

(* persistent names live on the instance, all others are locals of the generated method *)
Theorem py_storage s k v s' :
  PyInv s -> py_step s (PGetItem k) = Ok (Some v, s') ->
  (is_state_variable k = true -> prefix py_self v = true /\ prefix py_local_prefix v = false) /\
  (is_state_variable k = false -> prefix py_local_prefix v = true /\ prefix py_self v = false).
Proof.
  intros I H. pose proof (PyInv_step _ _ _ _ I H) as I'. rewrite py_getitem in H.
  apply py_prim_returns in H. destruct py_self_facts as [_ [_ [A B]]]. unfold space_of_getitem in H.
  split; intros E; rewrite E in H.
  - pose proof (py_state_value_self _ _ _ I' H) as P. split; [exact P|].
    eapply incomparable_prefix_false; [exact A | exact B | exact P].
  - destruct (py_value_class _ _ _ _ I' H) as [[]|P]. cbn [py_fp] in P. split; [exact P|].
    eapply incomparable_prefix_false; [exact B | exact A | exact P].
Qed.

Fixpoint strip_prefix (p s : string) : option string :=
  match p with
  | EmptyString => Some s
  | String c p' => match s with
                   | String d s' => if Ascii.eqb c d then strip_prefix p' s' else None
                   | EmptyString => None
                   end
  end.

Lemma strip_prefix_some p s a : strip_prefix p s = Some a -> s = p ++ a.
Proof.
  revert s; induction p as [|c p IH]; intros s H; cbn in H.
  - now injection H as ->.
  - destruct s as [|d s]; [discriminate|]. destruct (Ascii.eqb c d) eqn:E; [|discriminate].
    apply Ascii.eqb_eq in E. subst. cbn. now rewrite (IH _ H).
Qed.

Lemma py_identifier_by_prefix p v :
  first_is (fun c => is_letter c || is_us c) p = true ->
  forallb (fun r => negb (prefix p r)) py_keywords = true ->
  prefix p v = true -> sall is_word v = true -> py_identifier v = true.
Proof.
  intros F K P W. unfold py_identifier. rewrite W, (first_is_prefix _ _ _ F P), (not_in_by_prefix _ _ _ K P).
  reflexivity.
Qed.

(* the last premise is what out_shape_nonword concludes *)
Lemma py_identifier_numbered p b a :
  first_is (fun c => is_letter c || is_us c) p = true ->
  forallb (fun r => negb (prefix p r)) py_keywords = true ->
  sall is_word (p ++ b) = true -> (a = b \/ exists n, a = numbered b n) -> py_identifier (p ++ a) = true.
Proof.
  intros F K W Ha. apply (py_identifier_by_prefix p); auto using prefix_append.
  destruct Ha as [->|[n ->]]; [exact W | rewrite <- numbered_app; now apply sall_numbered].
Qed.

(* The tag that dagrt puts on function identifiers (function_registry.py, `expr.name.startswith("<func>")` in
   codegen/expressions.py).  The name managers, from which GenC13 is taken, never mention it. *)
Definition py_func_tag : string := "<func>".
Definition py_func_head : string := "func_".

Lemma py_func_tag_sanitised : lstrip_us (smap sanitise_char py_func_tag) = py_func_head.
Proof. reflexivity. Qed.

Lemma py_legal_facts :
  first_is (fun c => is_letter c || is_us c) py_local_prefix = true /\
  forallb (fun r => negb (prefix py_local_prefix r)) py_keywords = true /\
  sall is_word py_local_prefix = true /\
  first_is (fun c => is_letter c || is_us c) py_global_attr = true /\
  forallb (fun r => negb (prefix py_global_attr r)) py_keywords = true /\
  sall is_word py_global_attr = true /\
  first_is (fun c => is_letter c || is_us c) py_func_head = true /\
  forallb (fun r => negb (prefix py_func_head r)) py_keywords = true /\
  forallb (fun kv => match strip_prefix py_self (snd kv) with Some a => py_identifier a | None => false end)
          py_global_start = true.
Proof. repeat split; reflexivity. Qed.

Theorem py_legal s sp k v :
  PyInv s -> py_lookup s sp k = Some v ->
  match sp with
  | Local => py_identifier v = true
  | Global => exists a, v = py_self ++ a /\ py_identifier a = true
  | Function => prefix py_func_tag k = true ->
                exists a, v = py_function_prefix ++ a /\ py_identifier a = true
  end.
Proof.
  intros I H. destruct py_legal_facts as [L1 [L2 [L3 [G1 [G2 [G3 [F1 [F2 St]]]]]]]].
  pose proof (pi_shape _ I _ _ _ H) as Sh. destruct sp; cbn [py_extra py_fp] in Sh.
  - destruct Sh as [[]|Sh]. apply py_identifier_by_prefix with (p := py_local_prefix); auto.
    + now apply (py_shape_prefix Local) in Sh.
    + eapply out_shape_word; [|exact Sh]. now rewrite sall_app, L3, make_identifier_word.
  - destruct Sh as [Sh|Sh].
    + rewrite forallb_forall in St. specialize (St _ Sh). cbn [snd] in St.
      destruct (strip_prefix py_self v) as [a|] eqn:E; [|discriminate]. apply strip_prefix_some in E. eauto.
    + apply out_shape_nonword in Sh as [a [-> Ha]]; [|apply py_global_prefix_nonword].
      exists (py_global_attr ++ a). split; [rewrite py_global_prefix_eq; apply append_assoc|].
      apply (py_identifier_numbered _ (make_identifier k) _ G1 G2); [|exact Ha].
      now rewrite sall_app, G3, make_identifier_word.
  - intros [r ->]%prefix_split. destruct Sh as [[]|Sh].
    assert (B : make_identifier (py_func_tag ++ r) = py_func_head ++ smap sanitise_char r).
    { rewrite make_identifier_tag; rewrite py_func_tag_sanitised; [reflexivity | discriminate]. }
    pose proof (make_identifier_word (py_func_tag ++ r)) as W. rewrite B in Sh, W.
    (* "self._functions.func_" is a non-word prefix as well *)
    apply out_shape_assoc, out_shape_nonword in Sh as [a [-> Ha]]; [|reflexivity].
    exists (py_func_head ++ a). split; [apply append_assoc|].
    exact (py_identifier_numbered _ _ _ F1 F2 W Ha).
Qed.

(* function identifiers without the <func> tag: not an identifier / a keyword *)
Lemma py_legal_function_refuted :
  exists k v a, py_outputs [PFunction k] = Some [Some v] /\ v = py_function_prefix ++ a /\ py_identifier a = false.
Proof. exists "1f", "self._functions.1f", "1f". repeat split; reflexivity. Qed.

Lemma py_legal_function_keyword_refuted :
  exists k v a, py_outputs [PFunction k] = Some [Some v] /\ v = py_function_prefix ++ a /\ py_identifier a = false.
Proof. exists "if", "self._functions.if", "if". repeat split; reflexivity. Qed.

Definition py_reserved_words : list string := py_keywords ++ py_own_tokens.

Lemma py_reserved_facts :
  forallb (fun r => negb (prefix py_local_prefix r)) py_reserved_words = true /\
  forallb (fun r => negb (prefix py_global_attr r)) py_reserved_words = true /\
  existsb (String.eqb "self") py_reserved_words = true.
Proof. repeat split; reflexivity. Qed.

(* never a keyword nor one of the names the generator writes on its own: locals (incl. `self`), attributes of the
   instance (the two start bindings ARE self.t / self.dt), private attributes of the function container *)
Theorem py_reserved s sp k v :
  PyInv s -> py_lookup s sp k = Some v ->
  match sp with
  | Local => existsb (String.eqb v) py_reserved_words = false
  | Global => assoc k py_global_start = None ->
              exists a, v = py_self ++ a /\ existsb (String.eqb a) py_reserved_words = false
  | Function => exists a, v = py_function_prefix ++ a /\ first_is is_us a = false
  end.
Proof.
  intros I H. destruct py_reserved_facts as [R1 [R2 _]].
  pose proof (pi_shape _ I _ _ _ H) as Sh. destruct sp; cbn [py_extra py_fp] in Sh.
  - destruct Sh as [[]|Sh]. apply (py_shape_prefix Local) in Sh. exact (not_in_by_prefix _ _ _ R1 Sh).
  - intros N. destruct Sh as [Sh|Sh]; [now apply in_assoc_some in Sh|].
    apply out_shape_nonword in Sh as [a [-> _]]; [|apply py_global_prefix_nonword].
    exists (py_global_attr ++ a). split; [rewrite py_global_prefix_eq; apply append_assoc|].
    eapply not_in_by_prefix; [exact R2 | apply prefix_append].
  - destruct Sh as [[]|Sh]. apply out_shape_nonword in Sh as [a [-> Ha]]; [|apply py_function_prefix_nonword].
    exists a. split; [reflexivity|]. apply first_not_us. pose proof (make_identifier_first k) as F.
    destruct Ha as [->|[n ->]]; [exact F | now apply first_is_app].
Qed.

Example ex_py_run :
  py_outputs [PGetItem "y^"; PGetItem "y*"; PGetItem "<p>y^"; PGetItem "<p>y*"; PGetItem "y_1"; PGetItem "y";
              PFunction "<func>f"; PGetItem "y^"; PClear; PGetItem "y*"]
  = Some [Some "localy_"; Some "localy__0"; Some "self.global_p_y_"; Some "self.global_p_y__0";
          Some "localy_1"; Some "localy_2"; Some "self._functions.func_f"; Some "localy_"; None; Some "localy_"].
Proof. reflexivity. Qed.

Example ex_py_reach : exists s, py_reach s /\ py_lookup s Local "y*" = Some "localy__0"
                                /\ py_lookup s Global "<p>y^" = Some "self.global_p_y_".
Proof.
  eexists. split; [exists [PGetItem "y^"; PGetItem "y*"; PGetItem "<p>y^"]; eexists; vm_compute; reflexivity|].
  split; reflexivity.
Qed.

Definition f0 : f_state := mkF [] f_global_start [] (mkGen "" (rev (map snd f_global_start)) []).

Lemma f_init_ok cf : f_init cf = Ok f0.
Proof. destruct cf; reflexivity. Qed.

(* [p] is name_local's optional explicit prefix *)
Definition f_op_of (sp : space) (k : string) (p : option string) : f_op :=
  match sp with Local => FLocal k p | Global => FGlobal k | Function => FFunction k end.
Definition f_pfx (sp : space) (k : string) (p : option string) : option string :=
  match sp with Local => f_local_prefix_for k p | _ => None end.

Definition f_dict (s : f_state) (sp : space) : dict :=
  match sp with Local => f_local s | Global => f_global s | Function => f_func s end.
Definition f_put (s : f_state) (sp : space) (d : dict) (g : gen) : f_state :=
  match sp with
  | Local => mkF d (f_global s) (f_func s) g
  | Global => mkF (f_local s) d (f_func s) g
  | Function => mkF (f_local s) (f_global s) d g
  end.

Lemma f_step_keyed cf s sp k p :
  f_step cf s (f_op_of sp k p) =
  match get_or_make cf (f_dict s sp) (f_gen s) k (f_pfx sp k p) with
  | Ok (v, d, g) => Ok (v, f_put s sp d g)
  | OutOfFuel => OutOfFuel | ValueError => ValueError
  end.
Proof. destruct sp; reflexivity. Qed.

Lemma f_lookup_dict s sp k : f_lookup s sp k = assoc k (f_dict s sp).
Proof. destruct sp; reflexivity. Qed.

Lemma f_put_same s sp : f_put s sp (f_dict s sp) (f_gen s) = s.
Proof. destruct s, sp; reflexivity. Qed.

Lemma f_lookup_put s sp k v g sp' k' :
  f_lookup (f_put s sp ((k, v) :: f_dict s sp) g) sp' k' = upd (f_lookup s) sp k v sp' k'.
Proof. destruct sp, sp'; reflexivity. Qed.

Lemma f_gen_put s sp d g : f_gen (f_put s sp d g) = g.
Proof. destruct sp; reflexivity. Qed.

Lemma f_prim_spec cf s sp k p o s' :
  f_step cf s (f_op_of sp k p) = Ok (o, s') ->
  (f_lookup s sp k = Some o /\ s' = s) \/
  (f_lookup s sp k = None /\
   (forall sp' k', f_lookup s' sp' k' = upd (f_lookup s) sp k o sp' k') /\
   gen_call cf (f_gen s) (make_identifier (seed_of k (f_pfx sp k p))) = Ok (o, f_gen s')).
Proof.
  rewrite f_step_keyed, f_lookup_dict.
  destruct (get_or_make _ _ _ _ _) as [[[v d] g]| |] eqn:E; try discriminate.
  intros H; injection H as <- <-. apply gom_spec in E as [[A [-> ->]]|[A [-> G]]].
  - left. split; [exact A | apply f_put_same].
  - right. split; [exact A|]. split; [intros; apply f_lookup_put | now rewrite f_gen_put].
Qed.

Lemma f_prim_hit cf s sp k p v : f_lookup s sp k = Some v -> f_step cf s (f_op_of sp k p) = Ok (v, s).
Proof.
  rewrite f_lookup_dict, f_step_keyed. intros H. now rewrite (gom_hit _ _ _ _ _ _ H), f_put_same.
Qed.

Lemma f_prim_total cf s sp k p : exists v s', f_step cf s (f_op_of sp k p) = Ok (v, s').
Proof.
  rewrite f_step_keyed.
  destruct (gom_total cf (f_dict s sp) (f_gen s) k (f_pfx sp k p)) as [v [d [g ->]]]. eauto.
Qed.

Lemma f_prim_returns cf s sp k p v s' : f_step cf s (f_op_of sp k p) = Ok (v, s') -> f_lookup s' sp k = Some v.
Proof.
  intros H. apply f_prim_spec in H as [[A ->]|[_ [L _]]]; [exact A|]. rewrite L. apply upd_same.
Qed.

Lemma f_prim_keeps cf s sp0 k0 p0 o s' sp k v :
  f_step cf s (f_op_of sp0 k0 p0) = Ok (o, s') -> f_lookup s sp k = Some v -> f_lookup s' sp k = Some v.
Proof.
  intros H A. apply f_prim_spec in H as [[_ ->]|[N [L _]]]; [exact A|]. rewrite L. now apply upd_keeps.
Qed.

Lemma f_unique_spec cf s p o s' :
  f_step cf s (FUnique p) = Ok (o, s') ->
  (forall sp k, f_lookup s' sp k = f_lookup s sp k) /\
  gen_call cf (f_gen s) (make_identifier (f_unique_prefix ++ p)) = Ok (o, f_gen s').
Proof.
  cbn [f_step]. unfold f_unique, gen_call_key.
  destruct (gen_call cf (f_gen s) (make_identifier (f_unique_prefix ++ p))) as [[v g]| |]; try discriminate.
  intros H; injection H as <- <-. split; [|reflexivity]. intros []; reflexivity.
Qed.

Lemma with_prefix_ok q r v s : with_prefix q r = Ok (v, s) <-> exists w, r = Ok (w, s) /\ v = q ++ w.
Proof.
  destruct r as [[w s1]| |]; cbn; split; try discriminate.
  - intros H; injection H as <- <-. eauto.
  - intros [w' [E ->]]. now injection E as -> ->.
  - intros [w [E _]]; discriminate.
  - intros [w [E _]]; discriminate.
Qed.

(* how the Fortran generator calls the manager: no explicit prefix for locals, name_global only for persistent names *)
Definition f_op_wf (op : f_op) : Prop :=
  match op with
  | FLocal _ (Some _) => False
  | FGlobal k => is_state_variable k = true
  | _ => True
  end.
Definition f_prim_wf (sp : space) (k : string) (p : option string) : Prop :=
  match sp with Local => p = None | Global => is_state_variable k = true | Function => True end.

Example ex_wf_ops : Forall f_op_wf [FGetItem "x"; FGlobal "<state>y"; FLocal "z" None; FUnique "tmp"; FRefcount "x" true].
Proof. repeat constructor. Qed.

Lemma f_op_view cf op :
  (exists p, op = FUnique p) \/
  exists sp k p q, (forall s, f_step cf s op = with_prefix q (f_step cf s (f_op_of sp k p))) /\
                   (f_op_wf op -> f_prim_wf sp k p).
Proof.
  assert (N : forall r : res (string * f_state), r = with_prefix "" r).
  { intros [[v s]| |]; reflexivity. }
  destruct op as [k|k p|k|p|k|k q].
  - right. exists Global, k, None, "". split; [intros s; apply N | auto].
  - right. exists Local, k, p, "". split; [intros s; apply N|]. destruct p; cbn; tauto.
  - right. exists Function, k, None, "". split; [intros s; apply N | auto].
  - left. eauto.
  - right. destruct (is_state_variable k) eqn:E.
    + exists Global, k, None, f_state_qualifier. split; [|auto]. intros s. cbn. now rewrite E.
    + exists Local, k, None, "". split; [|reflexivity]. intros s. cbn. rewrite E. apply N.
  - right. destruct (is_state_variable k) eqn:E.
    + exists Global, k, None, (if q then f_state_qualifier ++ f_refcnt_prefix else f_refcnt_prefix).
      split; [|auto]. intros s. cbn. now rewrite E.
    + exists Local, (f_refcnt_prefix ++ k), None, "". split; [|reflexivity]. intros s. cbn. rewrite E. apply N.
Qed.

Theorem f_step_total cf s op : exists o s', f_step cf s op = Ok (o, s').
Proof.
  destruct (f_op_view cf op) as [[p ->]|[sp [k [p [q [E _]]]]]].
  - cbn [f_step]. unfold f_unique, gen_call_key.
    destruct (gen_call_total cf (f_gen s) (make_identifier (f_unique_prefix ++ p))) as [v [g ->]]. eauto.
  - rewrite E. destruct (f_prim_total cf s sp k p) as [v [s' ->]]. cbn. eauto.
Qed.

Lemma f_run_preserves cf (P : f_state -> Prop) ops :
  (forall s op o s', In op ops -> P s -> f_step cf s op = Ok (o, s') -> P s') ->
  forall s outs s', P s -> f_run cf s ops = Ok (outs, s') -> P s'.
Proof. exact (run_preserves (f_step cf) (f_run cf) (fun _ => eq_refl) (fun _ _ _ => eq_refl) P ops). Qed.

Theorem f_run_total cf ops : forall s, exists outs s', f_run cf s ops = Ok (outs, s').
Proof.
  exact (run_total (f_step cf) (f_run cf) (fun _ => eq_refl) (fun _ _ _ => eq_refl) (f_step_total cf) ops).
Qed.

Lemma f_step_keeps cf s op o s' sp k v :
  f_step cf s op = Ok (o, s') -> f_lookup s sp k = Some v -> f_lookup s' sp k = Some v.
Proof.
  intros H A. destruct (f_op_view cf op) as [[p ->]|[sp0 [k0 [p0 [q [E _]]]]]].
  - apply f_unique_spec in H as [L _]. now rewrite L.
  - rewrite E in H. apply with_prefix_ok in H as [w [H _]]. eapply f_prim_keeps; eauto.
Qed.

Lemma f_run_keeps cf ops s outs s' sp k v :
  f_run cf s ops = Ok (outs, s') -> f_lookup s sp k = Some v -> f_lookup s' sp k = Some v.
Proof.
  intros R A. apply (f_run_preserves cf (fun s => f_lookup s sp k = Some v) ops) with s outs; auto.
  intros s0 op o s1 _ A0 E. exact (f_step_keeps _ _ _ _ _ _ _ _ E A0).
Qed.

Theorem f_stable cf s op o s1 ops outs s2 :
  (forall p, op <> FUnique p) ->
  f_step cf s op = Ok (o, s1) -> f_run cf s1 ops = Ok (outs, s2) ->
  f_step cf s2 op = Ok (o, s2).
Proof.
  intros NU H R. destruct (f_op_view cf op) as [[p ->]|[sp [k [p [q [E _]]]]]]; [now destruct (NU p)|].
  rewrite E in H |- *. apply with_prefix_ok in H as [w [H ->]].
  apply f_prim_returns in H. eapply f_run_keeps in H; [|exact R].
  rewrite (f_prim_hit cf _ _ _ p _ H). reflexivity.
Qed.

(* The invariant for injectivity: every binding is among the shared generator's existing names, which are words;
   different (space, key) pairs have names that differ under the generator's comparison. *)

Record FInv (cf : bool) (s : f_state) : Prop := {
  fi_fp : g_fp (f_gen s) = "";
  fi_cover : forall sp k v, f_lookup s sp k = Some v -> In v (g_existing (f_gen s));
  fi_word : forall v, In v (g_existing (f_gen s)) -> sall is_word v = true;
  fi_inj : forall sp1 k1 v1 sp2 k2 v2,
      f_lookup s sp1 k1 = Some v1 -> f_lookup s sp2 k2 = Some v2 -> (sp1 <> sp2 \/ k1 <> k2) ->
      nrm cf v1 <> nrm cf v2
}.

Lemma f_start_facts :
  nodupb (map lower (map snd f_global_start)) = true /\ nodupb (map snd f_global_start) = true /\
  forallb (sall is_word) (map snd f_global_start) = true.
Proof. repeat split; reflexivity. Qed.

Lemma f0_lookup sp k v : f_lookup f0 sp k = Some v -> sp = Global /\ assoc k f_global_start = Some v.
Proof. destruct sp; cbn; intros H; (discriminate || auto). Qed.

Lemma FInv_f0 cf : FInv cf f0.
Proof.
  destruct f_start_facts as [N1 [N2 W]]. constructor.
  - reflexivity.
  - intros sp k v [_ H%assoc_in]%f0_lookup. change (In v (rev (map snd f_global_start))).
    apply -> in_rev. apply (in_map snd _ _ H).
  - intros v H. change (In v (rev (map snd f_global_start))) in H. apply in_rev in H.
    rewrite forallb_forall in W. auto.
  - intros sp1 k1 v1 sp2 k2 v2 [-> H1]%f0_lookup [-> H2]%f0_lookup [D|D]; [congruence|].
    apply (assoc_nodup_inj_f (nrm cf) f_global_start k1 k2 v1 v2); auto.
    (* [map (nrm false)] of the start names evaluates to the names themselves *)
    destruct cf; apply nodupb_NoDup; [exact N1 | exact N2].
Qed.

Lemma FInv_gen cf s s' o b (newk : option (space * string)) :
  FInv cf s ->
  gen_call cf (f_gen s) (make_identifier b) = Ok (o, f_gen s') ->
  (forall sp k v, f_lookup s' sp k = Some v -> f_lookup s sp k = Some v \/ (newk = Some (sp, k) /\ v = o)) ->
  FInv cf s'.
Proof.
  intros [F C W J] G Lk. pose proof (gen_call_word _ _ _ _ _ F (make_identifier_word b) G) as Wo.
  apply gen_call_spec in G as [_ [NC [EX FP]]]. apply conflicting_false in NC.
  assert (Fresh : forall sp k v, f_lookup s sp k = Some v -> nrm cf o <> nrm cf v).
  { intros sp k v Hl E. apply NC. rewrite E. apply in_map. eauto. }
  constructor.
  - now rewrite FP.
  - intros sp k v Hl. rewrite EX. apply Lk in Hl as [Hl|[_ ->]]; [right; eauto | now left].
  - intros v. rewrite EX. intros [<-|Hv]; auto.
  - intros sp1 k1 v1 sp2 k2 v2 H1 H2 D. apply Lk in H1 as [H1|[N1 ->]], H2 as [H2|[N2 ->]].
    + eapply J; eauto.
    + apply not_eq_sym. eauto.
    + eauto.
    + rewrite N1 in N2. injection N2 as <- <-. destruct D; congruence.
Qed.

Lemma FInv_step cf s op o s' : FInv cf s -> f_step cf s op = Ok (o, s') -> FInv cf s'.
Proof.
  intros I H. destruct (f_op_view cf op) as [[p ->]|[sp [k [p [q [E _]]]]]].
  - apply f_unique_spec in H as [L G]. apply (FInv_gen cf s s' o _ None I G).
    intros sp k v Hl. left. now rewrite <- L.
  - rewrite E in H. apply with_prefix_ok in H as [w [H _]].
    apply f_prim_spec in H as [[_ ->]|[_ [L G]]]; [exact I|].
    apply (FInv_gen cf s s' w _ (Some (sp, k)) I G).
    intros sp' k' v' Hl. rewrite L in Hl. apply upd_cases in Hl as [[-> [-> ->]]|Hl]; auto.
Qed.

Lemma FInv_run cf ops s outs s' : FInv cf s -> f_run cf s ops = Ok (outs, s') -> FInv cf s'.
Proof. apply (f_run_preserves cf (FInv cf)). intros s0 op o s1 _. apply FInv_step. Qed.

Definition f_reach (cf : bool) (s : f_state) : Prop := exists ops outs, f_run cf f0 ops = Ok (outs, s).

Lemma f_reach_inv cf s : f_reach cf s -> FInv cf s.
Proof. intros [ops [outs R]]. eapply FInv_run; [apply FInv_f0 | exact R]. Qed.

(* With the case-folding generator ([nrm true] is [lower]) the comparison is Fortran's.  As stated this is the
   field fi_inj; what there is to prove is that reachable states have it: FInv_gen, FInv_step, f_reach_inv. *)
Theorem f_injective_nrm cf s sp1 k1 v1 sp2 k2 v2 :
  FInv cf s -> f_lookup s sp1 k1 = Some v1 -> f_lookup s sp2 k2 = Some v2 ->
  (sp1 <> sp2 \/ k1 <> k2) -> nrm cf v1 <> nrm cf v2.
Proof. intros I. apply (fi_inj _ _ I). Qed.

Theorem f_injective_case_sensitive cf s sp1 k1 v1 sp2 k2 v2 :
  FInv cf s -> f_lookup s sp1 k1 = Some v1 -> f_lookup s sp2 k2 = Some v2 ->
  (sp1 <> sp2 \/ k1 <> k2) -> v1 <> v2.
Proof. intros I H1 H2 D E. apply (f_injective_nrm _ _ _ _ _ _ _ _ I H1 H2 D). now rewrite E. Qed.

Theorem f_injective_lower s sp1 k1 v1 sp2 k2 v2 :
  FInv true s -> f_lookup s sp1 k1 = Some v1 -> f_lookup s sp2 k2 = Some v2 ->
  (sp1 <> sp2 \/ k1 <> k2) -> lower v1 <> lower v2.
Proof. exact (f_injective_nrm true s sp1 k1 v1 sp2 k2 v2). Qed.

(* the unchanged tree (plain generator): two names that differ only in case collide in Fortran *)
Lemma f_injective_lower_refuted_plain :
  exists k1 k2 v1 v2, k1 <> k2 /\ f_outputs false [FGetItem k1; FGetItem k2] = Some [v1; v2] /\ lower v1 = lower v2.
Proof. exists "<state>y", "<state>Y", "dagrt_state%state_y", "dagrt_state%state_Y". repeat split. discriminate. Qed.

Theorem f_unique_fresh cf s p o s' :
  FInv cf s -> f_step cf s (FUnique p) = Ok (o, s') ->
  ~ In (nrm cf o) (map (nrm cf) (g_existing (f_gen s))) /\
  (forall sp k v, f_lookup s sp k = Some v -> nrm cf v <> nrm cf o) /\
  g_existing (f_gen s') = o :: g_existing (f_gen s).
Proof.
  intros I H. apply f_unique_spec in H as [_ G]. apply gen_call_spec in G as [_ [NC [EX _]]].
  apply conflicting_false in NC. repeat split; auto.
  intros sp k v Hl E. apply NC. rewrite <- E. apply in_map. eapply fi_cover; eauto.
Qed.

Lemma f_step_existing_grows cf s op o s' :
  f_step cf s op = Ok (o, s') -> incl (g_existing (f_gen s)) (g_existing (f_gen s')).
Proof.
  intros H. destruct (f_op_view cf op) as [[p ->]|[sp [k [p [q [E _]]]]]].
  - apply f_unique_spec in H as [_ G]. apply gen_call_spec in G as [_ [_ [EX _]]]. rewrite EX. now right.
  - rewrite E in H. apply with_prefix_ok in H as [w [H _]].
    apply f_prim_spec in H as [[_ ->]|[_ [_ G]]]; [apply incl_refl|].
    apply gen_call_spec in G as [_ [_ [EX _]]]. rewrite EX. now right.
Qed.

Lemma f_run_existing_grows cf ops s outs s' :
  f_run cf s ops = Ok (outs, s') -> incl (g_existing (f_gen s)) (g_existing (f_gen s')).
Proof.
  apply (f_run_preserves cf (fun s' => incl (g_existing (f_gen s)) (g_existing (f_gen s')))); [|apply incl_refl].
  intros s0 op o s1 _ A E. exact (incl_tran A (f_step_existing_grows _ _ _ _ _ E)).
Qed.

Theorem f_unique_distinct cf s p1 o1 s1 ops outs s2 p2 o2 s3 :
  f_step cf s (FUnique p1) = Ok (o1, s1) -> f_run cf s1 ops = Ok (outs, s2) ->
  f_step cf s2 (FUnique p2) = Ok (o2, s3) -> nrm cf o1 <> nrm cf o2.
Proof.
  intros H1 R H2. apply f_unique_spec in H1 as [_ G1], H2 as [_ G2].
  apply gen_call_spec in G1 as [_ [_ [EX1 _]]], G2 as [_ [NC _]]. apply conflicting_false in NC.
  intros E. apply NC. rewrite <- E. apply in_map. eapply f_run_existing_grows; eauto. rewrite EX1. now left.
Qed.

Lemma f_qualifier_nonword : sall is_word f_state_qualifier = false.
Proof. reflexivity. Qed.

Lemma word_not_qualified v : sall is_word v = true -> prefix f_state_qualifier v = false.
Proof.
  intros W. destruct (prefix f_state_qualifier v) eqn:E; [|reflexivity].
  apply prefix_split in E as [r ->]. rewrite sall_app, f_qualifier_nonword in W. discriminate.
Qed.

(* persistent names are components of the state structure, everything else is a local variable *)
Theorem f_storage cf s k v s' :
  FInv cf s -> f_step cf s (FGetItem k) = Ok (v, s') ->
  (is_state_variable k = true -> prefix f_state_qualifier v = true) /\
  (is_state_variable k = false -> sall is_word v = true /\ prefix f_state_qualifier v = false).
Proof.
  intros I H. pose proof (FInv_step _ _ _ _ _ I H) as I'. cbn in H. split; intros E; rewrite E in H.
  - apply with_prefix_ok in H as [w [_ ->]]. apply prefix_append.
  - assert (W : sall is_word v = true).
    { apply (f_prim_returns cf s Local k None) in H. eapply fi_word; eauto. eapply fi_cover; eauto. }
    split; [exact W | now apply word_not_qualified].
Qed.

(* what the generated module keeps for itself: everything in the "dagrt_" name space and its entry points;
   Fortran compares names without regard to case *)
Definition f_reserved (v : string) : bool :=
  prefix (lower f_internal_prefix) (lower v) || existsb (String.eqb (lower v)) (map lower f_entry_points).

(* enough for: no name that begins with h is reserved (incomparable_prefix_false) *)
Definition head_ok (h : string) : bool :=
  let l := lower h in
  negb (prefix l (lower f_internal_prefix)) && negb (prefix (lower f_internal_prefix) l)
  && forallb (fun r => negb (prefix l r)) (map lower f_entry_points).

(* the sanitised tag stays in front of every name generated for t ++ r (out_shape_keeps_head), so it decides both
   legality and reservedness *)
Definition tag_ok (t : string) : bool :=
  let h := lstrip_us (smap sanitise_char t) in
  first_is is_letter h && match split_counter h with None => head_ok h | Some _ => false end.
Definition tag_first (t : string) : bool := first_is is_letter (lstrip_us (smap sanitise_char t)).

Lemma first_letter_legal k v :
  first_is is_letter (make_identifier k) = true -> out_shape "" (make_identifier k) v -> f_name_chars v = true.
Proof.
  intros F S. unfold f_name_chars. apply andb_true_iff. split.
  - eapply out_shape_first; [|exact S]. exact F.
  - eapply out_shape_word; [|exact S]. apply make_identifier_word.
Qed.

Lemma tag_first_legal t r v :
  tag_first t = true -> out_shape "" (make_identifier (t ++ r)) v -> f_name_chars v = true.
Proof.
  unfold tag_first. intros F. apply first_letter_legal.
  rewrite make_identifier_tag by exact (first_is_nonempty _ _ F). now apply first_is_app.
Qed.

Lemma tag_ok_first t : tag_ok t = true -> tag_first t = true.
Proof. unfold tag_ok, tag_first. now intros [F _]%andb_true_iff. Qed.

Lemma tag_ok_unreserved t r v :
  tag_ok t = true -> out_shape "" (make_identifier (t ++ r)) v -> f_reserved v = false.
Proof.
  intros T S. pose proof (tag_ok_first _ T) as F. unfold tag_first in F. apply first_is_nonempty in F.
  unfold tag_ok in T. apply andb_true_iff in T as [_ T].
  destruct (split_counter _) eqn:N; [discriminate|]. unfold head_ok in T.
  rewrite !andb_true_iff, !negb_true_iff in T. destruct T as [[T1 T2] T3].
  assert (P : prefix (lstrip_us (smap sanitise_char t)) v = true).
  { apply (out_shape_keeps_head _ _ _ _ N) in S; [exact S|]. cbn. rewrite make_identifier_tag by exact F.
    apply prefix_append. }
  apply prefix_lower in P. unfold f_reserved. apply orb_false_iff. split.
  - eapply incomparable_prefix_false; [exact T1 | exact T2 | exact P].
  - eapply not_in_by_prefix; [exact T3 | exact P].
Qed.

Lemma f_tags_ok :
  tag_ok f_local_prefix = true /\ tag_ok f_unique_prefix = true /\ forallb tag_ok state_prefixes = true /\
  tag_first f_internal_prefix = true /\
  forallb (fun k => first_is is_letter (make_identifier k)) state_exact = true /\
  forallb (fun k => match assoc k f_global_start with Some _ => true | None => false end) state_exact = true /\
  forallb (fun kv => f_name_chars (snd kv)) f_global_start = true.
Proof. repeat split; reflexivity. Qed.

Lemma tag_ok_local_prefix : tag_ok f_local_prefix = true.
Proof. exact (proj1 f_tags_ok). Qed.

Lemma tag_ok_unique_prefix : tag_ok f_unique_prefix = true.
Proof. destruct f_tags_ok as (_ & X & _). exact X. Qed.

Lemma tag_ok_state_prefix t : In t state_prefixes -> tag_ok t = true.
Proof. destruct f_tags_ok as (_ & _ & X & _). rewrite forallb_forall in X. apply X. Qed.

Lemma tag_first_internal_prefix : tag_first f_internal_prefix = true.
Proof. destruct f_tags_ok as (_ & _ & _ & X & _). exact X. Qed.

Lemma state_exact_letter k : In k state_exact -> first_is is_letter (make_identifier k) = true.
Proof. destruct f_tags_ok as (_ & _ & _ & _ & X & _). rewrite forallb_forall in X. apply X. Qed.

Lemma state_exact_start k : In k state_exact -> assoc k f_global_start <> None.
Proof.
  intros H N. destruct f_tags_ok as (_ & _ & _ & _ & _ & X & _). rewrite forallb_forall in X. specialize (X _ H).
  now rewrite N in X.
Qed.

Lemma f_start_name_chars k v : In (k, v) f_global_start -> f_name_chars v = true.
Proof. intros H. destruct f_tags_ok as (_ & _ & _ & _ & _ & _ & X). rewrite forallb_forall in X. exact (X _ H). Qed.

(* names requested under a tag: locals of the user, temporaries, persistent names with a <...> prefix *)
Definition f_tagged (v : string) : Prop :=
  exists t r, tag_ok t = true /\ out_shape "" (make_identifier (t ++ r)) v.

Lemma f_tagged_ok v : f_tagged v -> f_name_chars v = true /\ f_reserved v = false.
Proof.
  intros [t [r [T S]]]. split; [exact (tag_first_legal _ _ _ (tag_ok_first _ T) S) | exact (tag_ok_unreserved _ _ _ T S)].
Qed.

Definition f_shape (sp : space) (k v : string) : Prop :=
  match sp with
  | Local => out_shape "" (make_identifier (seed_of k (f_local_prefix_for k None))) v
  | Global => In (k, v) f_global_start \/ (is_state_variable k = true /\ out_shape "" (make_identifier k) v)
  | Function => out_shape "" (make_identifier k) v
  end.
Definition FShape (s : f_state) : Prop := forall sp k v, f_lookup s sp k = Some v -> f_shape sp k v.

Lemma FShape_f0 : FShape f0.
Proof. intros sp k v [-> H]%f0_lookup. left. now apply assoc_in. Qed.

Lemma FShape_step cf s op o s' :
  FInv cf s -> FShape s -> f_op_wf op -> f_step cf s op = Ok (o, s') -> FShape s'.
Proof.
  intros I Sh Wf H. destruct (f_op_view cf op) as [[p ->]|[sp [k [p [q [E W]]]]]].
  - apply f_unique_spec in H as [L _]. intros sp k v Hl. rewrite L in Hl. now apply Sh.
  - specialize (W Wf). rewrite E in H. apply with_prefix_ok in H as [w [H _]].
    apply f_prim_spec in H as [[_ ->]|[_ [L G]]]; [exact Sh|].
    apply gen_call_spec in G as [S _]. rewrite (fi_fp _ _ I) in S.
    intros sp' k' v' Hl. rewrite L in Hl. apply upd_cases in Hl as [[-> [-> ->]]|Hl]; [|now apply Sh].
    destruct sp; cbn [f_prim_wf f_pfx f_shape] in *.
    + now subst p.
    + right. auto.
    + exact S.
Qed.

Lemma FInv_FShape_run cf ops s outs s' :
  FInv cf s -> FShape s -> Forall f_op_wf ops -> f_run cf s ops = Ok (outs, s') -> FInv cf s' /\ FShape s'.
Proof.
  intros I Sh Wf. apply (f_run_preserves cf (fun s => FInv cf s /\ FShape s)); [|now split].
  intros s0 op o s1 Hin [I0 Sh0] E. rewrite Forall_forall in Wf.
  split; [eapply FInv_step | eapply FShape_step]; eauto.
Qed.

Definition f_reach_wf (cf : bool) (s : f_state) : Prop :=
  exists ops outs, Forall f_op_wf ops /\ f_run cf f0 ops = Ok (outs, s).

Lemma f_reach_wf_inv cf s : f_reach_wf cf s -> FInv cf s /\ FShape s.
Proof. intros [ops [outs [W R]]]. eapply FInv_FShape_run; eauto using FInv_f0, FShape_f0. Qed.

Lemma is_state_cases k :
  is_state_variable k = true ->
  In k state_exact \/ exists t r, In t state_prefixes /\ k = t ++ r.
Proof.
  unfold is_state_variable. rewrite orb_true_iff. intros [H|H].
  - left. now apply existsb_str_In.
  - right. apply existsb_exists in H as [t [Ht P]]. apply prefix_split in P as [r ->]. eauto.
Qed.

Lemma f_local_seed k :
  (prefix f_internal_prefix k = false /\ seed_of k (f_local_prefix_for k None) = f_local_prefix ++ k) \/
  (exists r, k = f_internal_prefix ++ r /\ seed_of k (f_local_prefix_for k None) = f_internal_prefix ++ r).
Proof.
  unfold f_local_prefix_for, seed_of. destruct (prefix f_internal_prefix k) eqn:P; cbn [negb]; [right | now left].
  apply prefix_split in P as [r E]. exists r. split; exact E.
Qed.

Lemma f_shape_origin sp k v :
  f_shape sp k v ->
  match sp with
  | Local => f_tagged v \/ exists r, k = f_internal_prefix ++ r /\ out_shape "" (make_identifier k) v
  | Global => f_tagged v \/ In (k, v) f_global_start \/ (In k state_exact /\ out_shape "" (make_identifier k) v)
  | Function => out_shape "" (make_identifier k) v
  end.
Proof.
  destruct sp; cbn [f_shape]; auto.
  - destruct (f_local_seed k) as [[_ ->]|[r [-> ->]]]; intros Sh; [left | right; eauto].
    exists f_local_prefix, k. auto using tag_ok_local_prefix.
  - intros [Sh|[St Sh]]; [auto|]. apply is_state_cases in St as [Ex|[t [r [Ht ->]]]]; [auto|].
    left. exists t, r. auto using tag_ok_state_prefix.
Qed.

Theorem f_legal_chars s sp k v :
  FShape s -> f_lookup s sp k = Some v ->
  match sp with
  | Local | Global => f_name_chars v = true
  | Function => sall is_word v = true
  end.
Proof.
  intros Sh H. apply Sh, f_shape_origin in H. destruct sp.
  - destruct H as [T|[r [-> S]]]; [apply f_tagged_ok, T | exact (tag_first_legal _ _ _ tag_first_internal_prefix S)].
  - destruct H as [T|[S|[Ex S]]]; [apply f_tagged_ok, T | exact (f_start_name_chars _ _ S)|].
    exact (first_letter_legal _ _ (state_exact_letter _ Ex) S).
  - eapply out_shape_word; [|exact H]. apply make_identifier_word.
Qed.

(* user variables (keys outside "dagrt_") and persistent names other than <t>, <dt> stay out of the generator's
   own name space and away from the entry points *)
Theorem f_reserved_ok s sp k v :
  FShape s -> f_lookup s sp k = Some v ->
  match sp with
  | Local => prefix f_internal_prefix k = false -> f_reserved v = false
  | Global => assoc k f_global_start = None -> f_reserved v = false
  | Function => True
  end.
Proof.
  intros Sh H. apply Sh, f_shape_origin in H. destruct sp; [| |exact I].
  - intros P. destruct H as [T|[r [-> _]]]; [apply f_tagged_ok, T | now rewrite prefix_append in P].
  - intros N. destruct H as [T|[S|[Ex _]]]; [apply f_tagged_ok, T | now apply in_assoc_some in S|].
    now apply state_exact_start in Ex.
Qed.

Theorem f_unique_legal cf s p o s' :
  FInv cf s -> f_step cf s (FUnique p) = Ok (o, s') -> f_name_chars o = true /\ f_reserved o = false.
Proof.
  intros I H. apply f_unique_spec in H as [_ G]. apply gen_call_spec in G as [S _]. rewrite (fi_fp _ _ I) in S.
  apply f_tagged_ok. exists f_unique_prefix, p. auto using tag_ok_unique_prefix.
Qed.

Fixpoint rep (n : nat) (c : ascii) : string := match n with O => EmptyString | S m => String c (rep m c) end.

(* nothing bounds the length: a 58-character variable name becomes a 64-character identifier *)
Lemma f_legal_length_refuted cf :
  exists k v, f_outputs cf [FGetItem k] = Some [v] /\ f_name_chars v = true /\ f_identifier v = false.
Proof.
  exists (rep 58 "a"), (f_local_prefix ++ rep 58 "a"). split; [now destruct cf | split; reflexivity].
Qed.

(* name_function does not make its result start with a letter *)
Lemma f_legal_function_refuted cf :
  exists k v, f_outputs cf [FFunction k] = Some [v] /\ f_name_chars v = false.
Proof. exists "1f", "1f". split; [now destruct cf | reflexivity]. Qed.

(* a user variable whose name starts with "dagrt_" is taken as is: it can be one of the generator's own
   identifiers, or the reference counter of another variable *)
Lemma f_reserved_refuted cf :
  exists k v, f_outputs cf [FGetItem k] = Some [v] /\ f_reserved v = true /\ In v f_own_tokens.
Proof.
  exists "dagrt_state", "dagrt_state". split; [now destruct cf | split; [reflexivity|]].
  now apply existsb_str_In.
Qed.

Lemma f_refcount_shared_refuted cf :
  exists k1 k2 v, f_outputs cf [FGetItem k1; FRefcount k2 true] = Some [v; v].
Proof. exists "dagrt_refcnt_x", "x", "dagrt_refcnt_x". destruct cf; reflexivity. Qed.

Example ex_f_run :
  f_outputs true [FGetItem "y"; FGetItem "Y"; FGetItem "<state>y^"; FGetItem "<state>y*"; FGetItem "y_1";
                  FFunction "lploc_y"; FUnique "y"; FUnique "y"; FRefcount "y" true; FGetItem "Y"; FGetItem "<t>"]
  = Some ["lploc_y"; "lploc_Y_0"; "dagrt_state%state_y_"; "dagrt_state%state_y__0"; "lploc_y_1";
          "lploc_y_2"; "drtf_y"; "drtf_y_0"; "dagrt_refcnt_y"; "lploc_Y_0"; "dagrt_state%dagrt_t"].
Proof. reflexivity. Qed.

Example ex_f_run_plain :
  f_outputs false [FGetItem "y"; FGetItem "Y"; FFunction "lploc_y"]
  = Some ["lploc_y"; "lploc_Y"; "lploc_y_0"].
Proof. reflexivity. Qed.

Example ex_f_reach_wf cf :
  exists s, f_reach_wf cf s /\ f_lookup s Local "y" = Some "lploc_y" /\ f_lookup s Global "<p>y" = Some "p_y".
Proof.
  destruct cf; eexists;
    (split; [exists [FGetItem "y"; FGetItem "<p>y"]; eexists; split; [repeat constructor | vm_compute; reflexivity]|]);
    split; reflexivity.
Qed.

(* Last, because they are about strings under the names of List's app_nil_r and app_assoc and of
   StringFacts.prefix_iff, which they shadow for whoever imports this file; no proof above means them. *)
Lemma app_nil_r s : s ++ "" = s.
Proof. exact (append_nil_r s). Qed.

Lemma app_assoc a b c : (a ++ b) ++ c = a ++ (b ++ c).
Proof. exact (append_assoc a b c). Qed.

Lemma prefix_iff p s : prefix p s = true <-> exists r, s = p ++ r.
Proof. exact (StringFacts.prefix_iff p s). Qed.
