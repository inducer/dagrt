(* Proofs about model/Lang.v: evaluation only touches the variables the
   dependency mapper reports; statement execution only touches the declared
   read/write sets (C08); frame property used by C02. *)
From Coq Require Import List ZArith String Bool Arith Lia.
Import ListNotations.
From Dagrt Require Import Lang ListFacts.

Section expr_ind'.
  Variable P : expr -> Prop.
  Hypothesis HInt : forall z, P (EInt z).
  Hypothesis HBool : forall b, P (EBool b).
  Hypothesis HNone : P ENone.
  Hypothesis HVar : forall x, P (EVar x).
  Hypothesis HNot : forall a, P a -> P (ENot a).
  Hypothesis HIf : forall c t e, P c -> P t -> P e -> P (EIf c t e).
  Hypothesis HBin : forall o a b, P a -> P b -> P (EBin o a b).
  Hypothesis HNary : forall o l, Forall P l -> P (ENary o l).
  Fixpoint expr_ind' (e : expr) : P e :=
    match e with
    | EInt z => HInt z | EBool b => HBool b | ENone => HNone | EVar x => HVar x
    | ENot a => HNot a (expr_ind' a)
    | EIf c t e => HIf c t e (expr_ind' c) (expr_ind' t) (expr_ind' e)
    | EBin o a b => HBin o a b (expr_ind' a) (expr_ind' b)
    | ENary o l => HNary o l ((fix go (l : list expr) : Forall P l :=
                                 match l with
                                 | [] => Forall_nil P
                                 | x :: l' => Forall_cons x (expr_ind' x) (go l')
                                 end) l)
    end.
End expr_ind'.

Definition agree (P : var -> Prop) (s s' : store) : Prop := forall x, P x -> s x = s' x.

Lemma agree_weaken (P Q : var -> Prop) s s' : (forall x, Q x -> P x) -> agree P s s' -> agree Q s s'.
Proof. unfold agree; auto. Qed.

Lemma upd_same (s : store) x v : upd s x v x = Some v.
Proof. unfold upd. now rewrite String.eqb_refl. Qed.

Lemma upd_other (s : store) x v y : y <> x -> upd s x v y = s y.
Proof. intros H. unfold upd. destruct (String.eqb_spec y x); [contradiction|reflexivity]. Qed.

Lemma agree_upd P s s' x v : agree P s s' -> agree P (upd s x v) (upd s' x v).
Proof. unfold agree, upd. intros H y Hy. destruct (String.eqb y x); auto. Qed.

Lemma agree_upd_add (P : var -> Prop) s s' x v :
  agree P s s' -> agree (fun y => P y \/ y = x) (upd s x v) (upd s' x v).
Proof.
  unfold agree, upd. intros H y [Hy | ->].
  - destruct (String.eqb y x); auto.
  - now rewrite String.eqb_refl.
Qed.

Lemma agree_del P s s' x : agree P s s' -> agree P (del s x) (del s' x).
Proof. unfold agree, del. intros H y Hy. destruct (String.eqb y x); auto. Qed.

Section Sem.
  Variable F : string -> list val -> list (string * val) -> option (list val).
  Notation eval := (eval F).
  Notation eval_list := (eval_list F).

  (* R is any set containing the variables of e, so that no caller has to weaken an agreement *)
  Definition EvalP (e : expr) : Prop :=
    forall R : var -> Prop, Forall R (vars e) -> forall s s', agree R s s' ->
    eval s e = eval s' e /\ Forall R (fst (eval s' e)).

  (* The loop by which eval folds the children of a strict n-ary node (every operator but NAnd and
     NOr, which have a short-circuiting loop each), under a name. *)
  Definition nfold (s : store) (o : nop) : nacc -> list expr -> list var * rs nacc :=
    fix go acc l :=
      match l with
      | [] => ([], Ok acc)
      | e :: l' =>
          let (r, v) := eval s e in
          match v with
          | Err u => (r, Err u)
          | Ok x => match nstep o acc x with
                    | None => (r, Err false)
                    | Some acc' => let (r2, res) := go acc' l' in (r ++ r2, res)
                    end
          end
      end.

  (* all() and any(): stop is the truth value that ends the loop and is then its result *)
  Definition lazy_op (stop : bool) : nop := if stop then NOr else NAnd.

  Lemma eval_nary_cases o :
    (forall s l, eval s (ENary o l) = let (r, a) := nfold s o (ninit o) l in (r, rbind a (nfinish F o)))
    \/ exists stop, o = lazy_op stop.
  Proof. destruct o; auto; right; [exists false|exists true]; reflexivity. Qed.

  Lemma eval_lazy_nil stop s : eval s (ENary (lazy_op stop) []) = ([], Ok (VBool (negb stop))).
  Proof. destruct stop; reflexivity. Qed.

  Lemma eval_lazy_cons stop s a l :
    eval s (ENary (lazy_op stop) (a :: l)) =
    let (r, v) := eval s a in
    match rbind v (fun v => lift (truth v)) with
    | Err u => (r, Err u)
    | Ok b => if Bool.eqb b stop then (r, Ok (VBool stop))
              else let (r2, v2) := eval s (ENary (lazy_op stop) l) in (r ++ r2, v2)
    end.
  Proof.
    destruct stop; cbn [lazy_op Lang.eval]; destruct (eval s a) as [r v]; destruct (rbind v _) as [[|]|u]; reflexivity.
  Qed.

  Lemma nfold_ok (R : var -> Prop) s s' o l :
    Forall EvalP l -> Forall R (flat_map vars l) -> agree R s s' ->
    forall acc, nfold s o acc l = nfold s' o acc l /\ Forall R (fst (nfold s' o acc l)).
  Proof.
    intros IH. induction IH as [|a l A _ G]; intros HR H acc; cbn [nfold flat_map] in *; [auto|].
    apply Forall_app in HR as [Ha Hl]. destruct (A R Ha s s' H) as [-> Ra].
    destruct (eval s' a) as [r [v|u]]; [|auto]. destruct (nstep o acc v) as [acc'|]; [|auto].
    destruct (G Hl H acc') as [-> Rl]. destruct (nfold s' o acc' l). split; [reflexivity|apply Forall_app; auto].
  Qed.

  Lemma lazy_ok (R : var -> Prop) s s' stop l :
    Forall EvalP l -> Forall R (flat_map vars l) -> agree R s s' ->
    eval s (ENary (lazy_op stop) l) = eval s' (ENary (lazy_op stop) l) /\
    Forall R (fst (eval s' (ENary (lazy_op stop) l))).
  Proof.
    intros IH HR H. induction IH as [|a l A _ G]; [rewrite !eval_lazy_nil; split; [reflexivity|constructor]|].
    cbn [flat_map] in HR. apply Forall_app in HR as [Ha Hl]. rewrite !eval_lazy_cons.
    destruct (A R Ha s s' H) as [-> Ra]. destruct (eval s' a) as [r v]. destruct (rbind v _) as [b|u]; [|auto].
    destruct (Bool.eqb b stop); [auto|]. destruct (G Hl) as [-> Rl].
    destruct (eval s' (ENary _ l)). split; [reflexivity|apply Forall_app; auto].
  Qed.

  Lemma eval_ok : forall e, EvalP e.
  Proof.
    induction e as [z|b| |x|a IH|c t e C T E|o a b A B|o l IH] using expr_ind'; intros R HR s s' H;
      cbn [vars] in HR; rewrite ?Forall_app in HR; try (split; [reflexivity|constructor]).
    - apply Forall_cons_iff in HR as [Rx _]. cbn [Lang.eval fst]. rewrite (H x Rx). auto.
    - cbn [Lang.eval]. destruct (IH R HR s s' H) as [-> Ra]. destruct (eval s' a). auto.
    - destruct HR as (Hc & Ht & He). cbn [Lang.eval]. destruct (C R Hc s s' H) as [-> Rc].
      destruct (eval s' c) as [r v]. destruct (rbind v _) as [[|]|u]; [| |auto].
      + destruct (T R Ht s s' H) as [-> Rt]. destruct (eval s' t). split; [reflexivity|apply Forall_app; auto].
      + destruct (E R He s s' H) as [-> Re]. destruct (eval s' e). split; [reflexivity|apply Forall_app; auto].
    - destruct HR as [Ha Hb]. cbn [Lang.eval]. destruct (A R Ha s s' H) as [-> Ra].
      destruct (eval s' a) as [r1 [v1|u]]; [|auto]. destruct (B R Hb s s' H) as [-> Rb].
      destruct (eval s' b). split; [reflexivity|apply Forall_app; auto].
    - (* the wrapper around nfold keeps the reads and sends equal results to equal results *)
      destruct (eval_nary_cases o) as [E|[stop ->]]; [|exact (lazy_ok R s s' stop l IH HR H)].
      rewrite !E. destruct (nfold_ok R s s' o l IH HR H (ninit o)) as [-> Rl].
      destruct (nfold s' o (ninit o) l). auto.
  Qed.

  Lemma eval_reads s e x : In x (fst (eval s e)) -> In x (vars e).
  Proof.
    destruct (eval_ok e (fun x => In x (vars e))) with (s := s) (s' := s) as [_ H];
      [apply Forall_forall; auto|intros y _; reflexivity|].
    rewrite Forall_forall in H. apply H.
  Qed.

  Lemma eval_frame s s' e : agree (fun x => In x (vars e)) s s' -> eval s e = eval s' e.
  Proof. intros H. apply (eval_ok e (fun x => In x (vars e))); [apply Forall_forall; auto|exact H]. Qed.

  Lemma eval_list_ok (R : var -> Prop) s s' l :
    Forall R (flat_map vars l) -> agree R s s' ->
    eval_list s l = eval_list s' l /\ Forall R (fst (eval_list s' l)).
  Proof.
    induction l as [|a l IH]; cbn [Lang.eval_list flat_map]; [auto|]. intros HR H.
    apply Forall_app in HR as [Ha Hl]. destruct (eval_ok a R Ha s s' H) as [-> Ra].
    destruct (eval s' a) as [r [v|u]]; [|auto]. destruct (IH Hl H) as [-> Rl].
    destruct (eval_list s' l). split; [reflexivity|apply Forall_app; auto].
  Qed.

  Lemma eval_frame_on (P : var -> Prop) s s' e : Forall P (vars e) -> agree P s s' -> eval s e = eval s' e.
  Proof. intros HP H. apply (eval_ok e P HP s s' H). Qed.

  Lemma eval_list_frame_on (P : var -> Prop) s s' l :
    Forall P (flat_map vars l) -> agree P s s' -> eval_list s l = eval_list s' l.
  Proof. intros HP H. apply (eval_list_ok P s s' l HP H). Qed.
End Sem.

Definition acc_ok (R W : var -> Prop) (a : access) : Prop :=
  match a with Rd x => R x | Wr x => W x | Dl x => W x end.

Definition out_agree (P : var -> Prop) (o o' : outcome) : Prop :=
  match o, o' with
  | ONext a ev, ONext b ev' => agree P a b /\ ev = ev'
  | OFail, OFail | OUserExn, OUserExn | OCrash, OCrash => True
  | OSwitch p, OSwitch q => p = q
  | ORaise k, ORaise j => k = j
  | _, _ => False
  end.

(* Two runs of a store computation, from s and from s'.  That both results carry the same access list a, and
   the third premise of fp_ok (with fp_err), are the frame property: equal accesses, and the same exception or
   stores that agree on P.  The first premise, all accesses within R / W, and the second, s1 is s outside W,
   speak of the first run alone.  The second is not a consequence of the accesses: x[i] = e changes x, and Rd x
   is its only access to x.  It stands in the relation because the same walk over a function proves it, and
   because whoever compares two runs also needs to know what the first of them left unchanged. *)
Inductive fp_rel (R W P : var -> Prop) (s : store) : list access * rs store -> list access * rs store -> Prop :=
| fp_ok a s1 s1' : Forall (acc_ok R W) a -> (forall y, ~ W y -> s1 y = s y) -> agree P s1 s1' ->
    fp_rel R W P s (a, Ok s1) (a, Ok s1')
| fp_err a u : Forall (acc_ok R W) a -> fp_rel R W P s (a, Err u) (a, Err u).

(* P contains W as well as R: deleting a loop counter looks it up first *)
Definition footprint (R W : var -> Prop) (c : store -> list access * rs store) : Prop :=
  forall P : var -> Prop, (forall x, R x \/ W x -> P x) ->
  forall s s', agree P s s' -> fp_rel R W P s (c s) (c s').

(* the same for a statement, whose result is an outcome *)
Inductive fpo_rel (R W P : var -> Prop) (s : store) : list access * outcome -> list access * outcome -> Prop :=
| fpo_next a s1 s1' ev : Forall (acc_ok R W) a -> (forall y, ~ W y -> s1 y = s y) -> agree P s1 s1' ->
    fpo_rel R W P s (a, ONext s1 ev) (a, ONext s1' ev)
| fpo_halt a o : Forall (acc_ok R W) a -> (forall s1 ev, o <> ONext s1 ev) -> fpo_rel R W P s (a, o) (a, o).

Inductive frame_rel (P : var -> Prop) : list access * rs store -> list access * rs store -> Prop :=
| frame_ok a s s' : agree P s s' -> frame_rel P (a, Ok s) (a, Ok s')
| frame_err a u : frame_rel P (a, Err u) (a, Err u).

Lemma rds_ok (R W : var -> Prop) l : Forall R l -> Forall (acc_ok R W) (rds l).
Proof. intros H. apply Forall_map. exact H. Qed.

Lemma agree_refl P s : agree P s s.
Proof. intros x _. reflexivity. Qed.

Section Footprint.
  Variables (R W : var -> Prop) (c : store -> list access * rs store).
  Hypothesis Hfp : footprint R W c.

  Lemma footprint_self s : fp_rel R W (fun _ => True) s (c s) (c s).
  Proof. apply Hfp; [auto|apply agree_refl]. Qed.

  Lemma footprint_acc s : Forall (acc_ok R W) (fst (c s)).
  Proof. destruct (footprint_self s); assumption. Qed.

  Lemma footprint_unch s a s1 : c s = (a, Ok s1) -> forall y, ~ W y -> s1 y = s y.
  Proof. intros E. pose proof (footprint_self s) as Hs. rewrite E in Hs. inversion Hs. assumption. Qed.

  Lemma footprint_frame (P : var -> Prop) s s' :
    (forall x, R x \/ W x -> P x) -> agree P s s' -> frame_rel P (c s) (c s').
  Proof. intros HP Ha. destruct (Hfp P HP s s' Ha); constructor; assumption. Qed.
End Footprint.

Lemma fpo_of_rs R W P s a r a' r' :
  fp_rel R W P s (a, r) (a', r') -> fpo_rel R W P s (a, of_rs r) (a', of_rs r').
Proof. inversion 1; subst; [now constructor|]. apply fpo_halt; [assumption|]. now destruct u. Qed.

Lemma fpo_err R W P s a u : Forall (acc_ok R W) a -> fpo_rel R W P s (a, of_rs (Err u)) (a, of_rs (Err u)).
Proof. intros A. apply fpo_of_rs, fp_err, A. Qed.

Lemma fpo_out_agree R W P s c c' :
  fpo_rel R W P s c c' -> fst c = fst c' /\ out_agree P (snd c) (snd c').
Proof.
  destruct 1 as [a s1 s1' ev _ _ H|a o _ _]; cbn; [auto|]. split; [reflexivity|].
  destruct o; cbn; auto using agree_refl.
Qed.

Lemma of_rs_agree P a r a' r' :
  frame_rel P (a, r) (a', r') -> a = a' /\ out_agree P (of_rs r) (of_rs r').
Proof. inversion 1 as [? s s' H0|? [|]]; subst; cbn; auto. Qed.

(* Lang.loopvars and the loop-bound summand of Lang.kind_reads, on the loop list itself: exec_kind_fp hands
   facts about those to the rules below by conversion *)
Definition loop_idents (loops : list (var * expr * expr)) : list var := map (fun l => fst (fst l)) loops.
Definition loop_bound_vars (loops : list (var * expr * expr)) : list var :=
  flat_map (fun l => vars (snd (fst l)) ++ vars (snd l)) loops.

Section Rules.
  Variable F : string -> list val -> list (string * val) -> option (list val).
  Notation eval := (eval F).
  Variables R W : var -> Prop.

  (* evaluation, of an expression or of a list: the step every rule below starts with *)
  Lemma reads_fp {A} (ev : store -> list var * A) (vs : list var) (P : var -> Prop) s s' :
    (forall R : var -> Prop, Forall R vs -> forall s s', agree R s s' -> ev s = ev s' /\ Forall R (fst (ev s'))) ->
    Forall R vs -> (forall x, R x \/ W x -> P x) -> agree P s s' ->
    ev s = ev s' /\ Forall (acc_ok R W) (rds (fst (ev s'))).
  Proof.
    intros Hev HR HP Ha. destruct (Hev R HR s s') as [E Hr]; [intros x Hx; apply Ha, HP; now left|].
    split; [exact E|apply rds_ok, Hr].
  Qed.

  Definition eval_fp P s s' e := reads_fp (fun s => eval s e) (vars e) P s s' (eval_ok F e).
  Definition eval_list_fp P s s' l :=
    reads_fp (fun s => eval_list F s l) (flat_map vars l) P s s' (fun R HR s s' => eval_list_ok F R s s' l HR).

  Lemma unch_upd (s s1 : store) x v : W x -> (forall y, ~ W y -> s1 y = upd s x v y) -> forall y, ~ W y -> s1 y = s y.
  Proof.
    intros Hx H y Hy. rewrite (H y Hy). unfold upd. destruct (String.eqb_spec y x) as [->|]; [contradiction|reflexivity].
  Qed.

  Lemma footprint_ret : footprint R W (fun s => ([], Ok s)).
  Proof. intros P HP s s' Ha. constructor; [constructor|reflexivity|exact Ha]. Qed.

  Lemma footprint_assign_once x sub rhs :
    Forall R (vars rhs) -> Forall R (match sub with Some ie => vars ie | None => [] end) ->
    (sub <> None -> R x) -> W x ->
    footprint R W (fun s => assign_once F s x sub rhs).
  Proof.
    intros Hrhs Hsub Rx Wx P HP s s' Ha. unfold assign_once.
    assert (Hupd : forall a w, Forall (acc_ok R W) a -> fp_rel R W P s (a, Ok (upd s x w)) (a, Ok (upd s' x w))).
    { intros a w A. constructor; [exact A| |apply agree_upd, Ha]. apply (unch_upd s _ x w Wx). reflexivity. }
    destruct (eval_fp P s s' rhs Hrhs HP Ha) as [-> A1].
    destruct (eval s' rhs) as [r [v|u]]; cbn [fst] in A1; [|constructor; exact A1].
    destruct sub as [ie|]; [|apply Hupd, Forall_app; split; [exact A1|repeat constructor; exact Wx]].
    assert (Ax : Forall (acc_ok R W) [Rd x]) by (repeat constructor; apply Rx; discriminate).
    rewrite (Ha x (HP x (or_intror Wx))).
    destruct (s' x) as [agg|]; [|constructor; apply Forall_app; auto].
    destruct (eval_fp P s s' ie Hsub HP Ha) as [-> A2].
    destruct (eval s' ie) as [r2 iv]; cbn [fst] in A2.
    assert (A : Forall (acc_ok R W) (rds r ++ [Rd x] ++ rds r2)) by (rewrite !Forall_app; auto).
    destruct iv as [iv|u]; [|constructor; exact A].
    destruct agg, iv, (as_int v); try (constructor; exact A).
    destruct (norm_index _ _); [apply Hupd|constructor]; exact A.
  Qed.

  Lemma footprint_iter_range ident inner :
    footprint R W inner -> W ident -> forall n i, footprint R W (iter_range n i ident inner).
  Proof.
    intros Hin Hw. induction n as [|n IH]; intros i; [exact footprint_ret|].
    intros P HP s s' Ha; cbn [iter_range].
    destruct (Hin P HP _ _ (agree_upd P s s' ident (VInt i) Ha)) as [a1 s1 s1' A1 U1 H1|a1 u A1];
      [|constructor; constructor; assumption].
    destruct (IH (i + 1)%Z P HP s1 s1' H1) as [a2 s2 s2' A2 U2 H2|a2 u A2]; constructor;
      try (constructor; [exact Hw|apply Forall_app; auto]); [|exact H2].
    apply (unch_upd s s2 ident (VInt i) Hw). intros y Hy. rewrite (U2 y Hy). apply U1, Hy.
  Qed.

  Lemma footprint_run_loops body loops :
    footprint R W body -> Forall R (loop_bound_vars loops) -> Forall W (loop_idents loops) ->
    footprint R W (run_loops F loops body).
  Proof.
    intros Hb. induction loops as [|[[ident lo] hi] ls IH]; intros HR HW; cbn [run_loops]; [exact Hb|].
    cbn [loop_bound_vars loop_idents flat_map map fst snd] in HR, HW.
    rewrite !Forall_app in HR. destruct HR as [[Hlo Hhi] HR]. apply Forall_cons_iff in HW as [Hi HW].
    intros P HP s s' Ha.
    destruct (eval_fp P s s' lo Hlo HP Ha) as [-> A1].
    destruct (eval s' lo) as [r1 [vl|u]]; cbn [fst] in A1; [|constructor; exact A1].
    destruct (eval_fp P s s' hi Hhi HP Ha) as [-> A2].
    destruct (eval s' hi) as [r2 [vh|u]]; cbn [fst] in A2; [|constructor; apply Forall_app; auto].
    destruct (bound_int vl) as [a|]; [|constructor; apply Forall_app; auto].
    destruct (bound_int vh) as [b|]; [|constructor; apply Forall_app; auto].
    destruct (footprint_iter_range ident _ (IH HR HW) Hi (Z.to_nat (b - a)) a P HP s s' Ha);
      constructor; rewrite ?Forall_app; auto.
  Qed.

  Lemma footprint_del_loopvars g loops :
    Forall W (loop_idents loops) -> footprint R W (del_loopvars g loops).
  Proof.
    induction loops as [|[[ident lo] hi] ls IH]; intros HW P HP s s' Ha; cbn [del_loopvars].
    - exact (footprint_ret P HP s s' Ha).
    - cbn [loop_idents map fst] in HW. apply Forall_cons_iff in HW as [Hi HW].
      assert (A : acc_ok R W (Dl ident)) by exact Hi.
      rewrite (Ha ident (HP ident (or_intror Hi))). destruct (s' ident).
      + destruct (IH HW P HP _ _ (agree_del P s s' ident Ha)) as [a s1 s1' A1 U1 H1|a u A1]; constructor; auto.
        intros y Hy. rewrite (U1 y Hy). unfold del. destruct (String.eqb_spec y ident) as [->|]; [contradiction|reflexivity].
      + destruct g; [|constructor; repeat constructor; exact Hi].
        destruct (IH HW P HP s s' Ha); constructor; auto.
  Qed.

  Lemma footprint_assign_all : forall xs vs, Forall W xs ->
    footprint R W (fun s => let (a, s1) := assign_all s xs vs in (a, Ok s1)).
  Proof.
    induction xs as [|x xs IH]; intros vs HW P HP s s' Ha; cbn [assign_all].
    - exact (footprint_ret P HP s s' Ha).
    - destruct vs as [|v vs]; [exact (footprint_ret P HP s s' Ha)|].
      apply Forall_cons_iff in HW as [Hx HW].
      pose proof (IH vs HW P HP _ _ (agree_upd P s s' x v Ha)) as H. cbv beta in H.
      destruct (assign_all (upd s x v) xs vs), (assign_all (upd s' x v) xs vs).
      inversion H as [? ? ? A U H1|]; subst. constructor; [constructor; assumption| |exact H1].
      exact (unch_upd s _ x v Hx U).
  Qed.
End Rules.

(* the second disjunct carries the induction: the counter just deleted may or may not occur again in the rest *)
Lemma del_loopvars_none g loops : forall s a s',
  del_loopvars g loops s = (a, Ok s') -> forall y, In y (loop_idents loops) \/ s y = None -> s' y = None.
Proof.
  induction loops as [|[[ident lo] hi] ls IH]; intros s a s' E y Hy; cbn [del_loopvars loop_idents map fst] in *.
  - injection E as _ <-. destruct Hy as [[]|Hy]. exact Hy.
  - destruct (s ident) eqn:Es; [|destruct g; [|discriminate]];
      destruct (del_loopvars _ ls _) as [a0 r0] eqn:E0; injection E as _ ->; apply (IH _ _ _ E0 y).
    + destruct Hy as [[<-|Hy]|Hy]; auto; right; unfold del; [now rewrite String.eqb_refl|].
      destruct (String.eqb y ident); auto.
    + destruct Hy as [[<-|Hy]|Hy]; auto.
Qed.

Lemma del_loopvars_gone g loops s a s' :
  del_loopvars g loops s = (a, Ok s') -> forall y, In y (loop_idents loops) -> s' y = None.
Proof. intros E y Hy. exact (del_loopvars_none g loops s a s' E y (or_introl Hy)). Qed.

Section Exec.
  Variable F : string -> list val -> list (string * val) -> option (list val).
  Variable g : bool.     (* del_guarded *)

  (* what a statement may read: besides its declared reads also what it writes, because a subscripted
     assignment x[i] = e reads x (the Rd x of assign_once) and x is declared as written only *)
  Definition RW (st : stmt) (x : var) : Prop := In x (reads true true st ++ writes st).
  Definition WL (st : stmt) (x : var) : Prop := In x (writes st ++ loopvars (skd st)).
  Definition FP (st : stmt) (x : var) : Prop :=
    In x (reads true true st ++ writes st ++ loopvars (skd st)).

  (* exec_kind's case for an assignment without loops is the general case with no loops to run *)
  Lemma exec_kind_assign s x sub rhs loops :
    exec_kind F g s (KAssign x sub rhs loops) =
    let (a, r) := run_loops F loops (fun s => assign_once F s x sub rhs) s in
    match r with
    | Err u => (a, of_rs (Err u))
    | Ok s1 => let (a2, r2) := del_loopvars g loops s1 in (a ++ a2, of_rs r2)
    end.
  Proof.
    destruct loops; [|reflexivity]. cbn [exec_kind run_loops del_loopvars].
    destruct (assign_once F s x sub rhs) as [a [s1|u]]; [rewrite app_nil_r|]; reflexivity.
  Qed.

  Lemma exec_kind_fp (R W P : var -> Prop) k :
    Forall R (kind_reads true true k ++ kind_writes k) -> Forall W (kind_writes k ++ loopvars k) ->
    (forall x, R x \/ W x -> P x) ->
    forall s s', agree P s s' -> fpo_rel R W P s (exec_kind F g s k) (exec_kind F g s' k).
  Proof.
    rewrite !Forall_app. intros [Hr Hx] [Hw Hl] HP s s' Ha.
    assert (Hnil : Forall (acc_ok R W) []) by constructor.
    destruct k as [x sub rhs loops|xs f args kw|comp tid time e| | | | ];
      [rewrite !exec_kind_assign|..]; cbn [exec_kind kind_reads kind_writes loopvars] in *;
      try (apply fpo_halt; [exact Hnil|discriminate]).
    - rewrite !Forall_app in Hr. destruct Hr as (Hrhs & Hsub & Hb).
      apply Forall_cons_iff in Hx as [Rx _]. apply Forall_cons_iff in Hw as [Wx _].
      pose proof (footprint_assign_once F R W x sub rhs Hrhs Hsub (fun _ => Rx) Wx) as Hbody.
      destruct (footprint_run_loops F R W _ loops Hbody Hb Hl P HP s s' Ha) as [a s1 s1' A1 U1 H1|a u A1];
        [|apply fpo_err, A1].
      destruct (footprint_del_loopvars R W g loops Hl P HP s1 s1' H1) as [a2 s2 s2' A2 U2 H2|a2 u A2].
      + constructor; [apply Forall_app; auto| |exact H2]. intros y Hy. now rewrite U2, U1.
      + apply fpo_err, Forall_app. auto.
    - rewrite Forall_app, <- (flat_map_map vars snd) in Hr. destruct Hr as [Hargs Hkw].
      destruct (eval_list_fp F R W P s s' args Hargs HP Ha) as [-> A1].
      destruct (eval_list F s' args) as [r1 [pos|u]]; cbn [fst] in A1; [|apply fpo_err, A1].
      destruct (eval_list_fp F R W P s s' _ Hkw HP Ha) as [-> A2].
      destruct (eval_list F s' (map snd kw)) as [r2 [kws|u]]; cbn [fst] in A2; [|apply fpo_err, Forall_app; auto].
      assert (A12 : Forall (acc_ok R W) (rds r1 ++ rds r2)) by (apply Forall_app; auto).
      destruct (F f pos _) as [res|]; [|apply (fpo_err R W P s _ true), A12].
      destruct xs as [|x0 xs0]; [constructor; [exact A12|reflexivity|exact Ha]|].
      destruct (Nat.eqb _ _); [|apply (fpo_err R W P s _ false), A12].
      pose proof (footprint_assign_all R W (x0 :: xs0) res Hw P HP s s' Ha) as H3. cbv beta in H3.
      destruct (assign_all s (x0 :: xs0) res), (assign_all s' (x0 :: xs0) res).
      inversion H3 as [? ? ? A3 U3 E3|]; subst.
      constructor; [rewrite app_assoc; apply Forall_app; auto|exact U3|exact E3].
    - rewrite Forall_app in Hr. destruct Hr as [He Ht].
      destruct (eval_fp F R W P s s' time Ht HP Ha) as [-> A1].
      destruct (eval F s' time) as [r1 [t|u]]; cbn [fst] in A1; [|apply fpo_err, A1].
      destruct (eval_fp F R W P s s' e He HP Ha) as [-> A2].
      destruct (eval F s' e) as [r2 [v|u]]; cbn [fst] in A2; [|apply fpo_err, Forall_app; auto].
      constructor; [apply Forall_app; auto|reflexivity|exact Ha].
    - constructor; [exact Hnil|reflexivity|exact Ha].
  Qed.

  (* C08 in one statement: reads_covered, writes_covered, untouched and frame are its projections *)
  Theorem exec_stmt_fp (P : var -> Prop) st :
    (forall x, FP st x -> P x) ->
    forall s s', agree P s s' -> fpo_rel (RW st) (WL st) P s (exec_stmt F g s st) (exec_stmt F g s' st).
  Proof.
    intros HP s s' Ha.
    assert (HR : Forall (RW st) (reads true true st ++ writes st)) by (apply Forall_forall; auto).
    assert (HW : Forall (WL st) (writes st ++ loopvars (skd st))) by (apply Forall_forall; auto).
    assert (HP' : forall x, RW st x \/ WL st x -> P x).
    { intros x Hx. apply HP. unfold FP, RW, WL in *. rewrite !in_app_iff in *. tauto. }
    unfold reads, writes in HR, HW. rewrite !Forall_app in HR. destruct HR as [[Hk Hc] Hx].
    unfold exec_stmt. destruct (eval_fp F (RW st) (WL st) P s s' (scond st) Hc HP' Ha) as [-> A1].
    destruct (eval F s' (scond st)) as [r v]. cbn [fst] in A1.
    destruct (rbind v _) as [[|]|u]; [|constructor; [exact A1|reflexivity|exact Ha]|apply fpo_err, A1].
    destruct (exec_kind_fp (RW st) (WL st) P (skd st) ltac:(apply Forall_app; auto) HW HP' s s' Ha);
      constructor; try (apply Forall_app; split); assumption.
  Qed.

  Lemma exec_stmt_self s st : fpo_rel (RW st) (WL st) (fun _ => True) s (exec_stmt F g s st) (exec_stmt F g s st).
  Proof. exact (exec_stmt_fp (fun _ => True) st (fun _ _ => I) s s (agree_refl _ s)). Qed.

  Theorem exec_stmt_acc s st : Forall (acc_ok (RW st) (WL st)) (fst (exec_stmt F g s st)).
  Proof. destruct (exec_stmt_self s st); assumption. Qed.

  Theorem exec_stmt_unch s st a s' ev :
    exec_stmt F g s st = (a, ONext s' ev) -> forall y, ~ WL st y -> s' y = s y.
  Proof.
    intros E. pose proof (exec_stmt_self s st) as H.
    rewrite E in H. inversion H as [? ? ? ? _ U _|? ? _ N]; [exact U|destruct (N _ _ eq_refl)].
  Qed.

  Theorem exec_stmt_frame (P : var -> Prop) s s' st :
    (forall y, FP st y -> P y) -> agree P s s' ->
    fst (exec_stmt F g s st) = fst (exec_stmt F g s' st) /\
    out_agree P (snd (exec_stmt F g s st)) (snd (exec_stmt F g s' st)).
  Proof. intros HP Ha. exact (fpo_out_agree _ _ _ _ _ _ (exec_stmt_fp P st HP s s' Ha)). Qed.

  Lemma exec_kind_gone s k a s' ev :
    exec_kind F g s k = (a, ONext s' ev) -> forall y, In y (loopvars k) -> s' y = None.
  Proof.
    destruct k as [x sub rhs loops| | | | | | ]; try (intros _ y []). rewrite exec_kind_assign. intros H.
    destruct (run_loops F loops _ s) as [a0 [s1|[|]]]; try discriminate.
    destruct (del_loopvars g loops s1) as [a2 [s2|[|]]] eqn:E2; try discriminate.
    injection H as _ <- _. exact (del_loopvars_gone g loops _ _ _ E2).
  Qed.

  Lemma exec_stmt_next s st a s' ev :
    exec_stmt F g s st = (a, ONext s' ev) ->
    s' = s \/ exists a0, exec_kind F g s (skd st) = (a0, ONext s' ev).
  Proof.
    unfold exec_stmt. destruct (eval F s (scond st)) as [r v].
    destruct (rbind v _) as [[|]|[|]]; cbn; intros H; try discriminate.
    - right. destruct (exec_kind F g s (skd st)) as [a0 o]. injection H as _ ->. eauto.
    - left. injection H as _ <- _. reflexivity.
  Qed.

  Theorem exec_stmt_clean s st a s' ev (L : var -> Prop) :
    exec_stmt F g s st = (a, ONext s' ev) ->
    (forall y, L y -> s y = None) ->
    (forall y, L y -> ~ In y (writes st)) ->
    forall y, L y -> s' y = None.
  Proof.
    intros H Hc Hw y Hy. destruct (in_dec string_dec y (loopvars (skd st))) as [Hi|Hi].
    - destruct (exec_stmt_next s st a s' ev H) as [->|[a0 E]]; [auto|exact (exec_kind_gone _ _ _ _ _ E y Hi)].
    - rewrite (exec_stmt_unch s st a s' ev H y); [auto|].
      intros Hq. apply in_app_or in Hq as [Hq|Hq]; [exact (Hw y Hy Hq)|exact (Hi Hq)].
  Qed.

  Lemma assign_once_unch x sub rhs s a s' :
    assign_once F s x sub rhs = (a, Ok s') -> forall y, y <> x -> s' y = s y.
  Proof.
    apply (footprint_unch (fun _ => True) (fun y => y = x) (fun s => assign_once F s x sub rhs)).
    apply footprint_assign_once; auto; apply Forall_forall; auto.
  Qed.

  Lemma del_loopvars_spec loops s a s' :
    del_loopvars g loops s = (a, Ok s') ->
    (forall y, ~ In y (loop_idents loops) -> s' y = s y) /\
    (forall y, In y (loop_idents loops) -> s' y = None).
  Proof.
    intros E. split; [|exact (del_loopvars_gone g loops s a s' E)].
    apply (footprint_unch (fun _ => True) _ (del_loopvars g loops)) with (2 := E).
    apply footprint_del_loopvars, Forall_forall. auto.
  Qed.
End Exec.

Section C08.
  Variable F : string -> list val -> list (string * val) -> option (list val).
  Variable g : bool.

  Lemma reads_covered s st x :
    In (Rd x) (fst (exec_stmt F g s st)) -> In x (reads true true st ++ writes st).
  Proof.
    intros H. pose proof (exec_stmt_acc F g s st) as Hall. rewrite Forall_forall in Hall.
    exact (Hall _ H).
  Qed.

  Lemma writes_covered s st x :
    In (Wr x) (fst (exec_stmt F g s st)) \/ In (Dl x) (fst (exec_stmt F g s st)) ->
    In x (writes st ++ loopvars (skd st)).
  Proof.
    pose proof (exec_stmt_acc F g s st) as Hall. rewrite Forall_forall in Hall.
    intros [H|H]; exact (Hall _ H).
  Qed.

  Lemma untouched s st a s' ev x :
    exec_stmt F g s st = (a, ONext s' ev) -> ~ In x (writes st ++ loopvars (skd st)) -> s' x = s x.
  Proof. intros H Hx. eapply exec_stmt_unch; eauto. Qed.

  Lemma frame s s' st :
    (forall x, In x (reads true true st ++ writes st ++ loopvars (skd st)) -> s x = s' x) ->
    fst (exec_stmt F g s st) = fst (exec_stmt F g s' st) /\
    out_agree (fun x => In x (reads true true st ++ writes st ++ loopvars (skd st)))
              (snd (exec_stmt F g s st)) (snd (exec_stmt F g s' st)).
  Proof. intros H. apply exec_stmt_frame; [auto|exact H]. Qed.

  Lemma identity_map st lf bf :
    reads lf bf (map_stmt (fun e => e) st) = reads lf bf st /\
    writes (map_stmt (fun e => e) st) = writes st.
  Proof.
    assert (E : map_stmt (fun e => e) st = st).
    { destruct st as [i d c k]. unfold map_stmt. cbn [sid sdeps scond skd]. f_equal.
      destruct k as [x sub rhs loops|xs f args kw|comp tid time e| | | | ]; cbn [map_kind]; try reflexivity.
      - f_equal; [destruct sub; reflexivity|].
        induction loops as [|[[i0 lo] hi] ls IH]; [reflexivity|]. cbn [map fst snd]. now rewrite IH.
      - f_equal; [apply List.map_id|].
        induction kw as [|[n e] kw IH]; [reflexivity|]. cbn [map fst snd]. now rewrite IH. }
    now rewrite E.
  Qed.
End C08.

(* The read sets without the lhs subscript variables, or without the loop bounds, are refuted by
   concrete statements. *)
Local Open Scope string_scope.
Definition F0 (f : string) (a : list val) (k : list (string * val)) : option (list val) := Some [VInt 0].
Definition st_lhs : stmt := {| sid := 0; sdeps := []; scond := EBool true;
                               skd := KAssign "a" (Some (EVar "x")) (EInt 1) [] |}.
Definition s_lhs : store := upd (upd empty "a" (VArr [0%Z; 0%Z])) "x" (VInt 1).
Lemma lhs_sub_refuted bf :
  In (Rd "x") (fst (exec_stmt F0 true s_lhs st_lhs)) /\ ~ In "x" (reads false bf st_lhs ++ writes st_lhs).
Proof. split; [vm_compute; auto|]. destruct bf; vm_compute; intuition discriminate. Qed.

Definition st_loop : stmt := {| sid := 0; sdeps := []; scond := EBool true;
                                skd := KAssign "z" None (EInt 1) [("i", EVar "<p>n", EInt 2)] |}.
Lemma loop_bound_refuted lf :
  In (Rd "<p>n") (fst (exec_stmt F0 true empty st_loop)) /\ ~ In "<p>n" (reads lf false st_loop ++ writes st_loop).
Proof. split; [vm_compute; auto|]. destruct lf; vm_compute; intuition discriminate. Qed.

(* non-vacuity: a guarded, looped, subscripted assignment with a call really reads and writes *)
Definition st_ex : stmt :=
  {| sid := 0; sdeps := []; scond := EVar "<cond>c";
     skd := KAssign "a" (Some (EVar "i")) (ENary NSum [EVar "x"; EVar "i"; ENary (NCall "<func>f" []) [EVar "y"]])
                    [("i", EInt 0, EVar "n")] |}.
Definition s_ex : store :=
  upd (upd (upd (upd (upd empty "a" (VArr [0; 0]%Z)) "x" (VInt 5)) "y" (VInt 1)) "n" (VInt 2)) "<cond>c" (VBool true).
Example ex_runs :
  exists a s', exec_stmt F0 true s_ex st_ex = (a, ONext s' None) /\
               s' "a" = Some (VArr [5; 6]%Z) /\ s' "i" = None /\ In (Rd "n") a /\ In (Wr "i") a.
Proof.
  (* reflexivity finds the resulting store without normalising it: it is a function, and under its
     binder String.eqb on a variable would unfold to its whole decision tree *)
  eexists. eexists. split; [reflexivity|]. vm_compute. auto 10.
Qed.
