(* Proofs about model/FortranTarget.v: for every program of the supported subset, every initial
   state and every number of calls, what the Fortran-target model holds after the n-th call of
   `run` is what the interpreter model holds after its n-th step (C03).  Every relation on the way
   has the same form: nothing is said when the target is undefined or the interpreter raised;
   otherwise both sides ended the same way, in stores that agree on the variables that matter at
   that level.  There is one relation for each pair of result types: srel (one emitted statement, loop
   or nest against one outcome of the interpreter), brel (the body of a phase), orel (calls of `run`). *)
From Coq Require Import List ZArith String Bool Arith Lia.
Import ListNotations.
From Dagrt Require Import ListFacts StringFacts.
From Dagrt Require Import Lang LangCheck LangProofs Builder Sched SchedProofs BuilderProofs FortranTarget.
Open Scope string_scope.
Open Scope list_scope.
Open Scope Z_scope.

Lemma memb_In x l : memb x l = true <-> In x l.
Proof. apply existsb_str_In. Qed.
Lemma memb_nIn x l : memb x l = false <-> ~ In x l.
Proof. apply existsb_str_nIn. Qed.

Lemma is_ret_prefix p c : In p ret_prefixes -> is_ret (p ++ c)%string = true.
Proof. intros Hp. apply existsb_exists. exists p. split; [exact Hp|apply prefix_append]. Qed.

Lemma is_ret_tid c : is_ret (ret_tid c) = true.
Proof. apply is_ret_prefix. cbn; auto. Qed.
Lemma is_ret_time c : is_ret (ret_time c) = true.
Proof. apply is_ret_prefix. cbn; auto. Qed.
Lemma is_ret_state c : is_ret (ret_state c) = true.
Proof. apply is_ret_prefix. cbn; auto. Qed.

Lemma upd_other (s : store) x v y : y <> x -> upd s x v y = s y.
Proof. exact (LangProofs.upd_other s x v y). Qed.
Lemma upd_same (s : store) x v : upd s x v x = Some v.
Proof. exact (LangProofs.upd_same s x v). Qed.

Section PutRet.
  Variable tids : list string.
  Notation put_ret := (put_ret tids).

  Lemma put_ret_other s ev y : is_ret y = false -> put_ret s ev y = s y.
  Proof.
    intros H. destruct ev as [c tid t v]. cbn [FortranTarget.put_ret].
    rewrite !upd_other; [reflexivity| | |]; intros ->;
      rewrite ?is_ret_tid, ?is_ret_time, ?is_ret_state in H; discriminate.
  Qed.

  Lemma put_ret_ext s1 s2 ev y : s1 y = s2 y -> put_ret s1 ev y = put_ret s2 ev y.
  Proof.
    intros H. destruct ev as [c tid t v]. cbn [FortranTarget.put_ret]. unfold upd.
    repeat destruct (String.eqb _ _); auto.
  Qed.

  Lemma fold_put_ret_ext evs : forall s1 s2 y, s1 y = s2 y ->
    fold_left put_ret evs s1 y = fold_left put_ret evs s2 y.
  Proof.
    induction evs as [|ev evs IH]; intros s1 s2 y H; cbn [fold_left]; [exact H|].
    apply IH. apply put_ret_ext. exact H.
  Qed.

  Lemma fold_put_ret_other evs : forall s y, is_ret y = false -> fold_left put_ret evs s y = s y.
  Proof.
    induction evs as [|ev evs IH]; intros s y H; cbn [fold_left]; [reflexivity|].
    rewrite IH by exact H. apply put_ret_other. exact H.
  Qed.

  Lemma fold_put_ret_snoc evs ev s : fold_left put_ret (evs ++ [ev]) s = put_ret (fold_left put_ret evs s) ev.
  Proof. now rewrite fold_left_app. Qed.
End PutRet.

Section Ok.
  Variable is_state : var -> bool.
  Variable lv : list var.

  (* the two stores agree on P0 between statements, on Pd done inside the loops over `done` *)
  Definition P0 (y : var) : Prop := is_ret y = false /\ ~ In y lv.
  Definition Pd (done : list var) (y : var) : Prop := P0 y \/ In y done.

  Lemma Pd_nil y : Pd [] y <-> P0 y.
  Proof. unfold Pd. cbn [In]. split; [intros [H|[]]; exact H|now left]. Qed.

  Lemma Pd_cons v done y : Pd (v :: done) y <-> Pd done y \/ y = v.
  Proof. unfold Pd. cbn [In]. split; [intros [H|[<- |H]]|intros [[H|H]| ->]]; auto. Qed.

  Lemma plain_P0 y : plain lv y = true <-> P0 y.
  Proof.
    unfold plain, P0. rewrite andb_true_iff, !negb_true_iff, memb_nIn. tauto.
  Qed.

  Record stmt_facts (st : stmt) : Prop := {
    sf_guard : forall y, In y (vars (scond st)) -> P0 y /\ ~ In y (writes st);
    sf_reads : forall y, In y (kind_reads true true (skd st)) ->
                         is_ret y = false /\ (In y lv -> In y (loopvars (skd st)));
    sf_writes : forall y, In y (writes st) -> P0 y;
    sf_local : forall v, In v (loopvars (skd st)) -> is_state v = false /\ is_ret v = false;
    sf_loops : loops_ok lv [] (loops_of (skd st)) = true }.

  Lemma stmt_ok_facts st : stmt_ok is_state lv st = true -> stmt_facts st.
  Proof.
    unfold stmt_ok. intros H.
    apply andb_true_iff in H as [H H5]. apply andb_true_iff in H as [H H4].
    apply andb_true_iff in H as [H H3]. apply andb_true_iff in H as [H1 H2].
    rewrite forallb_forall in H1, H2, H3, H4. split.
    - intros y Hy. specialize (H1 y Hy). apply andb_true_iff in H1 as [A B].
      rewrite negb_true_iff, memb_nIn in B. split; [now apply plain_P0|exact B].
    - intros y Hy. specialize (H2 y Hy). apply andb_true_iff in H2 as [A B].
      rewrite negb_true_iff in A. split; [exact A|]. intros Hl.
      apply orb_true_iff in B as [B|B]; [|apply memb_In, B].
      rewrite negb_true_iff, memb_nIn in B. contradiction.
    - intros y Hy. apply plain_P0. apply H3, Hy.
    - intros v Hv. specialize (H4 v Hv). apply andb_true_iff in H4 as [A B].
      rewrite negb_true_iff in A, B. auto.
    - exact H5.
  Qed.

  Definition ok_stmt (st : stmt) : Prop := stmt_facts st /\ forall v, In v (loopvars (skd st)) -> In v lv.
End Ok.

Section Sim.
  Variable F : string -> list val -> list (string * val) -> option (list val).
  Variable g : bool.
  Variable ff : bool.                  (* ite_flag_first: the theorems hold for both shapes *)
  Variable go : bool.                  (* guard_outside: the theorems hold for both shapes *)
  Variable tids : list string.
  Variable is_state : var -> bool.
  Variable lv : list var.

  (* the model's switches come in the order cond_honoured ite_flag_first ubound_m1 switch_exits next_first
     guard_outside, each function taking those it looks at; here cond_honoured, ubound_m1, switch_exits = true *)
  Notation fexec_kind' := (fexec_kind F g true ff true tids).
  Notation fexec' := (fexec F g true ff true true tids).
  Notation fexec_body' := (fexec_body F g true ff true true tids).
  Notation tguard' := (tguard F true ff).
  Notation tint' := (tint F true ff).
  Notation put_ret' := (put_ret tids).
  Notation P0 := (P0 lv).
  Notation Pd := (Pd lv).
  Notation ok_stmt := (ok_stmt is_state lv).

  Lemma tguard_ok s c b : tguard' s c = Some b -> rbind (snd (eval F s c)) (fun v => lift (truth v)) = Ok b.
  Proof.
    unfold tguard, texpr. destruct (defd _ _ _ _ _); [|discriminate].
    destruct (rbind _ _); [|discriminate]. now intros [= ->].
  Qed.

  Lemma tint_ok s e z : tint' s e = Some z -> rbind (snd (eval F s e)) bound_int = Ok z.
  Proof.
    unfold tint, texpr. destruct (defd _ _ _ _ _); [|discriminate].
    destruct (rbind _ _); [|discriminate]. now intros [= ->].
  Qed.

  Lemma is_true_const_eq e : is_true_const e = true -> e = EBool true.
  Proof. destruct e as [| [|] | | | | | |]; cbn; congruence. Qed.

  Lemma loops_of_loopvars k : loops_of k = [] -> loopvars k = [].
  Proof. destruct k; cbn; try reflexivity. now intros ->. Qed.

  Definition ret_after (s_t s_t' : store) (ev : option event) : Prop :=
    forall y, is_ret y = true -> s_t' y = match ev with Some e => put_ret' s_t e y | None => s_t y end.

  (* one emitted statement, started in s_t with successor nx, against one exec_<Kind>.  W is what is said when the
     target is defined and the interpreter raised: False below the loops and the guard (it does not happen), True
     for a whole statement (a counter deleted that no trip has set, a guard that no trip has reached) *)
  Definition srel (W : Prop) (P : var -> Prop) (s_t : store) (nx : string) (t : fres) (o : outcome) : Prop :=
    match t, o with
    | FUndef, _ => True
    | _, OCrash | _, OUserExn => W
    | FNext s_t' nx', ONext s_i' ev => nx' = nx /\ agree P s_t' s_i' /\ ret_after s_t s_t' ev
    | FExit s_t' nx', OFail => s_t' = s_t /\ nx' = nx
    | FExit s_t' nx', OSwitch p => s_t' = s_t /\ nx' = p
    | FStopped s_t' k', ORaise k => s_t' = s_t /\ k' = k
    | _, _ => False
    end.

  Lemma srel_undef W P s_t nx o : srel W P s_t nx FUndef o.
  Proof. exact I. Qed.

  Lemma srel_err P s_t nx t u : srel True P s_t nx t (of_rs (Err u)).
  Proof. destruct t, u; exact I. Qed.

  Lemma srel_weaken W P s_t nx t o : srel False P s_t nx t o -> srel W P s_t nx t o.
  Proof. destruct t, o; try exact (fun H => H); intros []. Qed.

  Lemma fexec_kind_sim (P : var -> Prop) s_t s_i nx k :
    loops_of k = [] ->
    (forall y, In y (kind_reads true true k ++ kind_writes k) -> P y) ->
    (forall y, P y -> is_ret y = false) ->
    agree P s_t s_i ->
    srel False P s_t nx (fexec_kind' s_t nx k) (snd (exec_kind F g s_i k)).
  Proof.
    intros Hl HP Hret H.
    assert (Hw : forall y, In y (kind_writes k) -> P y) by (intros y Hy; apply HP, in_or_app; now right).
    assert (Hfp : fpo_rel P (fun y => In y (kind_writes k)) P s_t (exec_kind F g s_t k) (exec_kind F g s_i k)).
    { apply exec_kind_fp; [apply Forall_forall, HP| | |exact H].
      - rewrite (loops_of_loopvars k Hl), app_nil_r. apply Forall_forall. auto.
      - intros x [Px|Wx]; auto. }
    unfold fexec_kind, tkind. destruct (defd_kind _ _ _ _ _); cbn [negb]; [|exact I].
    destruct Hfp as [a s_t' s_i' ev _ Hu Ha|a o _ N]; cbn [snd].
    - assert (Hr : forall y, is_ret y = true -> s_t' y = s_t y).
      { intros y Hy. apply Hu. intros Hin.
        assert (is_ret y = false) by (apply Hret, Hw, Hin). congruence. }
      destruct ev as [e|]; (split; [reflexivity|split]).
      + intros y Hy. rewrite put_ret_other by (apply Hret, Hy). apply Ha, Hy.
      + intros y Hy. apply put_ret_ext, Hr, Hy.
      + exact Ha.
      + exact Hr.
    - destruct o; cbn; auto. destruct (N _ _ eq_refl).
  Qed.

  (* `if (c)` around t, left out when c is the constant True (dag_ast.py loop_to_ast_node: `condition is not True`).
     The model writes this conditional out twice, in guard_node around one statement and in `wrap true` around a
     nest; the proofs take a guard and a tree apart from any statement, hence a name for it. *)
  Definition guarded (c : expr) (t : ftree) : ftree := if is_true_const c then t else FIf c t.

  Lemma wrap_inside st :
    wrap false st = nest_of (guarded (scond st) (FStmt (strip_loops (skd st)))) (loops_of (skd st)).
  Proof. reflexivity. Qed.

  Lemma fexec_guarded c t s nx b :
    rbind (snd (eval F s c)) (fun v => lift (truth v)) = Ok b ->
    fexec' (guarded c t) s nx = FUndef \/ fexec' (guarded c t) s nx = if b then fexec' t s nx else FNext s nx.
  Proof.
    intros Hb. unfold guarded. destruct (is_true_const c) eqn:Ec.
    - rewrite (is_true_const_eq c Ec) in Hb. injection Hb as <-. now right.
    - cbn [fexec]. destruct (tguard' s c) as [b'|] eqn:Eg; [|now left].
      apply tguard_ok in Eg. rewrite Hb in Eg. injection Eg as ->. right. now destruct b'.
  Qed.

  Section Nest.
    Variable nx : string.
    Variable LInv : store -> Prop.      (* invariant of the interpreter's store while the loops run *)

    (* do v = i, i+n-1  against  for v in range(i, i+n); inside the loop the stores also agree on v *)
    Lemma do_loop_sim (X X' : var -> Prop) v tb ib :
      (forall y, X' y <-> X y \/ y = v) ->
      ~ X v -> is_ret v = false ->
      (forall s z, LInv s -> LInv (upd s v z)) ->
      (forall s a s1, ib s = (a, Ok s1) -> LInv s -> LInv s1) ->
      (forall s_t s_i, agree X' s_t s_i -> LInv s_i -> srel False X' s_t nx (tb s_t nx) (of_rs (snd (ib s_i)))) ->
      forall n i s_t s_i, agree X s_t s_i -> LInv s_i ->
        srel False X s_t nx (do_loop tb v n i s_t nx) (of_rs (snd (iter_range n i v ib s_i))).
    Proof.
      intros HX' Hv Hrv Hinv Hib Hbody. induction n as [|n IH]; intros i s_t s_i Ha Hi; cbn [do_loop iter_range snd].
      - cbn [srel of_rs]. repeat split.
        + intros y Hy. rewrite upd_other; [apply Ha, Hy|]. intros ->. contradiction.
        + intros y Hy. apply upd_other. intros ->. congruence.
      - assert (Ha' : agree X' (upd s_t v (VInt i)) (upd s_i v (VInt i))).
        { eapply agree_weaken; [|apply agree_upd_add, Ha]. intros y Hy. apply HX', Hy. }
        specialize (Hbody _ _ Ha' (Hinv _ _ Hi)). specialize (Hib (upd s_i v (VInt i))).
        destruct (tb (upd s_t v (VInt i)) nx) as [s' nx'| | |];
          destruct (ib (upd s_i v (VInt i))) as [a1 [s1|[|]]]; cbn [snd srel of_rs] in Hbody |- *;
          try contradiction; try exact I.
        destruct Hbody as (-> & Hb & Hr).
        assert (Hb' : agree X s' s1) by (eapply agree_weaken; [|exact Hb]; intros y Hy; apply HX'; now left).
        specialize (IH (i + 1) s' s1 Hb' (Hib a1 s1 eq_refl (Hinv _ _ Hi))).
        destruct (iter_range n (i + 1) v ib s1) as [a2 r2]; cbn [snd] in *.
        destruct (do_loop tb v n (i + 1) s' nx), r2 as [s2|[|]]; cbn [srel of_rs] in *; auto.
        destruct IH as (-> & A & C). repeat split; auto.
        intros y Hy. rewrite C, Hr by exact Hy. apply upd_other. intros ->. congruence.
    Qed.
  End Nest.

  Lemma run_loops_cons v lo hi ls body s a z :
    rbind (snd (eval F s lo)) bound_int = Ok a -> rbind (snd (eval F s hi)) bound_int = Ok z ->
    snd (run_loops F ((v, lo, hi) :: ls) body s)
    = snd (iter_range (Z.to_nat (z - a)) a v (run_loops F ls body) s).
  Proof.
    intros Ea Ez. cbn [run_loops].
    destruct (eval F s lo) as [r1 [vl|u]]; [|discriminate]. destruct (eval F s hi) as [r2 [vh|u]]; [|discriminate].
    cbn [snd rbind] in Ea, Ez. rewrite Ea, Ez. now destruct (iter_range _ _ _ _ _).
  Qed.

  (* An assignment under the guard c, lowered with the guard inside the loops, against
       for loops: if b: assign
     where b is the value of c when the statement starts: the emitted code evaluates c in every trip, and finds b. *)
  Section Assign.
    Variable c : expr.
    Variable s0 : store.                 (* the interpreter's store when the statement starts *)
    Variable nx : string.
    Variable b : bool.
    Hypothesis Hb : rbind (snd (eval F s0 c)) (fun v => lift (truth v)) = Ok b.

    Definition Inv (s : store) : Prop := forall y, In y (vars c) -> s y = s0 y.

    Lemma Inv_eval s : Inv s -> eval F s c = eval F s0 c.
    Proof. intros H. apply eval_frame. exact H. Qed.

    Lemma Inv_upd s v z : ~ In v (vars c) -> Inv s -> Inv (upd s v z).
    Proof. intros Hv H y Hy. rewrite upd_other; [apply H, Hy|]. intros ->. contradiction. Qed.

    Variables (x : var) (sub : option expr) (rhs : expr).
    Variable all_idents : list var.      (* the counters of the whole nest: entered (`done` below) or to come *)
    Let k' : skind := KAssign x sub rhs [].
    Notation gnode := (guarded c (FStmt k')).

    Definition guarded_assign (s : store) : list access * rs store :=
      if b then assign_once F s x sub rhs else ([], Ok s).

    Hypothesis Hc : forall y, In y (vars c) -> P0 y /\ y <> x.
    Hypothesis Hreads : forall y, In y (kind_reads true true k') -> is_ret y = false /\ (In y lv -> In y all_idents).
    Hypothesis Hx : P0 x.

    Lemma agree_guard (X : var -> Prop) s_t s_i :
      (forall y, P0 y -> X y) -> agree X s_t s_i -> Inv s_i -> eval F s_t c = eval F s0 c.
    Proof.
      intros HX Ha Hi. rewrite <- (Inv_eval s_i Hi). apply eval_frame.
      intros y Hy. apply Ha, HX, Hc, Hy.
    Qed.

    (* the interpreter's loops leave the variables of the guard alone *)
    Lemma nest_Inv ls : (forall v, In v (loop_idents ls) -> In v lv) ->
      forall s a s1, run_loops F ls guarded_assign s = (a, Ok s1) -> Inv s -> Inv s1.
    Proof.
      intros Hid s a s1 E Hi y Hy. rewrite <- (Hi y Hy). destruct (Hc y Hy) as [[_ Hl] Hyx].
      apply (footprint_unch (fun _ => True) (fun z => z = x \/ In z (loop_idents ls)) (run_loops F ls guarded_assign)) with (a := a).
      - apply footprint_run_loops; try (apply Forall_forall; auto). unfold guarded_assign.
        destruct b; [apply footprint_assign_once; auto; apply Forall_forall; auto|apply footprint_ret].
      - exact E.
      - intros [->|Hin]; [now apply Hyx|apply Hl, Hid, Hin].
    Qed.

    Lemma gnode_sim done s_t s_i :
      (forall y, In y all_idents -> In y done) ->
      (forall y, In y done -> is_ret y = false) ->
      agree (Pd done) s_t s_i -> Inv s_i ->
      srel False (Pd done) s_t nx (fexec' gnode s_t nx) (of_rs (snd (guarded_assign s_i))).
    Proof.
      intros Hall Hdr Ha Hi.
      assert (Hg := Hb). rewrite <- (agree_guard (Pd done) s_t s_i (fun y Hy => or_introl Hy) Ha Hi) in Hg.
      destruct (fexec_guarded c (FStmt k') s_t nx b Hg) as [-> | ->]; [apply srel_undef|].
      unfold guarded_assign. destruct b; [|cbn [snd srel of_rs]; repeat split; auto].
      replace (of_rs (snd (assign_once F s_i x sub rhs))) with (snd (exec_kind F g s_i k'))
        by (unfold k'; cbn [exec_kind]; now destruct (assign_once F s_i x sub rhs)).
      apply fexec_kind_sim; auto.
      - intros y Hy. apply in_app_iff in Hy as [Hy|[<- |[]]]; [|left; exact Hx].
        destruct (Hreads y Hy) as [A B]. destruct (in_dec string_dec y lv); [right|left; split]; auto.
      - intros y [[A _]|A]; [exact A|apply Hdr, A].
    Qed.

    (* ls: the loops still to be entered; done: the counters of those entered, on which the stores agree as well.  The
       five static premises are what stmt_facts says of the statement, cut down to ls. *)
    Lemma nest_sim : forall ls done s_t s_i,
      (forall y, In y all_idents -> In y done \/ In y (loop_idents ls)) ->
      (forall y, In y done -> is_ret y = false) ->
      (forall v, In v (loop_idents ls) -> In v lv /\ is_ret v = false) ->
      (forall y, In y (loop_bound_vars ls) -> is_ret y = false) ->
      loops_ok lv done ls = true ->
      agree (Pd done) s_t s_i -> Inv s_i ->
      srel False (Pd done) s_t nx (fexec' (nest_of gnode ls) s_t nx) (of_rs (snd (run_loops F ls guarded_assign s_i))).
    Proof.
      induction ls as [|[[v lo] hi] ls IH]; intros done s_t s_i Hall Hdr Hid Hbr Hok Ha Hi.
      - apply gnode_sim; auto. intros y Hy. destruct (Hall y Hy) as [H|[]]. exact H.
      - cbn [loops_ok] in Hok. apply andb_true_iff in Hok as [Hok Hok']. apply andb_true_iff in Hok as [Hbd0 Hvd].
        rewrite negb_true_iff, memb_nIn in Hvd. rewrite forallb_forall in Hbd0.
        destruct (Hid v (or_introl eq_refl)) as [Hvl Hvr].
        (* the bounds mention outer counters only: they have the same value on both sides *)
        assert (Hbd : forall e, e = lo \/ e = hi -> forall y, In y (vars e) -> Pd done y).
        { intros e He y Hy.
          assert (Hin : In y (vars lo ++ vars hi)) by (apply in_or_app; destruct He; subst; auto).
          specialize (Hbd0 y Hin). apply orb_true_iff in Hbd0 as [Hb0|Hb0]; [left|right; apply memb_In, Hb0].
          rewrite negb_true_iff, memb_nIn in Hb0. split; [|exact Hb0].
          apply Hbr. cbn [loop_bound_vars flat_map fst snd]. apply in_or_app. now left. }
        assert (Hbound : forall e z, e = lo \/ e = hi -> tint' s_t e = Some z ->
                                     rbind (snd (eval F s_i e)) bound_int = Ok z).
        { intros e z He E. apply tint_ok in E. rewrite <- (eval_frame F s_t s_i e); [exact E|].
          intros y Hy. apply Ha, (Hbd e He y Hy). }
        cbn [nest_of fold_right fst snd fexec].
        destruct (tint' s_t lo) as [a|] eqn:Elo; [|apply srel_undef].
        destruct (tint' s_t hi) as [z|] eqn:Ehi; [|apply srel_undef].
        rewrite (run_loops_cons v lo hi ls _ s_i a z) by (apply Hbound; auto).
        replace (trips true a z) with (Z.to_nat (z - a)) by (unfold trips; f_equal; lia).
        apply (do_loop_sim nx Inv (Pd done) (Pd (v :: done))); auto.
        + intros y. apply Pd_cons.
        + intros [[_ H]|H]; contradiction.
        + intros s z0. apply Inv_upd. intros H. destruct (Hc v H) as [[_ H'] _]. contradiction.
        + apply nest_Inv. intros w Hw. apply Hid. now right.
        + intros s_t0 s_i0. apply IH; auto.
          * intros y Hy. cbn [In]. destruct (Hall y Hy) as [H|[H|H]]; auto.
          * intros y [<-|Hy]; auto.
          * intros w Hw. apply Hid. now right.
          * intros y Hy. apply Hbr. cbn [loop_bound_vars flat_map]. apply in_or_app. now right.
    Qed.
  End Assign.

  Lemma exec_assign_loops s x sub rhs loops :
    snd (exec_kind F g s (KAssign x sub rhs loops)) =
    match snd (run_loops F loops (fun s => assign_once F s x sub rhs) s) with
    | Err u => of_rs (Err u)
    | Ok s1 => of_rs (snd (del_loopvars g loops s1))
    end.
  Proof.
    rewrite exec_kind_assign. destruct (run_loops F loops _ s) as [a [s1|u]]; cbn [snd]; [|reflexivity].
    destruct (del_loopvars g loops s1); reflexivity.
  Qed.

  (* what the interpreter does with a statement whose guard has the value b *)
  Definition guarded_kind (b : bool) (s : store) (k : skind) : outcome :=
    if b then snd (exec_kind F g s k) else ONext s None.

  (* every kind but an assignment is without loops *)
  Lemma loopfree_kind_sim b k c s_t s_i nx :
    loops_of k = [] ->
    (forall y, In y (vars c) -> P0 y) ->
    (forall y, In y (kind_reads true true k) -> is_ret y = false /\ (In y lv -> In y (loopvars k))) ->
    (forall y, In y (kind_writes k) -> P0 y) ->
    rbind (snd (eval F s_i c)) (fun v => lift (truth v)) = Ok b ->
    agree P0 s_t s_i ->
    srel False P0 s_t nx (fexec' (guarded c (FStmt k)) s_t nx) (guarded_kind b s_i k).
  Proof.
    intros Hl Hc Hr Hw Hb Ha.
    rewrite <- (eval_frame F s_t s_i c) in Hb by (intros y Hy; apply Ha, Hc, Hy).
    destruct (fexec_guarded c (FStmt k) s_t nx b Hb) as [-> | ->]; [apply srel_undef|].
    unfold guarded_kind. destruct b; [|cbn [srel]; repeat split; auto].
    apply fexec_kind_sim; auto; [|intros y Hy; apply Hy].
    intros y Hy. apply in_app_iff in Hy as [Hy|Hy]; [|apply Hw, Hy].
    destruct (Hr y Hy) as [A B]. split; [exact A|]. intros Hin. specialize (B Hin).
    rewrite (loops_of_loopvars k Hl) in B. destruct B.
  Qed.

  (* guard_outside = false: the loops enclose `if (guard) stmt`, so they run even when the guard is false *)
  Lemma kind_sim b st s_t s_i nx :
    ok_stmt st ->
    rbind (snd (eval F s_i (scond st))) (fun v => lift (truth v)) = Ok b ->
    agree P0 s_t s_i ->
    srel True P0 s_t nx (fexec' (wrap false st) s_t nx) (guarded_kind b s_i (skd st)).
  Proof.
    intros [[Hg Hr Hw Hloc Hlo] Hlv] Hb Ha. rewrite wrap_inside. unfold writes in Hg, Hw.
    destruct st as [id deps c k]. cbn [scond skd] in *.
    assert (Hc0 : forall y, In y (vars c) -> P0 y) by (intros y Hy; apply Hg, Hy).
    destruct k as [x sub rhs loops| | | | | | ]; [|apply srel_weaken, loopfree_kind_sim; auto ..].
    cbn [strip_loops loops_of loopvars kind_writes kind_reads] in *.
    assert (Hn : srel False (Pd []) s_t nx (fexec' (nest_of (guarded c (FStmt (KAssign x sub rhs []))) loops) s_t nx)
                      (of_rs (snd (run_loops F loops (guarded_assign b x sub rhs) s_i)))).
    { apply (nest_sim c s_i nx b Hb x sub rhs (loop_idents loops)); auto.
      - intros y Hy. destruct (Hg y Hy) as [A B]. split; [exact A|]. intros ->. apply B. now left.
      - intros y Hy. apply Hr. cbn [kind_reads flat_map] in Hy. rewrite app_nil_r in Hy. rewrite app_assoc.
        apply in_or_app. now left.
      - apply Hw. now left.
      - intros y [].
      - intros v Hv. split; [apply Hlv, Hv|apply Hloc, Hv].
      - intros y Hy. apply Hr. rewrite !in_app_iff. auto.
      - eapply agree_weaken; [|exact Ha]. intros y Hy. apply Pd_nil, Hy.
      - intros y _. reflexivity. }
    destruct (run_loops F loops (guarded_assign b x sub rhs) s_i) as [a1 r1] eqn:E1. cbn [snd] in Hn.
    destruct (fexec' (nest_of (guarded c (FStmt (KAssign x sub rhs []))) loops) s_t nx) as [s_t' nx'|? ?|? ?|], r1 as [s1|[|]];
      cbn [srel of_rs] in Hn; try contradiction; try exact I.
    destruct Hn as (-> & Hag & Hrt). unfold guarded_kind, guarded_assign in *. destruct b.
    - rewrite exec_assign_loops, E1. cbn [snd].
      pose proof (del_loopvars_spec g loops s1) as Hdel.
      destruct (del_loopvars g loops s1) as [a2 [s2|u2]]; cbn [snd]; [|apply srel_err].
      destruct (Hdel a2 s2 eq_refl) as [Hd1 _]. repeat split; auto.
      (* the counters, deleted on the interpreter's side only, are not in P0 *)
      intros y Hy. rewrite Hd1; [apply Hag, Pd_nil, Hy|]. intros Hin. destruct Hy as [_ Hy]. apply Hy, Hlv, Hin.
    - (* the loops have run without effect, but for their counters *)
      repeat split; auto. intros y Hy. rewrite (Hag y (proj2 (Pd_nil lv y) Hy)).
      apply (footprint_unch (fun _ => True) (fun y => In y (loop_idents loops)) (run_loops F loops (fun s => ([], Ok s)))) with (s := s_i) (a := a1).
      + apply footprint_run_loops; [apply footprint_ret|apply Forall_forall; auto..].
      + exact E1.
      + intros Hin. destruct Hy as [_ Hy]. apply Hy, Hlv, Hin.
  Qed.

  Lemma snd_exec_stmt s st :
    snd (exec_stmt F g s st) =
    match rbind (snd (eval F s (scond st))) (fun v => lift (truth v)) with
    | Ok b => guarded_kind b s (skd st)
    | Err u => of_rs (Err u)
    end.
  Proof.
    unfold exec_stmt, guarded_kind. destruct (eval F s (scond st)) as [r cv]. cbn [snd].
    destruct (rbind cv _) as [[|]|u]; try reflexivity. destruct (exec_kind F g s (skd st)); reflexivity.
  Qed.

  Lemma stmt_sim_inside st s_t s_i nx :
    ok_stmt st ->
    agree P0 s_t s_i ->
    srel True P0 s_t nx (fexec' (wrap false st) s_t nx) (snd (exec_stmt F g s_i st)).
  Proof.
    intros Hf Ha. rewrite snd_exec_stmt.
    destruct (rbind (snd (eval F s_i (scond st))) (fun v => lift (truth v))) as [b|u] eqn:Hb;
      [apply kind_sim; auto|apply srel_err].
  Qed.

  (* st with its guard taken off: what the loops enclose when the guard is lowered outside them *)
  Definition unguarded (st : stmt) : stmt := Build_stmt (sid st) (sdeps st) (EBool true) (skd st).

  Lemma unguarded_ok st : ok_stmt st -> ok_stmt (unguarded st).
  Proof. intros [[_ Hr Hw Hloc Hlo] Hlv]. split; [split|]; auto. intros y []. Qed.

  Lemma wrap_outside st : wrap true st = guarded (scond st) (wrap false (unguarded st)).
  Proof. unfold wrap, guarded. destruct (is_true_const (scond st)); reflexivity. Qed.

  (* guard outside the loops: exactly the interpreter's order (guard, then bounds, then the loops) *)
  Lemma stmt_sim_outside st s_t s_i nx :
    ok_stmt st ->
    agree P0 s_t s_i ->
    srel True P0 s_t nx (fexec' (wrap true st) s_t nx) (snd (exec_stmt F g s_i st)).
  Proof.
    intros Hf Ha. rewrite wrap_outside, snd_exec_stmt.
    destruct (rbind (snd (eval F s_i (scond st))) (fun v => lift (truth v))) as [b|u] eqn:Hb; [|apply srel_err].
    assert (Hg := Hb). rewrite <- (eval_frame F s_t s_i (scond st)) in Hg
      by (intros y Hy; apply Ha, (sf_guard _ _ _ (proj1 Hf)), Hy).
    destruct (fexec_guarded _ (wrap false (unguarded st)) s_t nx b Hg) as [-> | ->]; [apply srel_undef|].
    destruct b; [|cbn [guarded_kind srel]; repeat split; auto].
    apply (kind_sim true (unguarded st)); auto using unguarded_ok.
  Qed.

  Lemma stmt_sim st s_t s_i nx :
    ok_stmt st ->
    agree P0 s_t s_i ->
    srel True P0 s_t nx (fexec' (wrap go st) s_t nx) (snd (exec_stmt F g s_i st)).
  Proof. destruct go; [apply stmt_sim_outside|apply stmt_sim_inside]. Qed.

  (* Rel, inside the body of a phase.  s_t0 is the target's store on entry to the subroutine: the slots hold
     what the yields so far (evs, which the interpreter collects and the target does not) have written over it.
     brel, for the body: how it ends, with Rel of the stores then. *)
  Definition Rel (s_t0 s_t s_i : store) (evs : list event) : Prop :=
    agree P0 s_t s_i /\ forall y, is_ret y = true -> s_t y = fold_left put_ret' evs s_t0 y.

  Definition brel (s_t0 : store) (nx0 : string) (t : fres) (R : rstate) : Prop :=
    match t, R with
    | FUndef, _ => True
    | _, RCrash _ _ => True
    | FNext s_t nx, RRun s_i evs => nx = nx0 /\ Rel s_t0 s_t s_i evs
    | FExit s_t nx, RStop s_i evs StFail => nx = nx0 /\ Rel s_t0 s_t s_i evs
    | FExit s_t nx, RStop s_i evs (StSwitch p) => nx = p /\ Rel s_t0 s_t s_i evs
    | FStopped s_t k, RStop s_i evs (StRaise k') => k = k' /\ Rel s_t0 s_t s_i evs
    | _, _ => False
    end.

  Lemma brel_crash s_t0 nx0 t u e : brel s_t0 nx0 t (RCrash u e).
  Proof. destruct t; exact I. Qed.

  (* a Nop, or a statement guarded by the constant False, is not emitted; the interpreter visits it
     without effect (unless evaluating the guard of a Nop raises) *)
  Lemma skip_step st s evs :
    emitted st = false -> step F g st (RRun s evs) = RRun s evs \/ exists u e, step F g st (RRun s evs) = RCrash u e.
  Proof.
    unfold emitted, step, exec_stmt. rewrite andb_false_iff, !negb_false_iff. intros [H|H].
    - destruct (skd st); try discriminate.
      destruct (eval F s (scond st)) as [r cv]. destruct (rbind cv _) as [[|]|[|]]; cbn; rewrite ?app_nil_r; eauto.
    - destruct (scond st) as [| [|] | | | | | |]; try discriminate. cbn. rewrite app_nil_r. now left.
  Qed.

  Lemma Rel_next s_t0 s_t s_i evs s_t' s_i' ev :
    Rel s_t0 s_t s_i evs -> agree P0 s_t' s_i' -> ret_after s_t s_t' ev ->
    Rel s_t0 s_t' s_i' (evs ++ match ev with Some e => [e] | None => [] end).
  Proof.
    intros [_ Hr] Ha Hra. split; [exact Ha|]. intros y Hy. rewrite (Hra y Hy). destruct ev as [e|].
    - rewrite fold_put_ret_snoc. apply put_ret_ext, Hr, Hy.
    - rewrite app_nil_r. apply Hr, Hy.
  Qed.

  Lemma body_sim s_t0 nx0 : forall stmts s_t s_i evs,
    (forall st, In st stmts -> ok_stmt st) ->
    Rel s_t0 s_t s_i evs ->
    brel s_t0 nx0 (fexec_body' (lower go stmts) s_t nx0) (run_list F g stmts (RRun s_i evs)).
  Proof.
    induction stmts as [|st stmts IH]; intros s_t s_i evs Hall HR.
    - cbn. split; [reflexivity|exact HR].
    - assert (Hall' := fun st0 H0 => Hall st0 (or_intror H0)).
      unfold lower. cbn [filter]. change (run_list F g (st :: stmts) (RRun s_i evs))
        with (run_list F g stmts (step F g st (RRun s_i evs))).
      destruct (emitted st) eqn:Ee.
      + cbn [map fexec_body]. fold (lower go stmts).
        pose proof (stmt_sim st s_t s_i nx0 (Hall st (or_introl eq_refl)) (proj1 HR)) as Hs.
        unfold step.
        (* when the statement does not fall through, the rest of the list is not run on either side *)
        destruct (snd (exec_stmt F g s_i st)) as [s_i' ev| |p|k| |];
          rewrite ?run_list_stop, ?run_list_crash; try apply brel_crash;
          destruct (fexec' (wrap go st) s_t nx0) as [s_t' nx'|s_t' nx'|s_t' k'|];
          cbn [srel] in Hs; try contradiction; try exact I.
        1: { destruct Hs as (-> & Ha & Hra). apply IH; [exact Hall'|]. eapply Rel_next; eauto. }
        all: destruct Hs as [-> ->]; split; [reflexivity|exact HR].
      + fold (lower go stmts). destruct (skip_step st s_i evs Ee) as [E|[u [e0 E]]]; rewrite E.
        * apply IH; assumption.
        * rewrite run_list_crash. apply brel_crash.
  Qed.

  Variable persistent : var -> bool.
  Hypothesis Hsplit : forall y, is_state y = persistent y || is_ret y.
  Hypothesis Hlocal : forall v, In v lv -> is_state v = false.

  Notation fcall' := (fcall F g true ff true true true go tids is_state).
  Notation fcalls' := (fcalls F g true ff true true true go tids is_state).
  Notation istep' := (istep F g tids persistent).
  Notation isteps' := (isteps F g tids persistent).

  (* between calls: every field of dagrt_state_type holds what the interpreter holds (persistent
     variables) resp. what its yields so far leave in the slots; the interpreter's context has
     nothing but persistent names *)
  Definition CRel (s_t s_i r : store) : Prop :=
    (forall y, is_state y = true -> s_t y = held s_i r y) /\ (forall y, persistent y = false -> s_i y = None).

  Definition orel (t : fout) (i : iout) : Prop :=
    match t, i with
    | FOUndef, _ => True
    | _, IOCrash => True
    | FO s_t nx, IO s_i r nx' => nx = nx' /\ CRel s_t s_i r
    | FOHalt s_t k, IOHalt s_i r k' => k = k' /\ CRel s_t s_i r
    | FOInvalid, IOInvalid => True
    | _, _ => False
    end.

  Lemma enter_Rel s_t s_i r : CRel s_t s_i r -> Rel (enter is_state s_t) (enter is_state s_t) s_i [].
  Proof.
    intros [H1 H2]. split; [|reflexivity].
    intros y [Hr Hl]. unfold enter. destruct (is_state y) eqn:Es.
    - rewrite (H1 y Es). unfold held. now rewrite Hr.
    - symmetry. apply H2. rewrite Hsplit in Es. apply orb_false_iff in Es. apply Es.
  Qed.

  Lemma leave_CRel s_t s_i r s_t' s_i' evs :
    CRel s_t s_i r -> Rel (enter is_state s_t) s_t' s_i' evs ->
    CRel s_t' (keep persistent s_i') (fold_left put_ret' evs r).
  Proof.
    intros [H1 H2] [Ha Hr]. split.
    - intros y Hy. unfold held, keep. destruct (is_ret y) eqn:Er.
      + rewrite (Hr y Er). apply fold_put_ret_ext. unfold enter. rewrite Hy, (H1 y Hy). unfold held. now rewrite Er.
      + assert (Hp : persistent y = true) by (rewrite Hsplit, Er, orb_false_r in Hy; exact Hy).
        rewrite Hp. apply Ha. split; [exact Er|]. intros Hin. rewrite (Hlocal y Hin) in Hy. discriminate.
    - intros y Hy. unfold keep. now rewrite Hy.
  Qed.

  Lemma call_sim P s_t s_i r nx :
    (forall ph st, In ph P -> In st (fp_stmts ph) -> ok_stmt st) ->
    CRel s_t s_i r -> orel (fcall' P s_t nx) (istep' P s_i r nx).
  Proof.
    intros HP HC. unfold fcall, istep.
    destruct (find_phase P nx) as [ph|] eqn:Ef; [|exact I].
    assert (Hin : In ph P).
    { clear -Ef. induction P as [|q P' IH]; cbn in Ef; [discriminate|].
      destruct (String.eqb (fp_name q) nx); [injection Ef as ->; now left|right; auto]. }
    pose proof (body_sim (enter is_state s_t) (fp_next ph) (fp_stmts ph) (enter is_state s_t) s_i []
                  (fun st Hst => HP ph st Hin Hst) (enter_Rel s_t s_i r HC)) as Hb.
    destruct (run_list F g (fp_stmts ph) (RRun s_i [])) as [s' evs|s' evs [|p|k]|u];
      destruct (fexec_body' (lower go (fp_stmts ph)) (enter is_state s_t) (fp_next ph)) as [s_t' nx'|s_t' nx'|s_t' k'|];
      cbn [brel] in Hb; cbn [orel]; try contradiction; try exact I;
      destruct Hb as [-> Hb]; (split; [reflexivity|]); eapply leave_CRel; eauto.
  Qed.

  Theorem calls_sim P :
    (forall ph st, In ph P -> In st (fp_stmts ph) -> ok_stmt st) ->
    forall n s_t s_i r nx, CRel s_t s_i r -> orel (fcalls' P n s_t nx) (isteps' P n s_i r nx).
  Proof.
    intros HP. induction n as [|n IH]; intros s_t s_i r nx HC; cbn [fcalls isteps].
    - split; [reflexivity|exact HC].
    - pose proof (call_sim P s_t s_i r nx HP HC) as H1.
      destruct (fcall' P s_t nx) as [s_t' nx'|s_t' k| |]; destruct (istep' P s_i r nx) as [s_i' r' nx''|s_i' r' k'| |];
        cbn [orel] in H1 |- *; try contradiction; try exact I; try assumption.
      + destruct H1 as [-> H1]. apply IH, H1.
      + destruct (fcalls' P n s_t' nx'); exact I.
  Qed.
End Sim.

Lemma in_prog_loopvars P ph st v :
  In ph P -> In st (fp_stmts ph) -> In v (loopvars (skd st)) -> In v (prog_loopvars P).
Proof.
  intros H1 H2 H3. unfold prog_loopvars. apply in_flat_map. exists ph. split; [exact H1|].
  apply in_flat_map. exists st. auto.
Qed.

Lemma supported_facts is_state P : supported is_state P = true ->
  forall ph st, In ph P -> In st (fp_stmts ph) -> ok_stmt is_state (prog_loopvars P) st.
Proof.
  unfold supported, phase_ok. rewrite forallb_forall. intros H ph st Hph Hst.
  specialize (H ph Hph). rewrite forallb_forall in H. split.
  - apply stmt_ok_facts, H, Hst.
  - intros v Hv. eapply in_prog_loopvars; eauto.
Qed.

Lemma supported_local is_state P : supported is_state P = true ->
  forall v, In v (prog_loopvars P) -> is_state v = false.
Proof.
  intros H v Hv. unfold prog_loopvars in Hv. apply in_flat_map in Hv. destruct Hv as (ph & Hph & Hv).
  apply in_flat_map in Hv. destruct Hv as (st & Hst & Hv).
  destruct (supported_facts is_state P H ph st Hph Hst) as [Hf _]. apply (sf_local _ _ _ Hf), Hv.
Qed.

(* the state handed to initialize / set_up: persistent variables only *)
Definition init_ok (persistent : var -> bool) (s : store) : Prop :=
  (forall y, persistent y = false -> s y = None) /\ (forall y, is_ret y = true -> s y = None).

Lemma init_CRel is_state persistent s : init_ok persistent s -> CRel is_state persistent s s empty.
Proof.
  intros [H1 H2]. split; [|exact H1]. intros y _. unfold held. destruct (is_ret y) eqn:E; [|reflexivity].
  rewrite (H2 y E). reflexivity.
Qed.

Section Pipeline.
  Variable F : string -> list val -> list (string * val) -> option (list val).
  Variables g ff go : bool.
  Variable tids : list string.
  Variables is_state persistent : var -> bool.
  Hypothesis Hsplit : forall y, is_state y = persistent y || is_ret y.

  Theorem pipeline P : supported is_state P = true ->
    forall n s_t s_i r nx, CRel is_state persistent s_t s_i r ->
      orel is_state persistent (fcalls F g true ff true true true go tids is_state P n s_t nx)
                               (isteps F g tids persistent P n s_i r nx).
  Proof.
    intros HS. apply (calls_sim F g ff go tids is_state (prog_loopvars P) persistent Hsplit
                        (supported_local is_state P HS) P (supported_facts is_state P HS)).
  Qed.
End Pipeline.

Definition pipeline_statement (cond_honoured ite_flag_first ubound_m1 switch_exits next_first guard_outside : bool)
  : Prop :=
  forall F g tids (is_state persistent : var -> bool) lsr lbr tok bl P,
    (forall y, is_state y = persistent y || is_ret y) ->
    build_prog lsr lbr is_state tok bl = Some P ->
    supported is_state P = true ->
    forall n s first, init_ok persistent s ->
      orel is_state persistent
           (fcalls F g cond_honoured ite_flag_first ubound_m1 switch_exits next_first guard_outside tids is_state P n s first)
           (isteps F g tids persistent P n s empty first).

Definition compiles_statement (ne_fortran : bool) : Prop := forall P, compiles ne_fortran P = true.

(* that P was built from bl plays no part *)
Theorem pipeline_holds ff go : pipeline_statement true ff true true true go.
Proof.
  intros F g tids is_state persistent lsr lbr tok bl P Hs _ HS n s first Hi.
  apply pipeline; [exact Hs|exact HS|apply init_CRel, Hi].
Qed.

Theorem compiles_holds : compiles_statement true.
Proof. intros P. reflexivity. Qed.

Definition agree_on (univ : list var) (t : fout) (i : iout) : bool :=
  match t, i with
  | FO s_t nx, IO s_i r nx' =>
      String.eqb nx nx' && forallb (fun y => opt_eqb val_eqb (s_t y) (held s_i r y)) univ
  | FOHalt s_t k, IOHalt s_i r k' =>
      String.eqb k k' && forallb (fun y => opt_eqb val_eqb (s_t y) (held s_i r y)) univ
  | FOInvalid, IOInvalid => true
  | _, _ => false
  end.
Definition defined_pair (t : fout) (i : iout) : bool :=
  match t, i with FOUndef, _ => false | _, IOCrash => false | _, _ => true end.

Lemma list_eqb_refl {A} (eqb : A -> A -> bool) : (forall a, eqb a a = true) -> forall l, list_eqb eqb l l = true.
Proof. intros H. induction l; cbn; [reflexivity|]. now rewrite H, IHl. Qed.
Lemma val_eqb_refl v : val_eqb v v = true.
Proof.
  destruct v; cbn; try reflexivity; [apply Z.eqb_refl|now destruct b|apply list_eqb_refl, Z.eqb_refl].
Qed.

Lemma orel_agree_on is_state persistent univ t i :
  orel is_state persistent t i -> defined_pair t i = true ->
  forallb is_state univ = true -> agree_on univ t i = true.
Proof.
  intros H Hd Hu. rewrite forallb_forall in Hu.
  assert (G : forall s_t s_i r, CRel is_state persistent s_t s_i r ->
                forallb (fun y => opt_eqb val_eqb (s_t y) (held s_i r y)) univ = true).
  { intros s_t s_i r [H1 _]. apply forallb_forall. intros y Hy. rewrite (H1 y (Hu y Hy)).
    destruct (held s_i r y); cbn; [apply val_eqb_refl|reflexivity]. }
  destruct t, i; cbn in *; try discriminate; try contradiction; try reflexivity.
  - destruct H as [-> H]. now rewrite String.eqb_refl, (G _ _ _ H).
  - destruct H as [-> H]. now rewrite String.eqb_refl, (G _ _ _ H).
Qed.

(* The test of the examples below, made after each of the first n calls in one pass over the two
   runs: evaluating it once stands for evaluating the two runs anew for every number of calls. *)
Section Runs.
  Variable F : string -> list val -> list (string * val) -> option (list val).
  Variables g ch ff um sw nf go : bool.
  Variable tids : list string.
  Variables is_state persistent : var -> bool.
  Variable P : fprog.
  Variable univ : list var.
  Notation fcall' := (fcall F g ch ff um sw nf go tids is_state P).
  Notation istep' := (istep F g tids persistent P).

  Definition both_ok (t : fout) (i : iout) : bool := defined_pair t i && agree_on univ t i.

  Fixpoint runs_ok (n : nat) (s_t : store) (nx : string) (s_i r : store) (nx' : string) : bool :=
    both_ok (FO s_t nx) (IO s_i r nx') &&
    match n with
    | O => true
    | S m => match fcall' s_t nx, istep' s_i r nx' with
             | FO s_t' nx1, IO s_i' r' nx1' => runs_ok m s_t' nx1 s_i' r' nx1'
             | t, i => both_ok t i
             end
    end.

  Lemma runs_ok_spec n : forall s_t nx s_i r nx', runs_ok n s_t nx s_i r nx' = true ->
    forall m, (m <= n)%nat ->
      both_ok (fcalls F g ch ff um sw nf go tids is_state P m s_t nx) (isteps F g tids persistent P m s_i r nx') = true.
  Proof.
    induction n as [|n IH]; intros s_t nx s_i r nx' H [|m] Hm;
      cbn [runs_ok] in H; apply andb_true_iff in H as [H0 H]; [exact H0|lia|exact H0|].
    (* a run that has ended gives the same result for every larger number of calls *)
    cbn [fcalls isteps]. destruct (fcall' s_t nx), (istep' s_i r nx'); try exact H; try discriminate H.
    apply IH; [exact H|lia].
  Qed.
End Runs.
Arguments runs_ok_spec {F g ch ff um sw nf go tids is_state persistent P univ} n.

(* the name classes of gen/GenLang.v (state_exact / state_prefixes, interp_keep_exact / interp_keep_prefixes), written
   out: the witnesses below are evaluated with them, and props/C03.v uses st_split at GenLang's own lists *)
Definition st_of : var -> bool := is_state_of ["<t>"; "<dt>"] ["<state>"; "<p>"; "<ret_time_id>"; "<ret_time>"; "<ret_state>"].
Definition ps_of : var -> bool := is_state_of ["<t>"; "<dt>"] ["<state>"; "<p>"].

Lemma st_split y : st_of y = ps_of y || is_ret y.
Proof.
  unfold st_of, ps_of, is_state_of, is_ret.
  change ["<state>"; "<p>"; "<ret_time_id>"; "<ret_time>"; "<ret_state>"] with (["<state>"; "<p>"] ++ ret_prefixes).
  rewrite existsb_app. apply orb_assoc.
Qed.

Definition mk_store (l : list (var * val)) : store := fold_left (fun s p => upd s (fst p) (snd p)) l empty.

Lemma init_ok_ps (l : list (var * val)) :
  forallb (fun p => ps_of (fst p) && negb (is_ret (fst p))) l = true -> init_ok ps_of (mk_store l).
Proof.
  assert (G : forall l s, (forall p, In p l -> ps_of (fst p) = true /\ is_ret (fst p) = false) ->
              init_ok ps_of s -> init_ok ps_of (fold_left (fun s p => upd s (fst p) (snd p)) l s)).
  { induction l0 as [|p l0 IH]; intros s Hl Hs; cbn [fold_left]; [exact Hs|].
    apply IH; [intros q Hq; apply Hl; now right|].
    destruct (Hl p (or_introl eq_refl)) as [A B]. destruct Hs as [H1 H2]. split; intros y Hy.
    - rewrite upd_other; [apply H1, Hy|]. intros ->. congruence.
    - rewrite upd_other; [apply H2, Hy|]. intros ->. congruence. }
  intros H. apply G.
  - intros p Hp. rewrite forallb_forall in H. specialize (H p Hp).
    rewrite andb_true_iff, negb_true_iff in H. exact H.
  - split; reflexivity.
Qed.

Definition wit_ok (bl : list bphase) (P : fprog) (init : list (var * val)) (univ : list var) : Prop :=
  build_prog true true st_of "<exec>" bl = Some P /\ supported st_of P = true /\
  forallb (fun p => ps_of (fst p) && negb (is_ret (fst p))) init = true /\ forallb st_of univ = true.

(* Evaluating the two runs needs a value only for the switches they look at: next_first and
   guard_outside always; ite_flag_first never (it is consulted for a conditional expression under
   cond_honoured = true, which no witness has); ubound_m1 and switch_exits only where there is a loop
   or a SwitchPhase, and there the refuted statement fixes them. *)
Lemma refute ch ff um sw nf go bl P init n first univ :
  wit_ok bl P init univ ->
  (let t := fcalls F03 true ch ff um sw nf go [] st_of P n (mk_store init) first in
   let i := isteps F03 true [] ps_of P n (mk_store init) empty first in
   defined_pair t i && negb (agree_on univ t i)) = true ->
  ~ pipeline_statement ch ff um sw nf go.
Proof.
  intros (Hb & HS & Hi & Hu) Hw Hst. cbv zeta in Hw. apply andb_true_iff in Hw. destruct Hw as [Hd Hn].
  specialize (Hst F03 true [] st_of ps_of true true "<exec>" bl P st_split Hb HS n (mk_store init) first
                  (init_ok_ps init Hi)).
  rewrite (orel_agree_on st_of ps_of univ _ _ Hst Hd Hu) in Hn. discriminate.
Qed.

Definition ph1 (calls : list bcall) : list bphase := [mkB "pa" "pa" calls].
Definition gt (a b : expr) : expr := EBin (BCmp CGt) a b.
Definition plus (a b : expr) : expr := ENary NSum [a; b].

(* lower_inst ignores statement conditions: `1 if <p>x > 2 else 3` is 3 *)
Definition wit_cond : list bphase :=
  ph1 [BStmt (KAssign "<p>z" None (EIf (gt (EVar "<p>x") (EInt 2)) (EInt 1) (EInt 3)) [])].
Definition wit_cond_P : fprog :=
  Eval vm_compute in match build_prog true true st_of "<exec>" wit_cond with Some P => P | None => [] end.
Lemma wit_cond_ok : wit_ok wit_cond wit_cond_P [("<p>x", VInt 3); ("<p>z", VInt 0)] ["<p>z"].
Proof. repeat split; vm_compute; reflexivity. Qed.
Lemma cond_refuted ff um sw nf go : ~ pipeline_statement false ff um sw nf go.
Proof. apply refute with (n := 1%nat) (first := "pa") (1 := wit_cond_ok). destruct nf, go; vm_compute; reflexivity. Qed.

(* do v = lo, hi instead of hi - 1: one trip too many *)
Definition wit_loop : list bphase :=
  ph1 [BStmt (KAssign "<p>z" None (plus (EVar "<p>z") (EVar "i")) [("i", EInt 0, EInt 3)])].
Definition wit_loop_P : fprog :=
  Eval vm_compute in match build_prog true true st_of "<exec>" wit_loop with Some P => P | None => [] end.
Lemma wit_loop_ok : wit_ok wit_loop wit_loop_P [("<p>z", VInt 0)] ["<p>z"].
Proof. repeat split; vm_compute; reflexivity. Qed.
Lemma ubound_refuted ff sw nf go : ~ pipeline_statement true ff false sw nf go.
Proof. apply refute with (n := 1%nat) (first := "pa") (1 := wit_loop_ok). destruct nf, go; vm_compute; reflexivity. Qed.

(* no goto 999 after SwitchPhase: the statements after it run *)
Definition wit_switch : list bphase :=
  [mkB "pa" "pa" [BStmt (KSwitch "pb"); BStmt (KAssign "<p>z" None (EInt 7) [])];
   mkB "pb" "pb" [BStmt (KAssign "<p>z" None (plus (EVar "<p>z") (EInt 1)) [])]].
Definition wit_switch_P : fprog :=
  Eval vm_compute in match build_prog true true st_of "<exec>" wit_switch with Some P => P | None => [] end.
Lemma wit_switch_ok : wit_ok wit_switch wit_switch_P [("<p>z", VInt 0)] ["<p>z"].
Proof. repeat split; vm_compute; reflexivity. Qed.
Lemma switch_refuted ff nf go : ~ pipeline_statement true ff true false nf go.
Proof. apply refute with (n := 1%nat) (first := "pa") (1 := wit_switch_ok). destruct nf, go; vm_compute; reflexivity. Qed.

(* default successor assigned after the call: a SwitchPhase is overwritten *)
Lemma next_refuted ff go : ~ pipeline_statement true ff true true false go.
Proof. apply refute with (n := 2%nat) (first := "pa") (1 := wit_switch_ok). destruct go; vm_compute; reflexivity. Qed.

(* `!=` printed as it is: the module does not compile *)
Definition wit_ne : fprog :=
  [mkPhase "pa" "pa" [Build_stmt 0 [] (EBool true)
                        (KAssign "<p>f" None (EBin (BCmp CNe) (EVar "<p>x") (EInt 2)) [])]].
Lemma ne_refuted : ~ compiles_statement false.
Proof. intros H. specialize (H wit_ne). discriminate. Qed.

(* non-vacuity: a program with loops, guards, a conditional expression, calls, yields,
   a failure and a switch satisfies the hypotheses, and both models are defined on it *)
Definition ex_prog : list bphase :=
  [mkB "pa" "pb"
     [BStmt (KAssign "<p>x" None (plus (EVar "<p>x") (EInt 1)) []);
      BStmt (KCall ["a"] "<builtin>array" [EInt 3] []);
      BStmt (KAssign "a" (Some (EVar "i")) (ENary NProd [EVar "i"; EVar "<p>x"]) [("i", EInt 0, EInt 3)]);
      BStmt (KAssign "<p>s" None (plus (EVar "<p>s") (EBin BSub (EVar "a") (EVar "j")))
                     [("i", EInt 0, EInt 2); ("j", EInt 0, plus (EVar "i") (EInt 1))]);
      BStmt (KCall ["yt"] "<func>rhs" [EVar "<t>"; EVar "<state>y"] []);
      BStmt (KAssign "<state>y" None (EVar "yt") []);
      BIf (gt (EVar "<p>x") (EInt 2));
      BStmt (KAssign "<p>z" None (EIf (EBin (BCmp CNe) (EVar "<p>x") (EInt 3)) (EInt 1) (EInt 2)) []);
      BStmt (KSwitch "pa");
      BEndIf; BElse;
      BStmt (KCall ["<p>u"; "<p>v"] "<func>two" [EVar "<p>x"] []);
      BEndElse;
      BStmt (KYield "y" "final" (EVar "<t>") (EVar "<state>y"));
      BStmt (KAssign "<t>" None (plus (EVar "<t>") (EVar "<dt>")) [])];
   mkB "pb" "pa"
     [BIf (gt (EVar "<p>s") (EInt 5)); BStmt KFail; BEndIf;
      BStmt (KYield "y" "mid" (plus (EVar "<t>") (EInt 5)) (EVar "<state>y"))]].
Definition ex_init : list (var * val) :=
  [("<t>", VInt 0); ("<dt>", VInt 1); ("<p>x", VInt 1); ("<p>s", VInt 0); ("<p>z", VInt 0);
   ("<p>u", VInt 0); ("<p>v", VInt 0); ("<state>y", VArr [1; 2; 3])].
Definition ex_P : fprog :=
  match build_prog true true st_of "<exec>" ex_prog with Some P => P | None => [] end.
Definition ex_univ : list var :=
  ["<t>"; "<p>x"; "<p>s"; "<p>z"; "<p>u"; "<p>v"; "<state>y"; "<ret_time_id>y"; "<ret_time>y"; "<ret_state>y"].

Lemma some_or_default {A} (o : option A) d :
  (if o then true else false) = true -> o = Some (match o with Some x => x | None => d end).
Proof. destruct o; [reflexivity|discriminate]. Qed.

Example ex_hypotheses :
  build_prog true true st_of "<exec>" ex_prog = Some ex_P /\ supported st_of ex_P = true /\
  init_ok ps_of (mk_store ex_init) /\ compiles true ex_P = true.
Proof.
  (* ex_P is what build_prog returns: only that it returns something is left to evaluation, which
     spares the kernel the comparison of the two built programs *)
  split; [apply some_or_default; vm_compute; reflexivity|]. split; [vm_compute; reflexivity|].
  split; [apply init_ok_ps|]; reflexivity.
Qed.

(* the runs go through a switch (call 3) *)
Example ex_runs : forall go n, (n <= 5)%nat ->
  let t := fcalls F03 true true true true true true go ["final"; "mid"] st_of ex_P n (mk_store ex_init) "pa" in
  let i := isteps F03 true ["final"; "mid"] ps_of ex_P n (mk_store ex_init) empty "pa" in
  defined_pair t i && agree_on ex_univ t i = true.
Proof.
  intros go. apply (runs_ok_spec 5). destruct go; vm_compute; reflexivity.
Qed.

(* Where the two lowerings of a guarded looped assignment differ.
   `n` is assigned only under the guard that also guards the loop whose bound is n.  While the guard
   is false the interpreter does not look at the loop; with the guard lowered INSIDE the loops
   (guard_outside = false) the emitted code evaluates the bound int(n) of a variable without a
   value: the target model is undefined on the first call (the relation then says nothing; the
   compiled program dies with -ffpe-trap=invalid, corpus/C03/guarded_loop_bound.json).  With the
   guard outside (guard_outside = true, what dag_ast.py loop_to_ast_node does) the model is defined and agrees. *)
Definition wit_guard : list bphase :=
  ph1 [BIf (gt (EVar "<p>x") (EInt 1));
       BStmt (KAssign "n" None (plus (EVar "<p>x") (EInt 1)) []);
       BStmt (KAssign "<p>z" None (plus (EVar "<p>z") (EVar "i")) [("i", EInt 0, EVar "n")]);
       BEndIf;
       BStmt (KAssign "<p>x" None (plus (EVar "<p>x") (EInt 1)) [])].
Definition wit_guard_P : fprog :=
  match build_prog true true st_of "<exec>" wit_guard with Some P => P | None => [] end.
Definition wit_guard_init : list (var * val) := [("<p>x", VInt 0); ("<p>z", VInt 0)].

Example guard_inside_undefined :
  supported st_of wit_guard_P = true /\
  fcalls F03 true true true true true true false [] st_of wit_guard_P 1 (mk_store wit_guard_init) "pa" = FOUndef /\
  forall n, (n <= 4)%nat ->
    let t := fcalls F03 true true true true true true true [] st_of wit_guard_P n (mk_store wit_guard_init) "pa" in
    let i := isteps F03 true [] ps_of wit_guard_P n (mk_store wit_guard_init) empty "pa" in
    defined_pair t i && agree_on ["<p>x"; "<p>z"] t i = true.
Proof.
  split; [vm_compute; reflexivity|]. split; [vm_compute; reflexivity|].
  apply (runs_ok_spec 4). vm_compute; reflexivity.
Qed.

(* The interpreter's schedule.  `isteps` runs the statements of a phase in program order.  The real
   interpreter runs them in the order its controller picks, which respects the recorded dependencies
   (C04).  For the phases of a supported builder program every such order gives the same events,
   variables and stop reason as program order: BuilderProofs.all_schedules (C02), whose side
   condition loopvars_ok follows from `supported` and from the fact that a step starts with
   persistent variables only. *)
Lemma build_prog_phase lsr lbr is_state tok : forall bl P ph,
  build_prog lsr lbr is_state tok bl = Some P -> In ph P ->
  exists calls b, build lsr lbr is_state tok calls = BOk b /\ fp_stmts ph = b_stmts b.
Proof.
  induction bl as [|bp bl IH]; intros P ph Hb Hin; cbn [build_prog] in Hb.
  - injection Hb as <-. destruct Hin.
  - destruct (build lsr lbr is_state tok (bp_calls bp)) as [b| | |] eqn:Eb; try discriminate.
    destruct (build_prog lsr lbr is_state tok bl) as [P'|] eqn:EP; [|discriminate].
    injection Hb as <-. destruct Hin as [<-|Hin].
    + exists (bp_calls bp), b. split; [exact Eb|reflexivity].
    + eapply IH; eauto.
Qed.

Theorem step_any_schedule F g (is_state persistent : var -> bool) tok bl P ph s sched :
  (forall y, is_state y = persistent y || is_ret y) ->
  build_prog true true is_state tok bl = Some P -> supported is_state P = true -> In ph P ->
  (forall y, persistent y = false -> s y = None) ->
  Permutation.Permutation (seq 0 (List.length (fp_stmts ph))) sched ->
  BuilderProofs.respects (fp_stmts ph) sched ->
  req (run_ids F g (fp_stmts ph) sched (RRun s [])) (run_list F g (fp_stmts ph) (RRun s [])).
Proof.
  intros Hsplit Hb HS Hin Hs Hperm Hresp.
  destruct (build_prog_phase true true is_state tok bl P ph Hb Hin) as (calls & b & Hbuild & E).
  rewrite E in *. rewrite <- (BuilderProofs.run_ids_seq F g (b_stmts b) (RRun s [])).
  eapply BuilderProofs.all_schedules; eauto.
  intros a y Ha Hy. rewrite <- E in Ha.
  destruct (supported_facts is_state P HS ph a Hin Ha) as [Hf Hlv]. split.
  - apply Hs. destruct (sf_local _ _ _ Hf y Hy) as [A _]. rewrite Hsplit in A.
    apply orb_false_iff in A. apply A.
  - intros c Hc Hw. rewrite <- E in Hc.
    destruct (supported_facts is_state P HS ph c Hin Hc) as [Hfc _].
    destruct (sf_writes _ _ _ Hfc y Hw) as [_ Hn]. apply Hn, Hlv, Hy.
Qed.

Lemma akind_eqb_refl a : akind_eqb a a = true.
Proof. destruct a; cbn; auto using Nat.eqb_refl. Qed.
Lemma akinds_eqb_refl l : akinds_eqb l l = true.
Proof. induction l as [|a l IH]; cbn; [reflexivity|]. now rewrite akind_eqb_refl, IH. Qed.
Lemma akinds_eqb_eq a : forall b, akinds_eqb a b = true -> a = b.
Proof.
  induction a as [|x a IH]; intros [|y b]; cbn; try discriminate; [reflexivity|].
  rewrite andb_true_iff. intros [H1 H2]. f_equal; [|apply IH, H2].
  destruct x, y; cbn in H1; try discriminate; try reflexivity. apply Nat.eqb_eq in H1. now subst.
Qed.

(* the model's call semantics (F applied to the call's own arguments) IS the helper made for the
   call's own key ... *)
Lemma helper_own_key F f pos kw : helper F (helper_key f pos) pos kw = F f pos kw.
Proof. unfold helper, helper_key. cbn [fst snd]. now rewrite akinds_eqb_refl. Qed.

(* ... and a helper made for other argument kinds (e.g. for a user type of another extent) is not
   defined on these arguments: sharing one subroutine between keys is not a behaviour the model has *)
Lemma helper_foreign_key F f ks pos kw : ks <> map kind_of_val pos -> helper F (f, ks) pos kw = None.
Proof.
  intros H. unfold helper. cbn [fst snd]. destruct (akinds_eqb ks (map kind_of_val pos)) eqn:E; [|reflexivity].
  apply akinds_eqb_eq in E. contradiction.
Qed.

Example ex_helper_keys :
  helper_key "<builtin>len" [VArr [1; 2; 3]] <> helper_key "<builtin>len" [VArr [1; 2; 3; 4; 5]] /\
  helper F03 (helper_key "<builtin>len" [VArr [1; 2; 3]]) [VArr [1; 2; 3; 4; 5]] [] = None /\
  helper F03 (helper_key "<builtin>len" [VArr [1; 2; 3; 4; 5]]) [VArr [1; 2; 3; 4; 5]] [] = Some [VInt 5].
Proof. repeat split; try reflexivity. discriminate. Qed.
