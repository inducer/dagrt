(* C01, call argument binding: dagrt.utils.resolve_args (what generated code does when it is
   generated) computes Python's call binding (what the interpreter does when it runs). *)
From Coq Require Import String List Bool Arith Lia Permutation.
Import ListNotations.
From Dagrt Require Import CallBind ListFacts.
Open Scope string_scope.
Open Scope list_scope.

Lemma forget_some : forall (E A : Type) (r : res E A) a, forget r = Some a <-> r = Ok a.
Proof. intros E A [x|e] a; simpl; split; intro H; inversion H; reflexivity. Qed.

Lemma forget_none : forall (E A : Type) (r : res E A), forget r = None <-> exists e, r = Err e.
Proof.
  intros E A [x|e]; simpl; split; intro H.
  - discriminate.
  - destruct H as [e H]; discriminate.
  - exists e; reflexivity.
  - reflexivity.
Qed.

Section Proofs.
Context {V : Type}.
Variable defs : list (string * V).

(* name-keyed pop, the image of d_pop (KName _) on the keyword part of the dict *)
Fixpoint pop (n : string) (l : list (string * V)) : option (V * list (string * V)) :=
  match l with
  | [] => None
  | (k, v) :: r =>
      if String.eqb n k then Some (v, r)
      else match pop n r with
           | Some (w, r') => Some (w, (k, v) :: r')
           | None => None
           end
  end.

Definition has (n : string) (l : list (string * V)) : bool :=
  existsb (fun p => String.eqb n (fst p)) l.

Definition okb (o : option perr) : bool := match o with None => true | Some _ => false end.

Definition fin (sl : list (string * option V)) : res perr (list V) :=
  match missing sl with [] => Ok (values sl) | m => Err (PMissing m) end.

Lemma lookup_in_iff : forall n (l : list (string * V)), In n (map fst l) <-> exists v, lookup n l = Some v.
Proof.
  intros n l; induction l as [|[k w] r IH]; simpl; [split; [intros []|intros [v H]; discriminate]|].
  destruct (String.eqb_spec n k) as [->|Hne]; [split; eauto|].
  rewrite <- IH. split; [intros [H|H]; [congruence|exact H]|auto].
Qed.

Lemma has_lookup : forall n l, has n l = if lookup n l then true else false.
Proof.
  intros n l; induction l as [|[k w] r IH]; simpl; [reflexivity|].
  destruct (String.eqb n k); [reflexivity|exact IH].
Qed.

Lemma pop_lookup : forall n l, option_map fst (pop n l) = lookup n l.
Proof.
  intros n l; induction l as [|[k w] r IH]; simpl; [reflexivity|].
  destruct (String.eqb n k); [reflexivity|]. rewrite <- IH. destruct (pop n r) as [[w' r']|]; reflexivity.
Qed.

Lemma lookup_none_notin : forall n (l : list (string * V)), lookup n l = None <-> ~ In n (map fst l).
Proof.
  intros n l. rewrite lookup_in_iff. destruct (lookup n l) as [v|]; split; try discriminate; eauto.
  - intros H. exfalso. eauto.
  - intros _ [v H]. discriminate.
Qed.

Lemma has_false_notin : forall n l, has n l = false <-> ~ In n (map fst l).
Proof. intros n l. rewrite has_lookup, <- lookup_none_notin. destruct (lookup n l); split; congruence. Qed.

Lemma pop_none : forall n l, pop n l = None -> has n l = false /\ lookup n l = None.
Proof. intros n l H. rewrite has_lookup, <- pop_lookup, H. split; reflexivity. Qed.

Lemma pop_some_lookup : forall n l v l', pop n l = Some (v, l') -> lookup n l = Some v.
Proof. intros n l v l' H. rewrite <- pop_lookup, H. reflexivity. Qed.

Lemma in_lookup : forall n v (l : list (string * V)),
  NoDup (map fst l) -> In (n, v) l -> lookup n l = Some v.
Proof.
  intros n v l; induction l as [|[k w] r IH]; simpl; intros Hnd Hin; [contradiction|].
  inversion Hnd as [|x xs Hk Hr]; subst.
  destruct Hin as [Heq|Hin].
  - inversion Heq; subst. rewrite String.eqb_refl; reflexivity.
  - destruct (String.eqb n k) eqn:E.
    + apply String.eqb_eq in E; subst k. exfalso; apply Hk.
      change n with (fst (n, v)); apply in_map; exact Hin.
    + exact (IH Hr Hin).
Qed.

Lemma pop_lookup_other : forall n l v l' m,
  pop n l = Some (v, l') -> m <> n -> lookup m l' = lookup m l.
Proof.
  intros n l; induction l as [|[k w] r IH]; simpl; intros v l' m H Hm; [discriminate|].
  destruct (String.eqb_spec n k) as [<-|Hne].
  - injection H as _ <-. destruct (String.eqb_spec m n); [contradiction | reflexivity].
  - destruct (pop n r) as [[w' r']|] eqn:Hp; [|discriminate].
    injection H as _ <-. simpl. rewrite (IH _ _ m eq_refl Hm). reflexivity.
Qed.

Lemma pop_nodup : forall n l v l',
  pop n l = Some (v, l') -> NoDup (map fst l) -> NoDup (map fst l') /\ incl (map fst l') (map fst l).
Proof.
  intros n l; induction l as [|[k w] r IH]; simpl; intros v l' H Hnd; [discriminate|].
  inversion Hnd as [|x xs Hk Hr]; subst.
  destruct (String.eqb n k) eqn:E.
  - inversion H; subst. split; [exact Hr | intros x Hx; right; exact Hx].
  - destruct (pop n r) as [[w' r']|] eqn:Hp; [|discriminate].
    inversion H; subst. destruct (IH _ _ eq_refl Hr) as [Hn Hi]. simpl. split.
    + constructor; [intro Hin; apply Hk; apply Hi; exact Hin | exact Hn].
    + intros x [Hx|Hx]; [left; exact Hx | right; apply Hi; exact Hx].
Qed.


Lemma d_pop_kpos_kw : forall i (kws : list (string * V)), d_pop (KPos i) (kw_entries kws) = None.
Proof. intros i kws; induction kws as [|[k v] r IH]; simpl; [reflexivity|]. rewrite IH; reflexivity. Qed.

Lemma d_pop_kname_kw : forall n (kws : list (string * V)),
  d_pop (KName n) (kw_entries kws) =
  match pop n kws with Some (v, l) => Some (v, kw_entries l) | None => None end.
Proof.
  intros n kws; induction kws as [|[k v] r IH]; simpl; [reflexivity|].
  destruct (String.eqb n k); [reflexivity|].
  rewrite IH. destruct (pop n r) as [[w r']|]; reflexivity.
Qed.

Lemma d_mem_kname : forall n j (p : list V) (kws : list (string * V)),
  d_mem (KName n) (pos_entries j p ++ kw_entries kws) = has n kws.
Proof.
  intros n j p; revert j; induction p as [|v p IH]; intros j kws; simpl.
  - unfold d_mem, has, kw_entries. induction kws as [|[k w] r IHk]; [reflexivity|].
    cbn [map existsb fst snd]. rewrite IHk. reflexivity.
  - unfold d_mem in *. cbn [pos_entries app existsb fst key_eqb orb]. apply IH.
Qed.

Lemma forget_py_bind : forall names pos kws,
  forget (py_bind names defs pos kws) =
  if okb (kw_check names (List.length pos) kws) && negb (Nat.ltb (List.length names) (List.length pos))
  then forget (fin (slots names pos kws defs)) else None.
Proof.
  intros names pos kws; unfold py_bind, fin.
  destruct (kw_check names (List.length pos) kws); simpl; [reflexivity|].
  destruct (Nat.ltb (List.length names) (List.length pos)); reflexivity.
Qed.

Lemma forget_fin_some : forall n v sl,
  forget (fin ((n, Some v) :: sl)) = option_map (cons v) (forget (fin sl)).
Proof. intros n v sl; unfold fin; simpl. destruct (missing sl); reflexivity. Qed.

Lemma forget_fin_none : forall n sl, forget (fin ((n, None) :: sl)) = None.
Proof. intros n sl; reflexivity. Qed.

(* without the head parameter every index is one less; np = 0 means nothing was positional, and stays 0 *)
Lemma kw_check_peel : forall name rest np (l : list (string * V)),
  has name l = false -> kw_check (name :: rest) np l = kw_check rest (Nat.pred np) l.
Proof.
  intros name rest np l; induction l as [|[k w] r IH]; simpl; intros Hh; [reflexivity|].
  apply orb_false_iff in Hh; destruct Hh as [E Hr].
  rewrite String.eqb_sym, E.
  destruct (index_of k rest) as [j|]; simpl; [|reflexivity].
  replace (Nat.ltb (S j) np) with (Nat.ltb j (Nat.pred np)) by (destruct np; reflexivity).
  destruct (Nat.ltb j (Nat.pred np)); [reflexivity | exact (IH Hr)].
Qed.

Lemma kw_check_has : forall name rest np (l : list (string * V)),
  has name l = true -> okb (kw_check (name :: rest) (S np) l) = false.
Proof.
  intros name rest np l; induction l as [|[k w] r IH]; simpl; intro Hh; [discriminate|].
  destruct (String.eqb name k) eqn:E.
  - rewrite String.eqb_sym, E. reflexivity.
  - simpl in Hh. rewrite String.eqb_sym, E.
    destruct (index_of k rest) as [j|]; simpl; [|reflexivity].
    destruct (Nat.ltb (S j) (S np)); [reflexivity | exact (IH Hh)].
Qed.

Lemma kw_check_pop : forall name rest (l : list (string * V)) v l',
  pop name l = Some (v, l') -> NoDup (map fst l) ->
  okb (kw_check (name :: rest) 0 l) = okb (kw_check rest 0 l').
Proof.
  intros name rest l; induction l as [|[k w] r IH]; simpl; intros v l' Hp Hnd; [discriminate|].
  inversion Hnd as [|x xs Hk Hr]; subst.
  destruct (String.eqb name k) eqn:E.
  - inversion Hp; subst. rewrite String.eqb_sym, E. simpl.
    apply String.eqb_eq in E; subst k.
    rewrite (kw_check_peel name rest 0 l'); [reflexivity | apply has_false_notin; exact Hk].
  - destruct (pop name r) as [[w' r']|] eqn:Hpr; [|discriminate].
    inversion Hp; subst. rewrite String.eqb_sym, E. simpl.
    destruct (index_of k rest) as [j|]; simpl; [|reflexivity].
    exact (IH _ _ eq_refl Hr).
Qed.

Lemma slots_ext : forall names (k1 k2 : list (string * V)),
  (forall n, In n names -> lookup n k1 = lookup n k2) ->
  slots names [] k1 defs = slots names [] k2 defs.
Proof.
  intros names k1 k2; induction names as [|n r IH]; intro H; simpl; [reflexivity|].
  rewrite (H n (or_introl eq_refl)). f_equal. apply IH. intros m Hm; apply H; right; exact Hm.
Qed.

(* Python's rule one parameter at a time, the message of the TypeError forgotten: both
   algorithms compute this function *)
Fixpoint bindr (names : list string) (pos : list V) (kws : list (string * V)) : option (list V) :=
  match names with
  | [] => match pos, kws with [], [] => Some [] | _, _ => None end
  | name :: rest =>
      match pos with
      | v :: pos' => if has name kws then None else option_map (cons v) (bindr rest pos' kws)
      | [] =>
          match pop name kws with
          | Some (v, kws') => option_map (cons v) (bindr rest [] kws')
          | None => match lookup name defs with
                    | Some v => option_map (cons v) (bindr rest [] kws)
                    | None => None
                    end
          end
      end
  end.

(* py_bind obeys the five equations of bindr; only the one that takes a keyword out needs names and
   keywords without repetition *)
Lemma py_bind_pos : forall name rest v pos' kws,
  has name kws = false ->
  forget (py_bind (name :: rest) defs (v :: pos') kws) =
  option_map (cons v) (forget (py_bind rest defs pos' kws)).
Proof.
  intros name rest v pos' kws Hh. rewrite !forget_py_bind. cbn [List.length slots].
  rewrite (kw_check_peel name rest (S (List.length pos')) kws Hh). cbn [Nat.pred].
  change (Nat.ltb (S (List.length rest)) (S (List.length pos')))
    with (Nat.ltb (List.length rest) (List.length pos')).
  destruct (okb _ && negb _); [apply forget_fin_some | reflexivity].
Qed.

Lemma py_bind_dup : forall name rest v pos' kws,
  has name kws = true -> forget (py_bind (name :: rest) defs (v :: pos') kws) = None.
Proof.
  intros name rest v pos' kws Hh. rewrite forget_py_bind. cbn [List.length].
  rewrite (kw_check_has name rest (List.length pos') kws Hh). reflexivity.
Qed.

Lemma py_bind_default : forall name rest kws v,
  pop name kws = None -> lookup name defs = Some v ->
  forget (py_bind (name :: rest) defs [] kws) = option_map (cons v) (forget (py_bind rest defs [] kws)).
Proof.
  intros name rest kws v Hp Hd. destruct (pop_none _ _ Hp) as [Hh Hl].
  rewrite !forget_py_bind. cbn [List.length slots]. rewrite (kw_check_peel name rest 0 kws Hh), Hl, Hd.
  change (Nat.ltb (S (List.length rest)) 0) with (Nat.ltb (List.length rest) 0). cbn [Nat.pred].
  destruct (okb _ && negb _); [apply forget_fin_some | reflexivity].
Qed.

Lemma py_bind_missing : forall name rest kws,
  pop name kws = None -> lookup name defs = None ->
  forget (py_bind (name :: rest) defs [] kws) = None.
Proof.
  intros name rest kws Hp Hd. destruct (pop_none _ _ Hp) as [Hh Hl].
  rewrite forget_py_bind. cbn [slots]. rewrite Hl, Hd. destruct (okb _ && negb _); reflexivity.
Qed.

Lemma py_bind_pop : forall name rest kws v kws',
  pop name kws = Some (v, kws') -> NoDup (name :: rest) -> NoDup (map fst kws) ->
  forget (py_bind (name :: rest) defs [] kws) = option_map (cons v) (forget (py_bind rest defs [] kws')).
Proof.
  intros name rest kws v kws' Hp Hn Hk. inversion Hn as [|x xs Hname _]; subst.
  rewrite !forget_py_bind. cbn [List.length slots].
  rewrite (kw_check_pop name rest kws v kws' Hp Hk), (pop_some_lookup _ _ _ _ Hp).
  change (Nat.ltb (S (List.length rest)) 0) with (Nat.ltb (List.length rest) 0).
  rewrite (slots_ext rest kws kws'); [destruct (okb _ && negb _); [apply forget_fin_some | reflexivity]|].
  intros n Hin. symmetry. apply (pop_lookup_other name kws v kws' n Hp). intros ->. contradiction.
Qed.

Lemma py_bind_bindr : forall names pos kws,
  NoDup names -> NoDup (map fst kws) -> forget (py_bind names defs pos kws) = bindr names pos kws.
Proof.
  induction names as [|name rest IH]; intros pos kws Hn Hk.
  - destruct pos, kws as [|[k w] kws]; reflexivity.
  - assert (Hrest : NoDup rest) by now inversion Hn.
    cbn [bindr]. destruct pos as [|v pos'].
    + destruct (pop name kws) as [[v kws']|] eqn:Hp.
      * rewrite (py_bind_pop name rest kws v kws' Hp Hn Hk), IH;
          [reflexivity | exact Hrest | apply (pop_nodup _ _ _ _ Hp Hk)].
      * destruct (lookup name defs) as [v|] eqn:Hd; [|exact (py_bind_missing name rest kws Hp Hd)].
        rewrite (py_bind_default name rest kws v Hp Hd), IH by assumption. reflexivity.
    + destruct (has name kws) eqn:Hh; [exact (py_bind_dup name rest v pos' kws Hh)|].
      rewrite (py_bind_pos name rest v pos' kws Hh), IH by assumption. reflexivity.
Qed.

Lemma option_map_snoc {A} (args : list A) v o :
  option_map (app (args ++ [v])) o = option_map (app args) (option_map (cons v) o).
Proof. destruct o; cbn; [rewrite <- app_assoc|]; reflexivity. Qed.

Lemma resolve_loop_bindr : forall names i pos kws args,
  forget (resolve_finish (resolve_loop i names defs (pos_entries i pos ++ kw_entries kws) args)) =
  option_map (app args) (bindr names pos kws).
Proof.
  induction names as [|name rest IH]; intros i pos kws args; cbn [bindr].
  - destruct pos as [|v pos'], kws as [|[k w] kws']; try reflexivity. cbn. now rewrite app_nil_r.
  - destruct pos as [|v pos'].
    + change (pos_entries i [] ++ kw_entries kws) with (kw_entries kws).
      cbn [resolve_loop]. rewrite d_pop_kpos_kw, d_pop_kname_kw.
      destruct (pop name kws) as [[v kws']|]; [|destruct (lookup name defs) as [v|]; [|reflexivity]].
      * rewrite <- option_map_snoc. exact (IH (S i) [] kws' (args ++ [v])).
      * rewrite <- option_map_snoc. exact (IH (S i) [] kws (args ++ [v])).
    + cbn [pos_entries app resolve_loop d_pop key_eqb]. rewrite Nat.eqb_refl, d_mem_kname.
      destruct (has name kws); [reflexivity|]. rewrite <- option_map_snoc. apply IH.
Qed.

Lemma resolve_loop_py_bind : forall names i pos kws args,
  NoDup names -> NoDup (map fst kws) ->
  forget (resolve_finish (resolve_loop i names defs (pos_entries i pos ++ kw_entries kws) args)) =
  option_map (app args) (forget (py_bind names defs pos kws)).
Proof. intros names i pos kws args Hn Hk. rewrite (py_bind_bindr names pos kws Hn Hk). apply resolve_loop_bindr. Qed.

Theorem resolve_args_forget : forall names pos kws,
  NoDup names -> NoDup (map fst kws) ->
  forget (resolve_args names defs pos kws) = forget (py_bind names defs pos kws).
Proof.
  intros names pos kws Hn Hk. unfold resolve_args, resolve_args_dict, mk_arg_dict.
  rewrite (resolve_loop_py_bind names 0 pos kws [] Hn Hk).
  destruct (forget (py_bind names defs pos kws)); reflexivity.
Qed.

Theorem resolve_args_is_py_bind : forall names pos kws,
  NoDup names -> NoDup (map fst kws) ->
  forall l, resolve_args names defs pos kws = Ok l <-> py_bind names defs pos kws = Ok l.
Proof.
  intros names pos kws Hn Hk l. rewrite <- !forget_some, (resolve_args_forget names pos kws Hn Hk).
  reflexivity.
Qed.

Lemma key_ok_iff : forall k names np,
  NoDup names ->
  (match index_of k names with None => False | Some j => Nat.ltb j np = false end) <->
  In k (skipn np names).
Proof.
  intros k names; induction names as [|n r IH]; intros np Hn; [rewrite skipn_nil; reflexivity|].
  inversion Hn as [|x xs Hnr Hr]; subst. simpl index_of. destruct np as [|m]; simpl skipn.
  - specialize (IH 0 Hr). destruct (String.eqb_spec k n) as [->|Hne]; [intuition|].
    destruct (index_of k r); simpl in *; intuition congruence.
  - destruct (String.eqb_spec k n) as [->|Hne].
    + split; [discriminate|]. intros H. destruct (Hnr (In_skipn _ _ _ H)).
    + specialize (IH m Hr). destruct (index_of k r); exact IH.
Qed.

Lemma kw_check_none_iff : forall names np (kws : list (string * V)),
  NoDup names ->
  (kw_check names np kws = None <-> forall k, In k (map fst kws) -> In k (skipn np names)).
Proof.
  intros names np kws Hn. rewrite <- Forall_forall. induction kws as [|[k w] r IH]; simpl.
  - split; [constructor | reflexivity].
  - rewrite Forall_cons_iff, <- IH, <- (key_ok_iff k names np Hn).
    destruct (index_of k names) as [j|]; [destruct (Nat.ltb j np)|]; intuition discriminate.
Qed.

Lemma missing_nil_iff : forall names pos (kws : list (string * V)),
  missing (slots names pos kws defs) = [] <->
  forall n, In n (skipn (List.length pos) names) -> In n (map fst kws) \/ In n (map fst defs).
Proof.
  induction names as [|n r IH]; intros pos kws.
  - rewrite skipn_nil. split; [intros _ m [] | reflexivity].
  - destruct pos as [|v pos']; [|apply IH].
    specialize (IH [] kws). rewrite <- Forall_forall in *. simpl in *.
    rewrite Forall_cons_iff, <- IH, !lookup_in_iff.
    destruct (lookup n kws) as [v|]; [|destruct (lookup n defs) as [v|]]; simpl.
    1, 2: split; [intros H; split; eauto | intros [_ H]; exact H].
    split; [discriminate|]. intros [[[v H]|[v H]] _]; discriminate.
Qed.

Lemma py_bind_ok_parts : forall names pos kws,
  (exists l, py_bind names defs pos kws = Ok l) <->
  kw_check names (List.length pos) kws = None /\
  Nat.ltb (List.length names) (List.length pos) = false /\
  missing (slots names pos kws defs) = [].
Proof.
  intros names pos kws; unfold py_bind.
  destruct (kw_check names (List.length pos) kws) as [e|].
  - split; [intros [l H]; discriminate | intros [H _]; discriminate].
  - destruct (Nat.ltb (List.length names) (List.length pos)).
    + split; [intros [l H]; discriminate | intros [_ [H _]]; discriminate].
    + cbv zeta. destruct (missing (slots names pos kws defs)) as [|m ms].
      * split; [intros _; repeat split; reflexivity | intros _; eexists; reflexivity].
      * split; [intros [l H]; discriminate | intros [_ [_ H]]; discriminate].
Qed.

Theorem py_bind_ok_iff : forall names pos kws,
  NoDup names ->
  ((exists l, py_bind names defs pos kws = Ok l) <-> call_ok names defs pos kws).
Proof.
  intros names pos kws Hn. rewrite py_bind_ok_parts. unfold call_ok.
  rewrite (kw_check_none_iff names (List.length pos) kws Hn), Nat.ltb_ge, missing_nil_iff.
  split; intros [H1 [H2 H3]]; repeat split; assumption.
Qed.

Theorem resolve_args_ok_iff : forall names pos kws,
  NoDup names -> NoDup (map fst kws) ->
  ((exists l, resolve_args names defs pos kws = Ok l) <-> call_ok names defs pos kws).
Proof.
  intros names pos kws Hn Hk. rewrite <- (py_bind_ok_iff names pos kws Hn).
  split; intros [l H]; exists l; apply (resolve_args_is_py_bind names pos kws Hn Hk l); exact H.
Qed.

Lemma err_iff_not_ok {E A} (r : res E A) (P : Prop) :
  ((exists l, r = Ok l) <-> P) -> ((exists e, r = Err e) <-> ~ P).
Proof.
  intros H. destruct r as [l|e].
  - split; [intros [e He]; discriminate|intros Hn; exfalso; apply Hn, H; eauto].
  - split; [intros _ Hp; apply H in Hp as [l Hl]; discriminate|eauto].
Qed.

Theorem bind_fail_iff : forall names pos kws,
  NoDup names -> NoDup (map fst kws) ->
  ((exists e, resolve_args names defs pos kws = Err e) <-> ~ call_ok names defs pos kws) /\
  ((exists e, py_bind names defs pos kws = Err e) <-> ~ call_ok names defs pos kws).
Proof.
  intros names pos kws Hn Hk. split; apply err_iff_not_ok.
  - apply resolve_args_ok_iff; assumption.
  - apply py_bind_ok_iff; assumption.
Qed.

Lemma slots_full : forall names pos rest_vs (kws : list (string * V)),
  List.length pos + List.length rest_vs = List.length names ->
  (forall n v, In (n, v) (combine (skipn (List.length pos) names) rest_vs) -> lookup n kws = Some v) ->
  missing (slots names pos kws defs) = [] /\ values (slots names pos kws defs) = pos ++ rest_vs.
Proof.
  induction names as [|n r IH]; intros pos rest_vs kws Hlen H.
  - destruct pos; destruct rest_vs; simpl in Hlen; try discriminate. split; reflexivity.
  - destruct pos as [|v pos'].
    + destruct rest_vs as [|w ws]; simpl in Hlen; [discriminate|].
      simpl in H. simpl slots. rewrite (H n w (or_introl eq_refl)).
      destruct (IH [] ws kws) as [Hm Hv]; [simpl; lia | intros m x Hin; apply H; right; exact Hin |].
      simpl. rewrite Hm, Hv. split; reflexivity.
    + simpl in Hlen. simpl slots.
      destruct (IH pos' rest_vs kws) as [Hm Hv]; [lia | exact H |].
      simpl. rewrite Hm, Hv. split; reflexivity.
Qed.

Lemma legal_split_keys : forall (names : list string) (vs : list V) k kws,
  NoDup names -> List.length vs = List.length names ->
  Permutation kws (combine (skipn k names) (skipn k vs)) ->
  Permutation (map fst kws) (skipn k names) /\ NoDup (map fst kws).
Proof.
  intros names vs k kws Hn Hlen Hperm.
  assert (Hkeys : Permutation (map fst kws) (skipn k names)).
  { rewrite <- (map_fst_combine (skipn k names) (skipn k vs)) by (rewrite !skipn_length; lia).
    apply Permutation_map; exact Hperm. }
  split; [exact Hkeys|]. apply (Permutation_NoDup (Permutation_sym Hkeys)), NoDup_skipn, Hn.
Qed.

Theorem py_bind_legal_split : forall names vs k kws,
  NoDup names -> List.length vs = List.length names -> k <= List.length names ->
  Permutation kws (combine (skipn k names) (skipn k vs)) ->
  py_bind names defs (firstn k vs) kws = Ok vs.
Proof.
  intros names vs k kws Hn Hlen Hk Hperm.
  assert (Hfl : List.length (firstn k vs) = k) by (apply firstn_length_le; lia).
  destruct (legal_split_keys names vs k kws Hn Hlen Hperm) as [Hkeys Hnd].
  assert (Hkw : kw_check names (List.length (firstn k vs)) kws = None).
  { apply (kw_check_none_iff names _ kws Hn). rewrite Hfl. intros x Hx.
    exact (Permutation_in x Hkeys Hx). }
  assert (Hlt : Nat.ltb (List.length names) (List.length (firstn k vs)) = false)
    by (rewrite Hfl; apply Nat.ltb_ge; exact Hk).
  destruct (slots_full names (firstn k vs) (skipn k vs) kws) as [Hm Hv].
  - rewrite <- app_length, firstn_skipn. exact Hlen.
  - rewrite Hfl. intros n v Hin. apply (in_lookup n v kws Hnd).
    exact (Permutation_in (n, v) (Permutation_sym Hperm) Hin).
  - unfold py_bind. rewrite Hkw, Hlt. cbv zeta. rewrite Hm, Hv, firstn_skipn. reflexivity.
Qed.

Theorem resolve_args_legal_split : forall names vs k kws,
  NoDup names -> List.length vs = List.length names -> k <= List.length names ->
  Permutation kws (combine (skipn k names) (skipn k vs)) ->
  resolve_args names defs (firstn k vs) kws = Ok vs /\ py_bind names defs (firstn k vs) kws = Ok vs.
Proof.
  intros names vs k kws Hn Hlen Hk Hperm.
  pose proof (py_bind_legal_split names vs k kws Hn Hlen Hk Hperm) as Hp.
  split; [|exact Hp].
  apply (resolve_args_is_py_bind names (firstn k vs) kws Hn); [|exact Hp].
  apply (legal_split_keys names vs k kws Hn Hlen Hperm).
Qed.

Lemma slots_length : forall names pos (kws : list (string * V)),
  List.length (slots names pos kws defs) = List.length names.
Proof.
  induction names as [|n r IH]; intros pos kws; [reflexivity|].
  destruct pos; simpl; rewrite IH; reflexivity.
Qed.

Lemma values_length : forall (sl : list (string * option V)),
  missing sl = [] -> List.length (values sl) = List.length sl.
Proof.
  induction sl as [|[n [v|]] r IH]; simpl; intro H; [reflexivity | rewrite (IH H); reflexivity | discriminate].
Qed.

Lemma py_bind_length : forall names pos kws l,
  py_bind names defs pos kws = Ok l -> List.length l = List.length names.
Proof.
  intros names pos kws l H.
  assert (He : exists l0, py_bind names defs pos kws = Ok l0) by (exists l; exact H).
  apply py_bind_ok_parts in He. destruct He as [Hkw [Hlt Hm]].
  unfold py_bind in H. rewrite Hkw, Hlt in H. cbv zeta in H. rewrite Hm in H.
  inversion H; subst. rewrite (values_length _ Hm). apply slots_length.
Qed.

Lemma py_bind_all_positional : forall names l,
  List.length l = List.length names -> py_bind names defs l [] = Ok l.
Proof.
  intros names l Hlen.
  destruct (slots_full names l [] []) as [Hm Hv].
  - simpl; lia.
  - intros n v Hin. rewrite combine_nil in Hin. contradiction.
  - unfold py_bind. simpl kw_check. rewrite Hlen, Nat.ltb_irrefl. cbv zeta.
    rewrite Hm, Hv, app_nil_r. reflexivity.
Qed.

(* generated code calls  callee( *resolve_args(...) ),  the interpreter  callee( *pos, **kws ) *)
Theorem backends_bind_alike : forall names pos kws,
  NoDup names -> NoDup (map fst kws) ->
  match resolve_args names defs pos kws with
  | Ok l => py_bind names defs pos kws = Ok l /\ py_bind names defs l [] = Ok l
  | Err _ => exists e, py_bind names defs pos kws = Err e
  end.
Proof.
  intros names pos kws Hn Hk.
  pose proof (resolve_args_forget names pos kws Hn Hk) as H.
  destruct (resolve_args names defs pos kws) as [l|e]; simpl in H.
  - symmetry in H. apply forget_some in H. split; [exact H|].
    apply py_bind_all_positional. exact (py_bind_length _ _ _ _ H).
  - symmetry in H. apply forget_none in H. exact H.
Qed.

End Proofs.

Local Definition ex_names := ["a"; "b"; "a_cols"; "b_cols"].

Example ex_nodup_names : NoDup ex_names.
Proof. repeat constructor; simpl; intuition discriminate. Qed.

Example ex_resolve_mixed :
  resolve_args ex_names [("b_cols", 9)] [1; 2] [("a_cols", 3)] = Ok [1; 2; 3; 9] /\
  py_bind ex_names [("b_cols", 9)] [1; 2] [("a_cols", 3)] = Ok [1; 2; 3; 9].
Proof. split; vm_compute; reflexivity. Qed.

Example ex_call_ok : call_ok ex_names [("b_cols", 9)] [1; 2] [("a_cols", 3)].
Proof.
  unfold call_ok; simpl. repeat split.
  - lia.
  - intros k [H|[]]; left; exact H.
  - intros n [H|[H|[]]]; [left; left; exact H | right; left; exact H].
Qed.

Example ex_both_fail_too_many :
  resolve_args ["x"] [] [1; 2] [] = Err (RLeftover [KPos 1]) /\
  py_bind ["x"] [] [1; 2] [] = Err (PTooManyPositional 2).
Proof. split; vm_compute; reflexivity. Qed.

Example ex_both_fail_twice :
  resolve_args ["x"; "y"] [] [1] [("x", 2)] = Err (RBothPosKw "x") /\
  py_bind ["x"; "y"] [] [1] [("x", 2)] = Err (PMultipleValues "x").
Proof. split; vm_compute; reflexivity. Qed.

(* the error CLASSES are all TypeError, but the two algorithms do not name the same cause *)
Example ex_different_message :
  resolve_args ["x"; "y"] [] [] [("z", 2)] = Err (RNotSpecified "x") /\
  py_bind ["x"; "y"] [] [] [("z", 2)] = Err (PUnexpectedKeyword "z").
Proof. split; vm_compute; reflexivity. Qed.

Example ex_legal_split :
  Permutation [("b_cols", 4); ("a_cols", 3)] (combine (skipn 2 ex_names) (skipn 2 [1; 2; 3; 4])) /\
  resolve_args ex_names [] (firstn 2 [1; 2; 3; 4]) [("b_cols", 4); ("a_cols", 3)] = Ok [1; 2; 3; 4].
Proof. split; [apply perm_swap | vm_compute; reflexivity]. Qed.

(* without the hypothesis on arg_names the two differ (no Python function has such a signature) *)
Example ex_dup_names_needed :
  resolve_args ["x"; "x"] [("x", 0)] [] [("x", 5)] = Ok [5; 0] /\
  py_bind ["x"; "x"] [("x", 0)] [] [("x", 5)] = Ok [5; 5].
Proof. split; vm_compute; reflexivity. Qed.

From Dagrt Require Import GenBind.

Lemma str_list_eqb_eq : forall a b, str_list_eqb a b = true -> a = b.
Proof.
  induction a as [|x a IH]; intros [|y b] H; simpl in H; try discriminate; [reflexivity|].
  apply andb_true_iff in H; destruct H as [H1 H2]. apply String.eqb_eq in H1. subst y.
  f_equal; exact (IH _ H2).
Qed.

Lemma str_pairs_eqb_eq : forall a b, str_pairs_eqb a b = true -> a = b.
Proof.
  induction a as [|[x u] a IH]; intros [|[y w] b] H; simpl in H; try discriminate; [reflexivity|].
  apply andb_true_iff in H; destruct H as [H12 H3]. apply andb_true_iff in H12; destruct H12 as [H1 H2].
  apply String.eqb_eq in H1. apply String.eqb_eq in H2. subst y w.
  f_equal; exact (IH _ H3).
Qed.

Lemma str_mem_in : forall x l, str_mem x l = false -> ~ In x l.
Proof.
  induction l as [|y r IH]; simpl; intros H Hin; [exact Hin|].
  apply orb_false_iff in H; destruct H as [H1 H2].
  destruct Hin as [Hy|Hr]; [subst y; rewrite String.eqb_refl in H1; discriminate | exact (IH H2 Hr)].
Qed.

Lemma str_nodup_NoDup : forall l, str_nodup l = true -> NoDup l.
Proof.
  induction l as [|x r IH]; simpl; intro H; [constructor|].
  apply andb_true_iff in H; destruct H as [H1 H2]. apply negb_true_iff in H1.
  constructor; [exact (str_mem_in _ _ H1) | exact (IH H2)].
Qed.

Lemma builtin_table_ok : forallb row_ok builtin_table = true.
Proof. vm_compute. reflexivity. Qed.

Lemma builtin_table_covers :
  forallb (fun id => existsb (fun r => String.eqb id (b_id r)) builtin_table) documented_builtins = true.
Proof. vm_compute. reflexivity. Qed.

(* builtin_table (gen/GenBind.v): one row per built-in the translator finds in dagrt/function_registry.py *)
Theorem builtin_names_agree :
  (forall id, In id documented_builtins -> exists r, In r builtin_table /\ b_id r = id) /\
  forall r, In r builtin_table ->
    NoDup (b_arg_names r) /\
    b_arg_names r = b_impl_params r /\
    b_defaults r = b_impl_defaults r /\
    (forall impl, b_pattern r = PSelfBuiltin impl -> impl = b_interp_impl r).
Proof.
  split.
  - intros id Hid.
    pose proof (proj1 (forallb_forall _ _) builtin_table_covers id Hid) as H.
    apply existsb_exists in H. destruct H as [r [Hr He]]. apply String.eqb_eq in He.
    exists r; split; [exact Hr | symmetry; exact He].
  - intros r Hr.
    pose proof (proj1 (forallb_forall _ _) builtin_table_ok r Hr) as H.
    unfold row_ok in H.
    apply andb_true_iff in H; destruct H as [H H4].
    apply andb_true_iff in H; destruct H as [H H3].
    apply andb_true_iff in H; destruct H as [H1 H2].
    repeat split.
    + exact (str_nodup_NoDup _ H1).
    + exact (str_list_eqb_eq _ _ H2).
    + exact (str_pairs_eqb_eq _ _ H3).
    + intros impl Hp. rewrite Hp in H4. apply String.eqb_eq in H4. exact H4.
Qed.

(* ev: whatever the default texts evaluate to *)
Theorem builtins_bind_alike : forall (V : Type) (ev : string -> V) r,
  In r builtin_table ->
  forall pos kws, NoDup (map fst kws) ->
    forget (resolve_args (b_arg_names r) (eval_defaults ev (b_defaults r)) pos kws) =
    forget (py_bind (b_impl_params r) (eval_defaults ev (b_impl_defaults r)) pos kws).
Proof.
  intros V ev r Hr pos kws Hk.
  destruct (proj2 builtin_names_agree r Hr) as [Hn [Ha [Hd _]]].
  rewrite <- Ha, <- Hd. apply resolve_args_forget; assumption.
Qed.

Example ex_builtin_row : exists r, In r builtin_table /\ b_id r = "<builtin>dot_product".
Proof. apply (proj1 builtin_names_agree). vm_compute. tauto. Qed.
