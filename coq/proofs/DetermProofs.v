(* C15, model/Determ.v (the sites S1..S5 are numbered there).  String.leb is a total order, so
   sorted() returns the same list for every permutation of its input when keys are injective on it;
   from that, site by site: S1 (self-dependency temporaries), S2 (last-use table, equal as a finite
   map), S3 / S3' (release calls), S5 (default index variables), S4 and the composed pipelines (with
   C05's lower_perm).  Each defective shape is refuted by a witness. *)
From Coq Require Import List String Ascii Bool Arith NArith Lia Permutation Sorted.
Import ListNotations.
From Dagrt Require Import Simplify DagAst DagAstProofs Unify KindInfer Determ ListFacts.
Open Scope string_scope.
Open Scope list_scope.

Lemma existsb_perm {A} (f : A -> bool) l l' : Permutation l l' -> existsb f l = existsb f l'.
Proof.
  intros P. induction P; cbn.
  - reflexivity.
  - rewrite IHP. reflexivity.
  - destruct (f x), (f y); reflexivity.
  - congruence.
Qed.

Lemma Forall2_map_eq {A B C} (R : A -> B -> Prop) (f : A -> C) (g : B -> C) l l' :
  Forall2 R l l' -> (forall a b, R a b -> f a = g b) -> map f l = map g l'.
Proof.
  intros F H. induction F as [|a b l l' Hab F IH]; cbn; [reflexivity|].
  rewrite (H a b Hab), IH. reflexivity.
Qed.

Lemma Forall2_and_l {A B} (R : A -> B -> Prop) (P : A -> Prop) l l' :
  Forall2 R l l' -> Forall P l -> Forall2 (fun a b => R a b /\ P a) l l'.
Proof. induction 1; intros HP; inversion HP; subst; constructor; auto. Qed.

Lemma acmp_eq a b : Ascii.compare a b = Eq <-> a = b.
Proof.
  unfold Ascii.compare. rewrite N.compare_eq_iff. split; [|intros ->; reflexivity].
  intros H. rewrite <- (ascii_N_embedding a), <- (ascii_N_embedding b), H. reflexivity.
Qed.

Lemma acmp_lt a b : Ascii.compare a b = Lt <-> (N_of_ascii a < N_of_ascii b)%N.
Proof. unfold Ascii.compare. apply N.compare_lt_iff. Qed.

Lemma acmp_gt a b : Ascii.compare a b = Gt <-> (N_of_ascii b < N_of_ascii a)%N.
Proof. unfold Ascii.compare. apply N.compare_gt_iff. Qed.

Lemma acmp_refl a : Ascii.compare a a = Eq.
Proof. apply acmp_eq. reflexivity. Qed.

Lemma scompare_trans : forall a b c,
  String.compare a b <> Gt -> String.compare b c <> Gt -> String.compare a c <> Gt.
Proof.
  induction a as [|x a IH]; intros [|y b] [|z c]; cbn; try congruence.
  destruct (Ascii.compare x y) eqn:Exy; destruct (Ascii.compare y z) eqn:Eyz; try congruence.
  - apply acmp_eq in Exy. apply acmp_eq in Eyz. subst. rewrite acmp_refl. apply IH.
  - apply acmp_eq in Exy. subst. rewrite Eyz. congruence.
  - apply acmp_eq in Eyz. subst. rewrite Exy. congruence.
  - apply acmp_lt in Exy. apply acmp_lt in Eyz.
    assert (H : Ascii.compare x z = Lt) by (apply acmp_lt; eapply N.lt_trans; eassumption).
    rewrite H. congruence.
Qed.

Lemma leb_trans a b c : String.leb a b = true -> String.leb b c = true -> String.leb a c = true.
Proof.
  unfold String.leb. intros H1 H2.
  pose proof (scompare_trans a b c) as T.
  destruct (String.compare a b); destruct (String.compare b c); destruct (String.compare a c);
    try reflexivity; try discriminate; exfalso; apply T; congruence.
Qed.

Lemma leb_refl a : String.leb a a = true.
Proof. destruct (String.leb_total a a); assumption. Qed.

Section SortBy.
  Context {A : Type}.
  Variable key : A -> string.

  Definition key_le (a b : A) : Prop := String.leb (key a) (key b) = true.

  Lemma insert_by_perm x l : Permutation (insert_by key x l) (x :: l).
  Proof.
    induction l as [|y l IH]; cbn; [reflexivity|].
    destruct (String.leb (key x) (key y)); [reflexivity|].
    rewrite IH. apply perm_swap.
  Qed.

  Lemma sort_by_perm l : Permutation (sort_by key l) l.
  Proof.
    induction l as [|x l IH]; cbn; [reflexivity|].
    fold (sort_by key l). rewrite insert_by_perm, IH. reflexivity.
  Qed.

  Lemma insert_by_sorted x l : StronglySorted key_le l -> StronglySorted key_le (insert_by key x l).
  Proof.
    induction l as [|y l IH]; intros S; cbn.
    - constructor; constructor.
    - destruct (String.leb (key x) (key y)) eqn:E.
      + constructor; [assumption|]. constructor; [exact E|].
        apply StronglySorted_inv in S. destruct S as [_ F].
        rewrite Forall_forall in *. intros z Hz. unfold key_le. eapply leb_trans; [exact E|apply F, Hz].
      + apply StronglySorted_inv in S. destruct S as [S F].
        constructor; [apply IH, S|].
        rewrite Forall_forall in *. intros z Hz.
        apply (Permutation_in _ (insert_by_perm x l)) in Hz. destruct Hz as [<-|Hz].
        * unfold key_le. destruct (String.leb_total (key x) (key y)); congruence.
        * apply F, Hz.
  Qed.

  Lemma sort_by_sorted l : StronglySorted key_le (sort_by key l).
  Proof.
    induction l as [|x l IH]; cbn; [constructor|]. apply insert_by_sorted. exact IH.
  Qed.

  Lemma sorted_unique : forall l1 l2,
    StronglySorted key_le l1 -> StronglySorted key_le l2 -> Permutation l1 l2 ->
    (forall x y, In x l1 -> In y l1 -> key x = key y -> x = y) -> l1 = l2.
  Proof.
    induction l1 as [|x l1 IH]; intros l2 S1 S2 P Inj.
    - apply Permutation_nil in P. subst. reflexivity.
    - destruct l2 as [|y l2]; [apply Permutation_sym, Permutation_nil in P; discriminate|].
      apply StronglySorted_inv in S1. destruct S1 as [S1 F1].
      apply StronglySorted_inv in S2. destruct S2 as [S2 F2].
      rewrite Forall_forall in F1, F2.
      assert (Exy : x = y).
      { assert (Hy : In y (x :: l1)) by (eapply Permutation_in; [apply Permutation_sym, P|left; reflexivity]).
        assert (Hx : In x (y :: l2)) by (eapply Permutation_in; [apply P|left; reflexivity]).
        destruct Hy as [Hy|Hy]; [assumption|]. destruct Hx as [Hx|Hx]; [congruence|].
        apply Inj; [left; reflexivity|right; assumption|].
        apply String.leb_antisym; [apply F1, Hy|apply F2, Hx]. }
      subst y. f_equal. apply IH; try assumption.
      + eapply Permutation_cons_inv. exact P.
      + intros a b Ha Hb. apply Inj; right; assumption.
  Qed.

  Theorem sort_by_perm_eq l l' :
    Permutation l l' -> (forall x y, In x l -> In y l -> key x = key y -> x = y) ->
    sort_by key l = sort_by key l'.
  Proof.
    intros P Inj. apply sorted_unique; try apply sort_by_sorted.
    - rewrite !sort_by_perm. exact P.
    - intros x y Hx Hy. apply Inj; eapply Permutation_in; try apply sort_by_perm; assumption.
  Qed.

  Section Rel.
    Context {B : Type}.
    Variable keyB : B -> string.
    Variable R : A -> B -> Prop.
    Hypothesis Rkey : forall a b, R a b -> key a = keyB b.

    Lemma insert_by_Forall2 a b l l' :
      R a b -> Forall2 R l l' -> Forall2 R (insert_by key a l) (insert_by keyB b l').
    Proof.
      intros Hab F. induction F as [|x y l l' Hxy F IH]; cbn.
      - constructor; [assumption|constructor].
      - rewrite <- (Rkey a b Hab), <- (Rkey x y Hxy).
        destruct (String.leb (key a) (key x)).
        + constructor; [assumption|]. constructor; assumption.
        + constructor; assumption.
    Qed.

    Lemma sort_by_Forall2 l l' : Forall2 R l l' -> Forall2 R (sort_by key l) (sort_by keyB l').
    Proof.
      intros F. induction F as [|x y l l' Hxy F IH]; cbn; [constructor|].
      apply insert_by_Forall2; assumption.
    Qed.
  End Rel.
End SortBy.

Theorem ssort_perm_eq l l' : Permutation l l' -> ssort l = ssort l'.
Proof. intros P. apply sort_by_perm_eq; [exact P|]. intros x y _ _ E. exact E. Qed.

Lemma ssort_perm l : Permutation (ssort l) l.
Proof. apply sort_by_perm. Qed.

Example ssort_example : ssort ["b"; "<state>y"; "a"; "temp_a"] = ["<state>y"; "a"; "b"; "temp_a"].
Proof. reflexivity. Qed.

Section SelfDepProofs.
  Variable G : Type.
  Variable gen : G -> string -> string * G.

  (* sorted shape: the result is a function of the SET read_and_written *)
  Theorem selfdep_stmt_sorted_perm it it' st gv gi :
    Permutation it it' ->
    selfdep_stmt G gen true it st gv gi = selfdep_stmt G gen true it' st gv gi.
  Proof.
    intros P. unfold selfdep_stmt.
    destruct it as [|a it]; destruct it' as [|b it'].
    - reflexivity.
    - apply Permutation_nil in P. discriminate.
    - apply Permutation_sym, Permutation_nil in P. discriminate.
    - rewrite (ssort_perm_eq _ _ P). reflexivity.
  Qed.

  Theorem selfdep_leaves_sorted ord ord' :
    (forall i l, Permutation (ord i l) (ord' i l)) ->
    forall ls gv gi,
      selfdep_leaves G gen true ord ls gv gi = selfdep_leaves G gen true ord' ls gv gi.
  Proof.
    intros H. induction ls as [|st ls IH]; intros gv gi; cbn [selfdep_leaves]; [reflexivity|].
    rewrite (selfdep_stmt_sorted_perm _ _ st gv gi (H (s_id st) (sinter (s_reads st) (s_writes st)))).
    destruct (selfdep_stmt G gen true (ord' (s_id st) (sinter (s_reads st) (s_writes st))) st gv gi)
      as [[o gv1] gi1].
    rewrite IH. reflexivity.
  Qed.

  Variable ginit : list string -> G.
  Theorem selfdep_pass_sorted ord ord' ls :
    (forall i l, Permutation (ord i l) (ord' i l)) ->
    selfdep_pass G gen ginit true ord ls = selfdep_pass G gen ginit true ord' ls.
  Proof. intros H. unfold selfdep_pass. rewrite (selfdep_leaves_sorted ord ord' H). reflexivity. Qed.
End SelfDepProofs.

(* `(a, b) <- <func>g(a, b)`: both assignees are read and written *)
Definition wit_pair : sstmt := mkS "s" ["a"; "b"] ["a"; "b"] ["d"].
Definition wit_gv : pgen := pg_init ["a"; "b"].
Definition wit_gi : pgen := pg_init ["s"; "d"].

Example selfdep_sorted_example :
  fst (fst (selfdep_stmt pgen pg_gen true ["b"; "a"] wit_pair wit_gv wit_gi)) =
  [mkS "temp" ["a"] ["temp_a"] ["d"]; mkS "temp_0" ["b"] ["temp_b"] ["d"];
   mkS "s" ["temp_a"; "temp_b"] ["a"; "b"] ["d"; "temp"; "temp_0"]].
Proof. vm_compute. reflexivity. Qed.

(* unsorted shape: two iteration orders of the same frozenset, two different statement lists
   (the temporaries swap places and the ids `temp`, `temp_0` swap owners) *)
Theorem selfdep_unsorted_refuted :
  exists it it' st gv gi,
    Permutation it it' /\
    fst (fst (selfdep_stmt pgen pg_gen false it st gv gi)) <>
    fst (fst (selfdep_stmt pgen pg_gen false it' st gv gi)).
Proof.
  exists ["a"; "b"], ["b"; "a"], wit_pair, wit_gv, wit_gi. split; [apply perm_swap|].
  vm_compute. discriminate.
Qed.

Lemma lkey_eqb_eq a b : lkey_eqb a b = true <-> a = b.
Proof.
  destruct a as [a1 a2], b as [b1 b2]. unfold lkey_eqb. cbn.
  rewrite andb_true_iff, !String.eqb_eq. split; [intros [-> ->]; reflexivity|].
  intros E. injection E as -> ->. split; reflexivity.
Qed.

Lemma lkey_eqb_refl a : lkey_eqb a a = true.
Proof. apply lkey_eqb_eq. reflexivity. Qed.

Lemma lget_lset k v d k' :
  lget (lset k v d) k' = if lkey_eqb k' k then Some v else lget d k'.
Proof.
  induction d as [|[k0 v0] d IH]; cbn.
  - reflexivity.
  - destruct (lkey_eqb k k0) eqn:E; cbn.
    + apply lkey_eqb_eq in E. subst k0. destruct (lkey_eqb k' k); reflexivity.
    + rewrite IH. destruct (lkey_eqb k' k0) eqn:E0; [|reflexivity].
      apply lkey_eqb_eq in E0. subst k0.
      destruct (lkey_eqb k' k) eqn:E1; [|reflexivity].
      apply lkey_eqb_eq in E1. subst k'. rewrite lkey_eqb_refl in E. discriminate.
Qed.

(* two dicts with the same items (their insertion orders may differ) *)
Definition lequiv (d d' : ltable) : Prop := forall k, lget d k = lget d' k.

Lemma lget_last_use_stmt p it sid : forall d k,
  lget (last_use_stmt p it sid d) k =
  if existsb (fun v => lkey_eqb k (v, p)) it then Some sid else lget d k.
Proof.
  unfold last_use_stmt. induction it as [|v it IH]; intros d k; cbn; [reflexivity|].
  rewrite IH, lget_lset.
  destruct (lkey_eqb k (v, p)); cbn; [|reflexivity].
  destruct (existsb (fun v0 => lkey_eqb k (v0, p)) it); reflexivity.
Qed.

Theorem last_use_stmt_perm p it it' sid d d' :
  Permutation it it' -> lequiv d d' ->
  lequiv (last_use_stmt p it sid d) (last_use_stmt p it' sid d').
Proof.
  intros P E k. rewrite !lget_last_use_stmt, (existsb_perm _ _ _ P), (E k). reflexivity.
Qed.

Theorem last_use_phase_perm ord ord' p :
  (forall i l, Permutation (ord i l) (ord' i l)) ->
  forall ls d d', lequiv d d' -> lequiv (last_use_phase ord p ls d) (last_use_phase ord' p ls d').
Proof.
  intros H. induction ls as [|st ls IH]; intros d d' E; cbn [last_use_phase]; [exact E|].
  apply IH. apply last_use_stmt_perm; [apply H|exact E].
Qed.

Theorem last_use_all_perm ord ord' :
  (forall p i l, Permutation (ord p i l) (ord' p i l)) ->
  forall fs d d', lequiv d d' -> lequiv (last_use_all ord fs d) (last_use_all ord' fs d').
Proof.
  intros H. induction fs as [|[p ls] fs IH]; intros d d' E; cbn [last_use_all]; [exact E|].
  apply IH. apply last_use_phase_perm; [apply H|exact E].
Qed.

Lemma reorders_agree ord ord' : reorders ord -> reorders ord' ->
  forall p i l, Permutation (ord p i l) (ord' p i l).
Proof. intros H H' p i l. rewrite (H p i l), (H' p i l). reflexivity. Qed.

Theorem last_use_table_order_independent ord ord' fs :
  reorders ord -> reorders ord' ->
  forall k, lget (last_use_all ord fs []) k = lget (last_use_all ord' fs []) k.
Proof.
  intros R R'. apply last_use_all_perm; [now apply reorders_agree | intro k; reflexivity].
Qed.

(* non-vacuity, and what is NOT invariant: the dict's insertion order (never observed: the
   generator consults the table by key only; harness/tr/c15.py checks that syntactically) *)
Example last_use_example :
  let st := mkS "s" ["a"] ["b"] [] in
  last_use_phase (fun _ l => l) "main" [st] [] = [(("a", "main"), "s"); (("b", "main"), "s")] /\
  last_use_phase (fun _ l => rev l) "main" [st] [] = [(("b", "main"), "s"); (("a", "main"), "s")] /\
  lequiv (last_use_phase (fun _ l => l) "main" [st] []) (last_use_phase (fun _ l => rev l) "main" [st] []).
Proof.
  cbv zeta. split; [reflexivity|]. split; [reflexivity|].
  apply last_use_phase_perm; [|intro k; reflexivity].
  intros i l. apply Permutation_rev.
Qed.

Lemma key_eqb_eq (a b : key) : key_eqb a b = true <-> a = b.
Proof.
  destruct a as [[p|] x], b as [[q|] y]; unfold key_eqb; cbn;
    rewrite ?andb_true_iff, ?String.eqb_eq.
  - split; [intros [-> ->]; reflexivity|]. intros E. injection E as -> ->. split; reflexivity.
  - split; discriminate.
  - split; discriminate.
  - split; [intros ->; reflexivity|]. intros E. injection E as ->. reflexivity.
Qed.

(* NoDup (map fst T): the kind table is a dict, no two entries have one key *)
Lemma tfind_In : forall (T : table) k v,
  NoDup (map fst T) -> (In (k, v) T <-> tfind T k = Some v).
Proof.
  induction T as [|[k0 v0] T IH]; intros k v ND; cbn.
  - split; [tauto|discriminate].
  - cbn in ND. apply NoDup_cons_iff in ND. destruct ND as [Nin ND].
    destruct (key_eqb k k0) eqn:E.
    + apply key_eqb_eq in E. subst k0. split.
      * intros [H|H]; [congruence|]. exfalso. apply Nin. apply in_map_iff. exists (k, v). auto.
      * intros H. left. congruence.
    + split.
      * intros [H|H]; [|apply IH; assumption].
        injection H as -> ->. assert (key_eqb k k = true) by (apply key_eqb_eq; reflexivity). congruence.
      * intros H. right. apply IH; assumption.
Qed.

Lemma table_equiv_perm (T T' : table) :
  NoDup (map fst T) -> NoDup (map fst T') -> table_equiv T T' -> Permutation T T'.
Proof.
  intros ND ND' E. apply NoDup_Permutation.
  - eapply NoDup_map_inv. exact ND.
  - eapply NoDup_map_inv. exact ND'.
  - intros [k v]. rewrite (tfind_In T k v ND), (tfind_In T' k v ND'), (E k). tauto.
Qed.

Section DeinitProofs.
  Variable is_state : string -> bool.

  Lemma deinit_loop_ext T T' p tbl tbl' sid :
    table_equiv T T' -> lequiv tbl tbl' ->
    forall it, deinit_loop is_state T p tbl sid it = deinit_loop is_state T' p tbl' sid it.
  Proof.
    intros ET EL. induction it as [|v it IH]; cbn [deinit_loop]; [reflexivity|].
    rewrite (ET (kkey is_state p v)), (EL (v, p)), IH. reflexivity.
  Qed.

  Theorem deinit_calls_sorted_perm T T' p tbl tbl' sid it it' :
    table_equiv T T' -> lequiv tbl tbl' -> Permutation it it' ->
    deinit_calls is_state true T p tbl sid it = deinit_calls is_state true T' p tbl' sid it'.
  Proof.
    intros ET EL P. unfold deinit_calls. rewrite (ssort_perm_eq _ _ P).
    apply deinit_loop_ext; assumption.
  Qed.

  Lemma phase_syms_In (T : table) p x k :
    In (x, k) (phase_syms T p) <-> In ((Some p, x), k) T.
  Proof.
    unfold phase_syms. rewrite in_flat_map. split.
    - intros [[[[q|] y] k0] [Hin H]]; cbn in H; [|contradiction].
      destruct (String.eqb p q) eqn:E; [|contradiction].
      apply String.eqb_eq in E. subst q. destruct H as [H|[]]. injection H as -> ->. exact Hin.
    - intros Hin. exists ((Some p, x), k). split; [exact Hin|]. cbn.
      rewrite String.eqb_refl. left. reflexivity.
  Qed.

  Lemma final_deinit_ext ea T T' p tbl tbl' :
    NoDup (map fst T) -> NoDup (map fst T') -> table_equiv T T' -> lequiv tbl tbl' ->
    final_deinit ea T p tbl = final_deinit ea T' p tbl'.
  Proof.
    intros ND ND' ET EL. unfold final_deinit.
    assert (ES : sort_by fst (phase_syms T p) = sort_by fst (phase_syms T' p)).
    { apply sort_by_perm_eq.
      - unfold phase_syms. apply Permutation_flat_map. apply table_equiv_perm; assumption.
      - intros [x k1] [y k2] H1 H2 E. cbn in E. subst y.
        apply phase_syms_In in H1. apply phase_syms_In in H2.
        apply (tfind_In T _ _ ND) in H1. apply (tfind_In T _ _ ND) in H2. congruence. }
    rewrite ES. destruct ea; [reflexivity|].
    apply filter_ext. intros [x k]. cbn. rewrite (EL (x, p)). reflexivity.
  Qed.
End DeinitProofs.

(* three user-type temporaries whose last use is the statement "s" *)
Definition wit_T : table :=
  [((Some "main", "a"), Some (KUser "y")); ((Some "main", "b"), Some (KUser "y"));
   ((Some "main", "n"), Some (KScalar true))].
Definition wit_tbl : ltable :=
  [(("a", "main"), "s"); (("b", "main"), "s"); (("n", "main"), "s")].
Definition no_state (_ : string) : bool := false.

Example deinit_sorted_example :
  deinit_calls no_state true wit_T "main" wit_tbl "s" ["n"; "b"; "a"] =
  DOk [("a", Some (KUser "y")); ("b", Some (KUser "y")); ("n", Some (KScalar true))].
Proof. vm_compute. reflexivity. Qed.

Theorem deinit_unsorted_refuted :
  exists it it' T p tbl sid,
    Permutation it it' /\
    deinit_calls no_state false T p tbl sid it <> deinit_calls no_state false T p tbl sid it'.
Proof.
  exists ["a"; "b"], ["b"; "a"], wit_T, "main", wit_tbl, "s". split; [apply perm_swap|].
  vm_compute. discriminate.
Qed.

Example final_deinit_example :
  final_deinit false wit_T "main" [(("a", "main"), "s")] = [("b", Some (KUser "y")); ("n", Some (KScalar true))] /\
  final_deinit false (rev wit_T) "main" [(("a", "main"), "s")] = [("b", Some (KUser "y")); ("n", Some (KScalar true))].
Proof. split; vm_compute; reflexivity. Qed.

(* repaired shape: the default index variables of an ArrayType depend on the type only *)
Theorem index_vars_history_independent h h' n e :
  fst (index_vars false h n e) = fst (index_vars false h' n e).
Proof. reflexivity. Qed.

Example index_vars_example :
  index_vars false 7 2 (FStruct [FArray 1 FBuiltin; FPointer (FArray 2 (FArray 1 FBuiltin))]) =
  (["i4"; "i5"], 7).
Proof. vm_compute. reflexivity. Qed.

(* class-level counter: an ArrayType built earlier in the process changes the names *)
Theorem index_vars_counter_refuted :
  exists h h' n e, fst (index_vars true h n e) <> fst (index_vars true h' n e).
Proof. exists 0, 1, 1, FBuiltin. vm_compute. discriminate. Qed.

Lemma dep_equiv_sid a b : dep_equiv a b -> sid a = sid b.
Proof. now intros [H _]. Qed.
Lemma dep_equiv_deps a b : dep_equiv a b -> Permutation (sdeps a) (sdeps b).
Proof. now intros (_ & _ & _ & _ & H). Qed.

Lemma lookup_dep_equiv s1 s2 : Forall2 dep_equiv s1 s2 -> forall i,
  match DagAst.lookup s1 i, DagAst.lookup s2 i with
  | Some a, Some b => dep_equiv a b
  | None, None => True
  | _, _ => False
  end.
Proof.
  intros F i. induction F as [|a b s1 s2 Hab F IH]; cbn [DagAst.lookup]; [exact I|].
  destruct (DagAst.lookup s1 i) as [a'|], (DagAst.lookup s2 i) as [b'|]; try contradiction; [exact IH|].
  rewrite <- (dep_equiv_sid a b Hab).
  destruct (Nat.eqb (sid a) i); [exact Hab|exact I].
Qed.

Lemma mem_perm x l l' : Permutation l l' -> mem x l = mem x l'.
Proof. apply existsb_perm. Qed.

Lemma dep_equiv_sorted_deps a b : dep_equiv a b -> sorted_set (sdeps a) = sorted_set (sdeps b).
Proof.
  intros H. pose proof (dep_equiv_deps a b H) as P. apply sorted_set_ext. intros x.
  split; apply Permutation_in; [exact P|apply Permutation_sym, P].
Qed.

Lemma topo_dep_equiv s1 s2 : Forall2 dep_equiv s1 s2 ->
  forall fuel stack visiting visited order,
  topo s1 fuel stack visiting visited order = topo s2 fuel stack visiting visited order.
Proof.
  intros F. induction fuel as [|f IH]; intros stack visiting visited order; cbn [topo]; [reflexivity|].
  destruct stack as [|s rest]; [reflexivity|].
  destruct (mem s visited); [destruct (mem s visiting); apply IH|].
  pose proof (lookup_dep_equiv s1 s2 F s) as L.
  destruct (DagAst.lookup s1 s) as [a|], (DagAst.lookup s2 s) as [b|]; try contradiction; [|reflexivity].
  rewrite (dep_equiv_sorted_deps a b L). apply IH.
Qed.

Lemma all_deps_dep_equiv s1 s2 : Forall2 dep_equiv s1 s2 -> Permutation (all_deps s1) (all_deps s2).
Proof.
  intros F. unfold all_deps. induction F as [|a b s1 s2 Hab F IH]; cbn [flat_map]; [reflexivity|].
  apply Permutation_app; [exact (dep_equiv_deps a b Hab)|exact IH].
Qed.

Lemma map_sid_dep_equiv s1 s2 : Forall2 dep_equiv s1 s2 -> map sid s1 = map sid s2.
Proof.
  intros F. induction F as [|a b s1 s2 Hab F IH]; cbn [map]; [reflexivity|].
  rewrite (dep_equiv_sid a b Hab), IH. reflexivity.
Qed.

Lemma roots_dep_equiv s1 s2 : Forall2 dep_equiv s1 s2 -> roots s1 = roots s2.
Proof.
  intros F. unfold roots. rewrite (map_sid_dep_equiv s1 s2 F). f_equal.
  apply filter_ext. intros i. rewrite (mem_perm i _ _ (all_deps_dep_equiv s1 s2 F)). reflexivity.
Qed.

Lemma topo_fuel_dep_equiv s1 s2 : Forall2 dep_equiv s1 s2 -> topo_fuel s1 = topo_fuel s2.
Proof.
  intros F. unfold topo_fuel. rewrite (roots_dep_equiv s1 s2 F). do 2 f_equal.
  induction F as [|a b s1 s2 Hab F IH]; cbn [fold_right]; [reflexivity|].
  rewrite (Permutation_length (dep_equiv_deps a b Hab)), IH. reflexivity.
Qed.

Lemma main_block_dep_equiv skip s1 s2 : Forall2 dep_equiv s1 s2 ->
  forall order, main_block skip s1 order = main_block skip s2 order.
Proof.
  intros F. induction order as [|i r IH]; cbn [main_block]; [reflexivity|].
  pose proof (lookup_dep_equiv s1 s2 F i) as L.
  destruct (DagAst.lookup s1 i) as [a|], (DagAst.lookup s2 i) as [b|]; try contradiction; [|reflexivity].
  rewrite IH. destruct L as [Es [Eg [El [En _]]]].
  unfold wrap, wrap_g, guard_node. rewrite Es, Eg, El, En. reflexivity.
Qed.

Theorem lower_dep_equiv r g skip s1 s2 : Forall2 dep_equiv s1 s2 ->
  lower r g skip s1 = lower r g skip s2.
Proof.
  intros F. unfold lower, topo_order.
  rewrite (roots_dep_equiv s1 s2 F), (topo_fuel_dep_equiv s1 s2 F), (topo_dep_equiv s1 s2 F).
  destruct (topo s2 _ _ _ _ _) as [order| | |]; cbn [lbind]; try reflexivity.
  rewrite (main_block_dep_equiv skip s1 s2 F). reflexivity.
Qed.

Lemma lower_same_phase r g skip a b :
  same_phase a b -> NoDup (map sid (ph_stmts a)) ->
  lower r g skip (ph_stmts a) = lower r g skip (ph_stmts b).
Proof.
  intros [_ [_ [s [P F]]]] ND.
  (* first the statement container (lower_perm, which needs distinct ids), then the dependency sets *)
  destruct (lower_perm r g skip _ _ P ND) as [_ E]. rewrite E.
  apply lower_dep_equiv. exact F.
Qed.

Lemma sorted_phases_correspond D D' :
  wf_description D -> same_description D D' ->
  Forall2 (fun a b => same_phase a b /\ NoDup (map sid (ph_stmts a)))
          (sort_by ph_name D) (sort_by ph_name D').
Proof.
  intros [NDn WF] [D'' [P F]].
  rewrite (sort_by_perm_eq ph_name D D'' P) by (intros x y; now apply NoDup_map_inj).
  apply (sort_by_Forall2 ph_name ph_name); [now intros a b [[Hn _] _]|].
  apply Forall2_and_l; [exact F|exact (Permutation_Forall P WF)].
Qed.

Section PipelineProofs.
  Variables rev_expand guard_empty skip_false : bool.
  Variable G : Type.
  Variable gen : G -> string -> string * G.
  Variable ginit : list string -> G.
  Variable mid : list sstmt -> list sstmt.
  Variable info : string -> nat -> sstmt.
  Variable is_state : string -> bool.

  Lemma f_front_same ord1 ord1' a b :
    (forall i l, Permutation (ord1 i l) (ord1' i l)) ->
    same_phase a b -> NoDup (map sid (ph_stmts a)) ->
    f_front rev_expand guard_empty skip_false true G gen ginit mid info ord1 a =
    f_front rev_expand guard_empty skip_false true G gen ginit mid info ord1' b.
  Proof.
    intros H SP ND. unfold f_front.
    rewrite <- (lower_same_phase rev_expand guard_empty skip_false a b SP ND).
    destruct SP as [En _]. rewrite <- En.
    destruct (lower rev_expand guard_empty skip_false (ph_stmts a)) as [t|k| |]; try reflexivity.
    destruct (leaves t) as [ids|]; [|reflexivity].
    rewrite (selfdep_pass_sorted G gen ginit ord1 ord1' _ H). reflexivity.
  Qed.

  (* Fortran path, every site in its sorted shape: everything computed before text is written is
     the same for two stored forms of one description, for all iteration orders of all sets
     involved, and for kind tables that agree as maps *)
  Theorem pipeline_f_deterministic ea D D' ord1 ord1' ord2 ord2' ord3 ord3' T T' :
    wf_description D -> same_description D D' ->
    reorders ord1 -> reorders ord1' -> reorders ord2 -> reorders ord2' ->
    reorders ord3 -> reorders ord3' ->
    NoDup (map fst T) -> NoDup (map fst T') -> table_equiv T T' ->
    pipeline_f rev_expand guard_empty skip_false true true ea G gen ginit mid info is_state
               ord1 ord2 ord3 T D =
    pipeline_f rev_expand guard_empty skip_false true true ea G gen ginit mid info is_state
               ord1' ord2' ord3' T' D'.
  Proof.
    intros WF SD R1 R1' R2 R2' R3 R3' ND ND' ET.
    pose proof (sorted_phases_correspond D D' WF SD) as F.
    unfold pipeline_f.
    set (fr := map (fun ph => (ph_name ph,
                  f_front rev_expand guard_empty skip_false true G gen ginit mid info
                          (ord1 (ph_name ph)) ph)) (sort_by ph_name D)).
    set (fr' := map (fun ph => (ph_name ph,
                  f_front rev_expand guard_empty skip_false true G gen ginit mid info
                          (ord1' (ph_name ph)) ph)) (sort_by ph_name D')).
    assert (Efr : fr = fr').
    { subst fr fr'. eapply Forall2_map_eq; [exact F|].
      intros a b [Hab NDa]. cbn beta.
      pose proof Hab as [En _]. rewrite <- En. f_equal.
      apply f_front_same; try assumption.
      intros i l. apply reorders_agree; assumption. }
    rewrite <- Efr.
    set (tbl := last_use_all ord2 (map (fun x => (fst x, front_leaves (snd x))) fr) []).
    set (tbl' := last_use_all ord2' (map (fun x => (fst x, front_leaves (snd x))) fr) []).
    assert (EL : lequiv tbl tbl').
    { subst tbl tbl'. apply last_use_all_perm; [apply reorders_agree; assumption|].
      intro k. reflexivity. }
    apply map_ext. intros [p r]. cbn [fst snd]. f_equal. unfold f_back. f_equal.
    - apply map_ext. intros st. f_equal.
      apply deinit_calls_sorted_perm; try assumption. apply reorders_agree; assumption.
    - apply final_deinit_ext; assumption.
  Qed.

  (* Python path, both iterations over dag.phases sorted *)
  Theorem pipeline_py_deterministic D D' :
    wf_description D -> same_description D D' ->
    pipeline_py rev_expand guard_empty skip_false true true D =
    pipeline_py rev_expand guard_empty skip_false true true D'.
  Proof.
    intros WF SD. pose proof (sorted_phases_correspond D D' WF SD) as F.
    unfold pipeline_py, py_order. f_equal.
    - eapply Forall2_map_eq; [exact F|]. intros a b [SP NDa]. cbn beta.
      rewrite (lower_same_phase rev_expand guard_empty skip_false a b SP NDa).
      destruct SP as [-> _]. reflexivity.
    - eapply Forall2_map_eq; [exact F|]. intros a b [[En [Ex _]] _]. cbn beta. congruence.
  Qed.
End PipelineProofs.

Theorem full_statement_of_flags sd de pp pt gc :
  sd = true -> de = true -> pp = true -> pt = true -> gc = false ->
  full_statement sd de pp pt gc.
Proof.
  intros -> -> -> -> ->. split; [|split].
  - intros. apply pipeline_f_deterministic; assumption.
  - intros. apply pipeline_py_deterministic; assumption.
  - intros. apply index_vars_history_independent.
Qed.

(* per-site statements with the shape switch as a premise (props/C15.v discharges it by eq_refl
   against GenC15.v) *)

Theorem selfdep_site_of_flag sd : sd = true ->
  forall (G : Type) (gen : G -> string -> string * G) it it' st gv gi,
    Permutation it it' ->
    selfdep_stmt G gen sd it st gv gi = selfdep_stmt G gen sd it' st gv gi.
Proof. intros -> G gen it it' st gv gi P. apply selfdep_stmt_sorted_perm. exact P. Qed.

Theorem deinit_site_of_flag de : de = true ->
  forall is_state T T' p tbl tbl' sid it it',
    table_equiv T T' -> lequiv tbl tbl' -> Permutation it it' ->
    deinit_calls is_state de T p tbl sid it = deinit_calls is_state de T' p tbl' sid it'.
Proof. intros -> is_state T T' p tbl tbl' sid it it'. apply deinit_calls_sorted_perm. Qed.

Theorem py_site_of_flags pp pt : pp = true -> pt = true ->
  forall r g skip D D', wf_description D -> same_description D D' ->
    pipeline_py r g skip pp pt D = pipeline_py r g skip pp pt D'.
Proof. intros -> -> r g skip D D'. apply pipeline_py_deterministic. Qed.

Theorem index_site_of_flag gc : gc = false ->
  forall h h' n e, fst (index_vars gc h n e) = fst (index_vars gc h' n e).
Proof. intros ->. exact index_vars_history_independent. Qed.

Lemma wf_description_check D :
  nodupb_by String.eqb (map ph_name D) = true ->
  forallb (fun ph => nodupb_by Nat.eqb (map sid (ph_stmts ph))) D = true -> wf_description D.
Proof.
  intros H1 H2. split; [exact (nodupb_by_NoDup _ String.eqb_eq _ H1)|].
  apply forallb_Forall in H2. revert H2. apply Forall_impl. intros ph. apply nodupb_by_NoDup, Nat.eqb_eq.
Qed.

Definition wit_s (i : nat) (deps : list nat) : DagAst.stmt := DagAst.mkStmt i deps CTrue [] false.
Definition wit_D : list pphase :=
  [mkPh "main" "aux" [wit_s 0 []; wit_s 1 [0]; wit_s 2 [0; 1]]; mkPh "aux" "main" [wit_s 0 []]].
Definition wit_D' : list pphase :=
  [mkPh "aux" "main" [wit_s 0 []]; mkPh "main" "aux" [wit_s 2 [1; 0]; wit_s 0 []; wit_s 1 [0]]].
(* wit_D with its two phases the other way round, nothing else changed *)
Definition wit_D_swapped : list pphase :=
  [mkPh "aux" "main" [wit_s 0 []]; mkPh "main" "aux" [wit_s 0 []; wit_s 1 [0]; wit_s 2 [0; 1]]].

Lemma dep_equiv_refl a : dep_equiv a a.
Proof. repeat split; reflexivity. Qed.

Lemma same_phase_refl a : same_phase a a.
Proof.
  split; [reflexivity|]. split; [reflexivity|]. exists (ph_stmts a). split; [reflexivity|].
  induction (ph_stmts a); constructor; [apply dep_equiv_refl|assumption].
Qed.

Lemma same_description_refl D : same_description D D.
Proof.
  exists D. split; [reflexivity|]. induction D; constructor; [apply same_phase_refl|assumption].
Qed.

Lemma same_description_swap a b : same_description [a; b] [b; a].
Proof.
  exists [b; a]. split; [apply perm_swap|].
  constructor; [apply same_phase_refl|]. constructor; [apply same_phase_refl|constructor].
Qed.

Example wit_D_wf : wf_description wit_D.
Proof. apply wf_description_check; reflexivity. Qed.

(* phases swapped, statements rotated, one dependency set listed the other way round *)
Example wit_D_same : same_description wit_D wit_D'.
Proof.
  exists wit_D_swapped.
  split; [apply perm_swap|].
  constructor; [apply same_phase_refl|]. constructor; [|constructor].
  split; [reflexivity|]. split; [reflexivity|]. cbn [ph_stmts].
  exists [wit_s 2 [0; 1]; wit_s 0 []; wit_s 1 [0]]. split.
  - apply Permutation_sym. change (Permutation ([wit_s 2 [0; 1]] ++ [wit_s 0 []; wit_s 1 [0]])
                                               ([wit_s 0 []; wit_s 1 [0]] ++ [wit_s 2 [0; 1]])).
    apply Permutation_app_comm.
  - constructor; [|constructor; [apply dep_equiv_refl|constructor; [apply dep_equiv_refl|constructor]]].
    repeat split; try reflexivity. cbn. apply perm_swap.
Qed.

Lemma reorders_id : reorders (fun _ _ l => l).
Proof. intros p i l. reflexivity. Qed.
Lemma reorders_rev : reorders (fun _ _ l => rev l).
Proof. intros p i l. apply Permutation_sym, Permutation_rev. Qed.

Lemma table_equiv_refl T : table_equiv T T.
Proof. intro k. reflexivity. Qed.

(* the sites' view of the statements of wit_D: statement 2 of "main" is `(a, b) <- g(a, b)`
   and holds the last use of the user-type variables a, b and c *)
Definition wit_info (p : string) (n : nat) : sstmt :=
  match n with
  | 0 => mkS "s0" ["<state>y"] ["a"] []
  | 1 => mkS "s1" ["a"] ["b"; "c"] ["s0"]
  | _ => mkS "s2" ["a"; "b"; "c"] ["a"; "b"] ["s0"; "s1"]
  end.
Definition wit_kinds : table :=
  [((Some "main", "a"), Some (KUser "y")); ((Some "main", "b"), Some (KUser "y"));
   ((Some "main", "c"), Some (KUser "y")); ((Some "main", "temp_a"), Some (KUser "y"));
   ((Some "main", "temp_b"), Some (KUser "y")); ((Some "aux", "a"), Some (KUser "y"))].
Definition wit_is_state (x : string) : bool := String.prefix "<state>" x.

Definition wit_run (sd de : bool) (ord : string -> string -> list string -> list string) D :=
  pipeline_f true true true sd de false pgen pg_gen pg_init (fun l => l) wit_info wit_is_state
             ord ord ord wit_kinds D.

(* non-vacuity: with the repaired shapes the two stored forms, under opposite iteration orders,
   give this one result *)
Example pipeline_f_example :
  wit_run true true (fun _ _ l => l) wit_D = wit_run true true (fun _ _ l => rev l) wit_D' /\
  exists ast_main fin_main r_aux,
    wit_run true true (fun _ _ l => l) wit_D =
    [r_aux;
     ("main",
      SOk (ast_main,
           [mkS "s0" ["<state>y"] ["a"] []; mkS "s1" ["a"] ["b"; "c"] ["s0"];
            mkS "temp" ["a"] ["temp_a"] ["s0"; "s1"]; mkS "temp_0" ["b"] ["temp_b"] ["s0"; "s1"];
            mkS "s2" ["temp_a"; "temp_b"; "c"] ["a"; "b"] ["s0"; "s1"; "temp"; "temp_0"]]),
      ([("s0", DOk []); ("s1", DOk []); ("temp", DOk []); ("temp_0", DOk []);
        ("s2", DOk [("a", Some (KUser "y")); ("b", Some (KUser "y")); ("c", Some (KUser "y"));
                    ("temp_a", Some (KUser "y")); ("temp_b", Some (KUser "y"))])],
       fin_main))].
Proof.
  split; [vm_compute; reflexivity|]. eexists _, _, _. vm_compute. reflexivity.
Qed.

Definition one_phase : list pphase := [mkPh "main" "main" [wit_s 0 []; wit_s 1 [0]; wit_s 2 [0; 1]]].

Lemma one_phase_wf : wf_description one_phase.
Proof. apply wf_description_check; reflexivity. Qed.

Lemma wit_kinds_nodup : NoDup (map fst wit_kinds).
Proof. apply (nodupb_by_NoDup key_eqb key_eqb_eq). reflexivity. Qed.

(* `for var_name in read_and_written` (transform.py) not sorted *)
Theorem full_statement_refuted_selfdep de pp pt gc : ~ full_statement false de pp pt gc.
Proof.
  intros [H _].
  specialize (H true true true false pgen pg_gen pg_init (fun l => l) wit_info wit_is_state
                one_phase one_phase
                (fun _ _ l => l) (fun _ _ l => rev l) (fun _ _ l => l) (fun _ _ l => l)
                (fun _ _ l => l) (fun _ _ l => l) wit_kinds wit_kinds
                one_phase_wf (same_description_refl _)
                reorders_id reorders_rev reorders_id reorders_id reorders_id reorders_id
                wit_kinds_nodup wit_kinds_nodup (table_equiv_refl _)).
  (* the statement lists after the pass already differ; they do not depend on de *)
  apply (f_equal (map (fun x => snd (fst x)))) in H. vm_compute in H. discriminate.
Qed.

(* `for variable in read_and_written` (fortran.py emit_deinit_for_last_usage_of_vars) not sorted.
   No statement of the witness reads what it writes, so the self-dependency pass leaves the phase alone
   whatever sd is; statement 1 holds the last use of a, b and c. *)
Definition two_stmts : list pphase := [mkPh "main" "main" [wit_s 0 []; wit_s 1 [0]]].

Theorem full_statement_refuted_deinit sd pp pt gc : ~ full_statement sd false pp pt gc.
Proof.
  intros [H _].
  specialize (H true true true false pgen pg_gen pg_init (fun l => l) wit_info wit_is_state
                two_stmts two_stmts
                (fun _ _ l => l) (fun _ _ l => l) (fun _ _ l => l) (fun _ _ l => l)
                (fun _ _ l => l) (fun _ _ l => rev l) wit_kinds wit_kinds
                (wf_description_check two_stmts eq_refl eq_refl) (same_description_refl _)
                reorders_id reorders_id reorders_id reorders_id reorders_id reorders_rev
                wit_kinds_nodup wit_kinds_nodup (table_equiv_refl _)).
  vm_compute in H. discriminate.
Qed.

(* `for phase_name in dag.phases.keys()` (python.py __call__) not sorted *)
Theorem full_statement_refuted_py_phases sd de pt gc : ~ full_statement sd de false pt gc.
Proof.
  intros [_ [H _]].
  specialize (H true true true wit_D wit_D_swapped wit_D_wf (same_description_swap _ _)).
  (* the first component, which does not depend on pt *)
  apply (f_equal fst) in H. vm_compute in H. discriminate.
Qed.

(* `for phase_name, phase in dag.phases.items()` (python.py _emit_constructor) not sorted *)
Theorem full_statement_refuted_py_table sd de pp gc : ~ full_statement sd de pp false gc.
Proof.
  intros [_ [H _]].
  specialize (H true true true wit_D wit_D_swapped wit_D_wf (same_description_swap _ _)).
  apply (f_equal snd) in H. vm_compute in H. discriminate.
Qed.

(* ArrayType.INDEX_VAR_COUNTER *)
Theorem full_statement_refuted_counter sd de pp pt : ~ full_statement sd de pp pt true.
Proof.
  intros [_ [_ H]]. specialize (H 0 1 1 FBuiltin). vm_compute in H. discriminate.
Qed.

(* the orders the correspondence check dictates are iteration orders in the sense of the theorems *)

Lemma rot_perm {A} k (l : list A) : Permutation (rot k l) l.
Proof.
  unfold rot. destruct l as [|a l]; [reflexivity|].
  set (r := k mod List.length (a :: l)).
  rewrite Permutation_app_comm, firstn_skipn. reflexivity.
Qed.

Theorem policy_reorders rev k : reorders (fun _ sid s => policy rev k sid s).
Proof.
  intros p i l. unfold policy. rewrite rot_perm.
  destruct rev; [rewrite <- Permutation_rev|]; apply ssort_perm.
Qed.

Example policy_example :
  policy false 1 "s" ["c"; "a"; "b"] = ["c"; "a"; "b"] /\ policy true 0 "s" ["c"; "a"; "b"] = ["b"; "a"; "c"].
Proof. split; reflexivity. Qed.
